(* ClashFacts.v — encoding/json on a struct, two keys of one object addressing the same field (Codec.clash_unm,
   Codec.last_wins), and the key order json.Marshal gives a map[string]json.RawMessage (Codec.raw_sort):
   when the addressed fields are pairwise distinct nothing clashes and the order of the keys does not matter. *)
From Coq Require Import List Permutation Bool.
From Sebuf Require Import CodecCases.
From SebufProofs Require Import TextFacts.
Import ListNotations.

Lemma existsb_name_notin {A} (h : A -> str) (n : str) (l : list A) :
  ~ In n (map h l) -> existsb (fun g => str_eqb (h g) n) l = false.
Proof.
  intros Hn. destruct (existsb (fun g => str_eqb (h g) n) l) eqn:Hex; [|reflexivity]. exfalso.
  apply existsb_exists in Hex. destruct Hex as [g [Hin Hg]]. apply str_eqb_eq in Hg. apply Hn. rewrite <- Hg.
  apply in_map. exact Hin.
Qed.

(* pairwise distinct fields: no clash to decline *)
Lemma clash_unm_nodup fs : NoDup (map f_name fs) -> clash_unm fs = false.
Proof.
  induction fs as [|f r IH]; intros Hnd; [reflexivity|]. cbn [map] in Hnd. inversion Hnd as [|x l Hnot Hr]; subst.
  cbn [clash_unm]. rewrite (existsb_name_notin f_name (f_name f) r Hnot), Bool.andb_false_r. cbn [orb]. exact (IH Hr).
Qed.

(* pairwise distinct fields: every assignment stands *)
Lemma last_wins_nodup l : NoDup (map (fun e : field * fval => f_name (fst e)) l) -> last_wins l = l.
Proof.
  induction l as [|e r IH]; intros Hnd; [reflexivity|]. cbn [map] in Hnd. inversion Hnd as [|x l0 Hnot Hr]; subst.
  cbn [last_wins]. rewrite (existsb_name_notin (fun e' : field * fval => f_name (fst e')) (f_name (fst e)) r Hnot).
  rewrite (IH Hr). reflexivity.
Qed.

Lemma raw_insert_perm e r : Permutation (raw_insert e r) (e :: r).
Proof.
  induction r as [|e' t IH]; cbn [raw_insert]; [apply Permutation_refl|].
  destruct (Url.str_leb (fst e) (fst e')); [apply Permutation_refl|].
  eapply Permutation_trans; [apply perm_skip; exact IH|apply perm_swap].
Qed.
Lemma raw_sort_perm r : Permutation (raw_sort r) r.
Proof.
  induction r as [|e t IH]; cbn [raw_sort fold_right]; [apply Permutation_refl|].
  eapply Permutation_trans; [apply raw_insert_perm|]. apply perm_skip. exact IH.
Qed.

Lemma Forall2_perm_r {A B} (R : A -> B -> Prop) l2 l2' :
  Permutation l2 l2' -> forall l1, Forall2 R l1 l2 -> exists l1', Permutation l1 l1' /\ Forall2 R l1' l2'.
Proof.
  induction 1 as [|b t t' _ IH|b c t|t u v _ IH1 _ IH2]; intros l1 HF.
  - inversion HF; subst. exists []. split; [apply Permutation_refl|constructor].
  - inversion HF as [|a b0 r t0 Hab Hr]; subst. destruct (IH r Hr) as [r' [Hp HF']].
    exists (a :: r'). split; [apply perm_skip; exact Hp|constructor; assumption].
  - inversion HF as [|a1 b1 r1 t1 Hab1 Hr1]; subst. inversion Hr1 as [|a2 b2 r2 t2 Hab2 Hr2]; subst.
    exists (a2 :: a1 :: r2). split; [apply perm_swap|repeat constructor; assumption].
  - destruct (IH1 l1 HF) as [m1 [Hp1 HF1]]. destruct (IH2 m1 HF1) as [m2 [Hp2 HF2]].
    exists m2. split; [eapply Permutation_trans; eassumption|exact HF2].
Qed.

Lemma flat_map_via_map {A B C} (h : A -> B) (g : B -> list C) (l : list A) :
  flat_map (fun a => g (h a)) l = flat_map g (map h l).
Proof. induction l as [|a r IH]; [reflexivity|]. cbn [map flat_map]. rewrite IH. reflexivity. Qed.
