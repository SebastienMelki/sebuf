(* FlattenFacts.v — the flatten codec (internal/httpgen/flatten.go; Codec.enc_flatten and the FtFlatten branch of
   Codec.gj_un) in general:
     flatten_roundtrip_unset(1)   : C04 for every message type whose codec is the flatten one, every schema, every
                                    well-typed value (wt; wt1 = the parent may declare plain oneofs) in the region
                                    defects_C04 = [] — there no flatten field is populated (D4FlattenReset fires for every
                                    populated one): MarshalJSON is protojson plus no-op folds, and UnmarshalJSON's
                                    extraction finds nothing PROVIDED the keys it probes (prefix ++ child JSON name) are
                                    not JSON names of the parent's own populated fields
                                    (annotations.ValidateFlattenCollisions refuses such schemas);
     pj_roundtrip_wt1             : protojson both ways on OneofPj.wt1 values (message types with plain oneofs, which
                                    ProtoJsonFacts.wt rejects); C04_roundtrip_plain1: C04 for every type without a codec;
     flatten_decode_drops         : what UnmarshalJSON returns for ANY object never has a flatten field populated unless
                                    a key of the object itself addresses that field;
     flatten_set_never_roundtrips : hence a value with a populated flatten field (empty child included) is never given
                                    back — C04_refuted_flatten_reset for all schemas and values, under a condition on the
                                    JSON the encoder wrote; _reflected: under schema-level conditions only, when the
                                    populated children are rendered by reflection. *)
From Coq Require Import ZArith List.
From Sebuf Require Import CodecCases.
From SebufProofs Require Import TextFacts ListFacts CodecTextFacts ProtoJsonFacts CodecExamples CodecFacts CodecBase.
From SebufProofs Require OneofPj GoJsonFacts.
Import ListNotations.

Open Scope Z_scope.


(* the keys UnmarshalJSON looks up for the flatten field f: prefix ++ JSON name of every field of the child type *)
Definition probe_keys (sc : schema) (f : field) : list str :=
  match lookup_message sc (msg_name (f_kind f)) with
  | Some cmd => map (fun cf => flat_prefix f ++ jn cf) (m_fields cmd)
  | None => []
  end.

(* every flatten field is a field of a declared message type (annotations.ValidateFlattenField: "flatten is only
   valid on message fields"; protoc resolves the type) *)
Definition flatten_children_known (sc : schema) (md : message) : bool :=
  forallb (fun f => negb (is_flatten f) ||
                    match lookup_message sc (msg_name (f_kind f)) with Some _ => true | None => false end) (m_fields md).

(* no probed key is the JSON name of a populated field of the value (value level: the weakest form) *)
Definition flatten_probe_ok (sc : schema) (md : message) (m : mval) : bool :=
  forallb (fun f => negb (is_flatten f) ||
                    forallb (fun k => negb (existsb (fun e => str_eqb (json_name (fst e)) k) m)) (probe_keys sc f))
          (m_fields md).

(* the schema-level form, which is (part of) what annotations.ValidateFlattenCollisions enforces: no probed key is
   the JSON name of a non-flattened field of the parent *)
Definition flatten_no_collision (sc : schema) (md : message) : bool :=
  forallb (fun f => negb (is_flatten f) ||
                    forallb (fun k => negb (existsb (fun g => negb (is_flatten g) && str_eqb (jn g) k) (m_fields md)))
                            (probe_keys sc f))
          (m_fields md).

Definition flatten_unset (md : message) (m : mval) : bool :=
  forallb (fun f => negb (is_flatten f) || match mget m (f_name f) with Some _ => false | None => true end) (m_fields md).


Lemma mget_present (m : mval) name x : In (name, x) m -> exists y, mget m name = Some y.
Proof.
  intros Hin. destruct (mget m name) as [y|] eqn:Eg; [exists y; reflexivity|]. exfalso.
  apply (mget_in m name); [|exact Eg]. apply (in_map fst) in Hin. exact Hin.
Qed.

Section Bodies.
Variable E : ExtLib.
Variable sc : schema.

(* flatten.go:255-329, one flatten field: the body of the model's loop, its case tree copied verbatim so that
   [gj_un_flatten] (through dec_flat) holds by reflexivity *)
Definition dec_flat1 (n : nat) (raw : rawmap) (f : field) : res rawmap :=
  if is_flatten f then
    match lookup_message sc (msg_name (f_kind f)) with
    | None => RUnm (s "unknown message type")
    | Some cmd =>
        let child := flat_map (fun cf => match raw_get (flat_prefix f ++ jn cf) raw with
                                         | Some v => [(jn cf, v)] | None => [] end) (m_fields cmd) in
        let raw' := fold_left (fun r cf => raw_del (flat_prefix f ++ jn cf) r) (m_fields cmd) raw in
        match child with
        | [] => ROk raw'
        | _ => gj_un E sc n (f_kind f) (JObj child) >>= (fun _ => ROk raw')
        end
    end
  else ROk raw.

Definition dec_flat (n : nat) (md : message) (raw : rawmap) : res rawmap :=
  fold_left (fun acc f => acc >>= (fun raw => dec_flat1 n raw f)) (m_fields md) (ROk raw).

Lemma gj_un_flatten n tn md raw :
  is_wkt_other tn = false -> lookup_message sc tn = Some md -> owner_of sc md = Own FtFlatten ->
  gj_un E sc (S n) (KMessage tn) (JObj raw) =
  dec_flat n md raw >>= (fun raw' => pj_un E sc (KMessage tn) (JObj raw') >>= (fun v => ROk (Some v))).
Proof. intros H1 H2 H3. cbn [gj_un]. apply (own_branch _ _ md _ FtFlatten _ _ _ _ _ _ H1 H2 H3). reflexivity. Qed.

(* flatten.go:224-251, one flatten field: the body of the model's loop, its case tree copied verbatim so that
   [enc_flatten_fold] holds by reflexivity *)
Definition enc_flat1 (m : mval) (ks : kids_t) (raw : rawmap) (f : field) : res rawmap :=
  if is_flatten f then
    match mget m (f_name f) with
    | Some _ =>
        kid ks (f_name f) >>= (fun cj =>
        match cj with
        | JObj ckv => ROk (fold_left (fun r e => raw_set (flat_prefix f ++ fst e) (snd e) r) ckv (raw_del (jn f) raw))
        | JNull => ROk (raw_del (jn f) raw)
        | _ => RErr (s "flatten child is not a JSON object")
        end)
    | None => ROk raw
    end
  else ROk raw.

Lemma enc_flatten_fold md m ks raw :
  enc_flatten md m ks raw = fold_left (fun acc f => acc >>= (fun raw => enc_flat1 m ks raw f)) (m_fields md) (ROk raw).
Proof. reflexivity. Qed.

Lemma encode_flatten_inv tn md m j :
  str_eqb tn ts_name = false -> is_wkt_other tn = false -> find_message (all_messages sc) tn = Some md ->
  owner_of sc md = Own FtFlatten -> encode E sc tn m = ROk j ->
  exists ks (es : rawmap) r, kids_loop E sc FtFlatten md m = ROk ks /\ m_msg E sc md m = ROk es /\
                  enc_flatten md m ks es = ROk r /\ j = JObj r.
Proof.
  intros Hts Hwk Hfm Hown Henc.
  destruct (encode_owned_inv E sc tn md FtFlatten m j Hwk (find_lookup sc tn md Hts Hfm) Hown Henc) as [_ [ks [Hks Hbody]]].
  destruct (OneofPj.pj_marshal_obj E sc tn md m (fun raw => enc_flatten md m ks raw >>= (fun r => ROk (JObj r))) j Hts Hwk Hfm Hbody)
    as [es [Hes Hj]].
  apply rbind_ok in Hj. destruct Hj as [r [Hr Hj]]. inversion Hj. exists ks, es, r. auto.
Qed.

Lemma enc_flat_unset m ks fs : forall raw,
  (forall f, In f fs -> is_flatten f = true -> mget m (f_name f) = None) ->
  fold_left (fun acc f => acc >>= (fun raw => enc_flat1 m ks raw f)) fs (ROk raw) = ROk raw.
Proof.
  induction fs as [|f r IH]; intros raw H; [reflexivity|]. cbn [fold_left rbind].
  assert (Hstep : enc_flat1 m ks raw f = ROk raw).
  { unfold enc_flat1. destruct (is_flatten f) eqn:Ef; [|reflexivity].
    rewrite (H f (or_introl eq_refl) Ef). reflexivity. }
  rewrite Hstep. apply IH. intros g Hg. apply H. right. exact Hg.
Qed.

Lemma dec_flat1_nohit n raw f cmd :
  lookup_message sc (msg_name (f_kind f)) = Some cmd ->
  (forall cf, In cf (m_fields cmd) -> raw_has (flat_prefix f ++ jn cf) raw = false) ->
  dec_flat1 n raw f = ROk raw.
Proof.
  intros Hl Hno. unfold dec_flat1. destruct (is_flatten f); [|reflexivity]. rewrite Hl. cbv zeta.
  assert (Hchild : flat_map (fun cf => match raw_get (flat_prefix f ++ jn cf) raw with
                                      | Some v => [(jn cf, v)] | None => [] end) (m_fields cmd) = []).
  { revert Hno. generalize (m_fields cmd). intros l. induction l as [|cf t IH]; intros Hno; [reflexivity|].
    cbn [flat_map]. rewrite (raw_get_not_has _ _ (Hno cf (or_introl eq_refl))). cbn [app].
    apply IH. intros c Hc. apply Hno. right. exact Hc. }
  rewrite Hchild. f_equal. apply (fold_raw_del_notin (fun cf => flat_prefix f ++ jn cf)). exact Hno.
Qed.

Lemma dec_flat_nohit n fs : forall raw,
  (forall f, In f fs -> is_flatten f = true ->
     exists cmd, lookup_message sc (msg_name (f_kind f)) = Some cmd /\
                 forall cf, In cf (m_fields cmd) -> raw_has (flat_prefix f ++ jn cf) raw = false) ->
  fold_left (fun acc f => acc >>= (fun raw => dec_flat1 n raw f)) fs (ROk raw) = ROk raw.
Proof.
  induction fs as [|f r IH]; intros raw H; [reflexivity|]. cbn [fold_left rbind].
  assert (Hstep : dec_flat1 n raw f = ROk raw).
  { destruct (is_flatten f) eqn:Ef.
    - destruct (H f (or_introl eq_refl) Ef) as [cmd [Hl Hno]]. exact (dec_flat1_nohit n raw f cmd Hl Hno).
    - unfold dec_flat1. rewrite Ef. reflexivity. }
  rewrite Hstep. apply IH. intros g Hg. apply H. right. exact Hg.
Qed.

(* the extraction only ever deletes *)
Lemma dec_flat1_sub n raw f raw' : dec_flat1 n raw f = ROk raw' -> forall e, In e raw' -> In e raw.
Proof.
  unfold dec_flat1. destruct (is_flatten f); [|intros H; inversion H; subst; auto].
  destruct (lookup_message sc (msg_name (f_kind f))) as [cmd|]; [|discriminate]. cbv zeta.
  set (child := flat_map _ (m_fields cmd)). set (del := fold_left _ (m_fields cmd) raw).
  assert (Hdel : forall e, In e del -> In e raw).
  { intros e He. unfold del in He. rewrite fold_raw_del in He. exact (proj1 (proj1 (In_del_all _ _ _) He)). }
  destruct child as [|c0 ch].
  - intros H. inversion H; subst. exact Hdel.
  - intros H. apply rbind_ok in H. destruct H as [o [_ H]]. inversion H; subst. exact Hdel.
Qed.

Lemma dec_flat_sub n md raw raw' : dec_flat n md raw = ROk raw' -> forall e, In e raw' -> In e raw.
Proof.
  unfold dec_flat. intros H.
  apply (fold_bind_inv (fun raw f => dec_flat1 n raw f) (fun a b : rawmap => forall e, In e b -> In e a)) with (l := m_fields md).
  - auto.
  - intros a b c Hab Hbc e He. apply Hab, Hbc, He.
  - intros a b a' Hs. exact (dec_flat1_sub n a b a' Hs).
  - exact H.
Qed.

Lemma kids_flatten_unset md m :
  (forall name x, In (name, x) m -> exists f, find_field (m_fields md) name = Some f /\ is_flatten f = false) ->
  kids_loop E sc FtFlatten md m = ROk [].
Proof.
  induction m as [|[name x] r IH]; intros H; [reflexivity|]. cbn [kids_loop].
  destruct (H name x (or_introl eq_refl)) as [f [Hf Hfl]]. rewrite Hf. cbn [needs_gj]. rewrite Hfl.
  apply IH. intros n y Hin. apply (H n y). right. exact Hin.
Qed.
End Bodies.

Lemma defects_nil_flatten_unset sc tn md m :
  lookup_message sc tn = Some md -> owner_of sc md = Own FtFlatten ->
  defects_C04 sc tn m = [] ->
  forall f, In f (m_fields md) -> is_flatten f = true -> mget m (f_name f) = None.
Proof.
  intros Hlk Hown Hd f Hin Hfl.
  pose proof (defects_nil_local sc tn md FtFlatten m Hlk Hown Hd) as Hloc.
  unfold local_defects in Hloc. rewrite Hown in Hloc. cbv zeta in Hloc.
  apply app_eq_nil in Hloc. destruct Hloc as [Hset _].
  destruct (filter (fun f0 => is_flatten f0 && match mget m (f_name f0) with Some _ => true | None => false end) (m_fields md))
    as [|f0 l0] eqn:Hfil; [|discriminate Hset].
  pose proof (proj1 (filter_nil _ _) Hfil f Hin) as Hp. cbv beta in Hp. rewrite Hfl in Hp. cbn [andb] in Hp.
  destruct (mget m (f_name f)); [discriminate Hp|reflexivity].
Qed.

Lemma flatten_unset_spec md m :
  flatten_unset md m = true <-> (forall f, In f (m_fields md) -> is_flatten f = true -> mget m (f_name f) = None).
Proof.
  unfold flatten_unset. rewrite forallb_forall. split.
  - intros H f Hin Hfl. specialize (H f Hin). rewrite Hfl in H. cbn [negb orb] in H.
    destruct (mget m (f_name f)); [discriminate H|reflexivity].
  - intros H f Hin. destruct (is_flatten f) eqn:Hfl; [|reflexivity]. rewrite (H f Hin Hfl). reflexivity.
Qed.

(* in the region defects_C04 = [] of a flatten owner no flatten field is populated *)
Lemma defects_nil_iff_flatten_unset sc tn md m :
  lookup_message sc tn = Some md -> owner_of sc md = Own FtFlatten ->
  defects_C04 sc tn m = [] -> flatten_unset md m = true.
Proof. intros Hlk Hown Hd. apply flatten_unset_spec. exact (defects_nil_flatten_unset sc tn md m Hlk Hown Hd). Qed.

Lemma unset_not_flatten sc md m : wt_fields sc md m = true ->
  (forall f, In f (m_fields md) -> is_flatten f = true -> mget m (f_name f) = None) ->
  forall name x, In (name, x) m -> exists f, find_field (m_fields md) name = Some f /\ is_flatten f = false.
Proof.
  intros Hwf Hunset name x Hin. destruct (wt_fields_in sc md m name x Hwf Hin) as [f [Hf _]].
  exists f. split; [exact Hf|]. destruct (is_flatten f) eqn:Hfl; [exfalso|reflexivity].
  destruct (find_field_spec _ _ _ Hf) as [Hinf Hname].
  destruct (mget_present m name x Hin) as [y Hy]. rewrite <- Hname, (Hunset f Hinf Hfl) in Hy. discriminate Hy.
Qed.

(* the validator's schema-level check gives the value-level side condition *)
Lemma flatten_no_collision_probe_ok sc md m :
  (forall name x, In (name, x) m -> exists f, find_field (m_fields md) name = Some f /\ is_flatten f = false) ->
  flatten_no_collision sc md = true -> flatten_probe_ok sc md m = true.
Proof.
  intros Hm Hnc. unfold flatten_no_collision in Hnc. unfold flatten_probe_ok.
  rewrite forallb_forall in Hnc. apply forallb_forall. intros f Hin. specialize (Hnc f Hin).
  destruct (is_flatten f); [|reflexivity]. cbn [negb orb] in *.
  rewrite forallb_forall in Hnc. apply forallb_forall. intros k Hk. specialize (Hnc k Hk).
  apply Bool.negb_true_iff in Hnc. apply Bool.negb_true_iff.
  destruct (existsb (fun e : str * fval => str_eqb (json_name (fst e)) k) m) eqn:Hex; [|reflexivity]. exfalso.
  apply existsb_exists in Hex. destruct Hex as [[name x] [Hinm Heq]]. cbn [fst] in Heq.
  destruct (Hm name x Hinm) as [g [Hg Hgf]]. destruct (find_field_spec _ _ _ Hg) as [Hing Hname].
  assert (Ht : existsb (fun g0 => negb (is_flatten g0) && str_eqb (jn g0) k) (m_fields md) = true).
  { apply existsb_exists. exists g. split; [exact Hing|]. rewrite Hgf. cbn [negb andb]. unfold jn. rewrite Hname. exact Heq. }
  congruence.
Qed.

(* protojson on a message type that declares (plain) oneofs: ProtoJsonFacts.pj_roundtrip for OneofPj.wt1 values *)
Section PjWt1.
Variable E : ExtLib.
Hypothesis EL : ExtLaws E.
Variable sc : schema.

(* protojson.Unmarshal (protojson.Marshal m) = m for wt1 values: plain oneofs included *)
Theorem pj_roundtrip_wt1 : forall tn m j,
  OneofPj.wt1 sc tn m = true -> pj_marshal E sc tn m = ROk j -> pj_unmarshal E sc tn j = ROk m.
Proof.
  intros tn m j Hwt1 Hj.
  destruct (OneofPj.wt1_inv sc tn m Hwt1) as [Hts [Hwk [md [Hfm [Hlk [Hok1 [Hsorted [Hwf Hex]]]]]]]].
  unfold pj_marshal in Hj. rewrite pj_fval_FM, Hts, Hwk, Hfm in Hj.
  apply rbind_ok in Hj. destruct Hj as [es [Hes Hj]]. inversion Hj; subst j.
  unfold pj_unmarshal. rewrite (OneofPj.pj_un_wt1 E EL sc tn md m es Hts Hwk Hfm Hok1 Hsorted Hwf Hex Hes). reflexivity.
Qed.

(* C04 for every message type without a codec of its own, plain oneofs included (CodecFacts.C04_roundtrip_plain with
   wt1 in place of wt) *)
Theorem C04_roundtrip_plain1 : forall tn m j,
  owns sc tn = false -> OneofPj.wt1 sc tn m = true ->
  encode E sc tn m = ROk j -> decode E sc tn j = ROk (norm sc tn m).
Proof.
  intros tn m j Hown Hwt1 Henc.
  unfold encode, decode in *. rewrite Hown in *. rewrite (norm_not_owned sc tn m Hown).
  exact (pj_roundtrip_wt1 tn m j Hwt1 Henc).
Qed.
End PjWt1.

(* wt1 in place of wt: the parent may declare plain oneofs beside its flatten fields *)
Theorem flatten_roundtrip_unset1 : forall E, ExtLaws E -> forall sc tn md m j,
  find_message (all_messages sc) tn = Some md -> owner_of sc md = Own FtFlatten ->
  OneofPj.wt1 sc tn m = true -> defects_C04 sc tn m = [] ->
  flatten_children_known sc md = true -> flatten_probe_ok sc md m = true ->
  encode E sc tn m = ROk j -> decode E sc tn j = ROk (norm sc tn m).
Proof.
  intros E EL sc tn md m j Hfm Hown Hwt1 Hdef Hknown Hprobe Henc.
  destruct (OneofPj.wt1_inv sc tn m Hwt1) as [Hts [Hwk [md' [Hfm' [Hlk [Hok1 [Hsorted [Hwf Hex]]]]]]]].
  assert (md' = md) by congruence. subst md'.
  assert (Hnorm : norm sc tn m = m) by (unfold norm; rewrite Hlk, Hown; reflexivity).
  rewrite Hnorm.
  pose proof (defects_nil_flatten_unset sc tn md m Hlk Hown Hdef) as Hunset.
  pose proof (unset_not_flatten sc md m Hwf Hunset) as Hpop.
  destruct (encode_flatten_inv E sc tn md m j Hts Hwk Hfm Hown Henc) as [ks [es [r [Hks [Hes [Hr Hj]]]]]]. subst j.
  rewrite (kids_flatten_unset E sc md m Hpop) in Hks. inversion Hks; subst ks.
  rewrite enc_flatten_fold, (enc_flat_unset m [] (m_fields md) es Hunset) in Hr. inversion Hr; subst r.
  pose proof (m_msg_keys E sc md m es Hes) as Hkeys.
  assert (Hno : forall f, In f (m_fields md) -> is_flatten f = true ->
            exists cmd, lookup_message sc (msg_name (f_kind f)) = Some cmd /\
                        forall cf, In cf (m_fields cmd) -> raw_has (flat_prefix f ++ jn cf) es = false).
  { intros f Hin Hfl.
    unfold flatten_children_known in Hknown. rewrite forallb_forall in Hknown. specialize (Hknown f Hin).
    rewrite Hfl in Hknown. cbn [negb orb] in Hknown.
    destruct (lookup_message sc (msg_name (f_kind f))) as [cmd|] eqn:Hl; [|discriminate Hknown].
    exists cmd. split; [reflexivity|]. intros cf Hcf.
    unfold flatten_probe_ok in Hprobe. rewrite forallb_forall in Hprobe. specialize (Hprobe f Hin).
    rewrite Hfl in Hprobe. cbn [negb orb] in Hprobe. rewrite forallb_forall in Hprobe.
    assert (Hk : In (flat_prefix f ++ jn cf) (probe_keys sc f)).
    { unfold probe_keys. rewrite Hl. apply (in_map (fun c => flat_prefix f ++ jn c)). exact Hcf. }
    specialize (Hprobe _ Hk). apply Bool.negb_true_iff in Hprobe.
    destruct (raw_has (flat_prefix f ++ jn cf) es) eqn:Eh; [exfalso|reflexivity].
    apply raw_has_keys in Eh. rewrite Hkeys in Eh. apply in_map_iff in Eh. destruct Eh as [e [He Hine]].
    assert (Ht : existsb (fun e0 : str * fval => str_eqb (json_name (fst e0)) (flat_prefix f ++ jn cf)) m = true).
    { apply existsb_exists. exists e. split; [exact Hine|]. rewrite He. apply str_eqb_refl. }
    congruence. }
  unfold decode. rewrite (owner_owns sc tn md FtFlatten Hlk Hown). cbv beta iota.
  rewrite (gj_un_flatten E sc _ tn md es Hwk Hlk Hown).
  unfold dec_flat. rewrite (dec_flat_nohit E sc _ (m_fields md) es Hno), rbind_ROk.
  rewrite (OneofPj.pj_un_wt1 E EL sc tn md m es Hts Hwk Hfm Hok1 Hsorted Hwf Hex Hes). reflexivity.
Qed.

Theorem flatten_roundtrip_unset : forall E, ExtLaws E -> forall sc tn md m j,
  find_message (all_messages sc) tn = Some md -> owner_of sc md = Own FtFlatten ->
  wt sc (KMessage tn) (FM m) = true -> defects_C04 sc tn m = [] ->
  flatten_children_known sc md = true -> flatten_probe_ok sc md m = true ->
  encode E sc tn m = ROk j -> decode E sc tn j = ROk (norm sc tn m).
Proof.
  intros E EL sc tn md m j Hfm Hown Hwt Hdef Hknown Hprobe Henc.
  destruct (OneofPj.wt_cases sc tn m Hwt) as [->|[_ Hwt1]].
  - (* a type named like Timestamp is Timestamp: protojson both ways *)
    exact (C04_roundtrip_plain E EL sc ts_name m j (owns_ts_name sc) Hwt Henc).
  - exact (flatten_roundtrip_unset1 E EL sc tn md m j Hfm Hown Hwt1 Hdef Hknown Hprobe Henc).
Qed.

Theorem flatten_roundtrip_unset_schema : forall E, ExtLaws E -> forall sc tn md m j,
  find_message (all_messages sc) tn = Some md -> owner_of sc md = Own FtFlatten ->
  wt sc (KMessage tn) (FM m) = true -> defects_C04 sc tn m = [] ->
  flatten_children_known sc md = true -> flatten_no_collision sc md = true ->
  encode E sc tn m = ROk j -> decode E sc tn j = ROk (norm sc tn m).
Proof.
  intros E EL sc tn md m j Hfm Hown Hwt Hdef Hknown Hnc Henc.
  destruct (OneofPj.wt_cases sc tn m Hwt) as [->|[Hts Hwt1]].
  { exact (C04_roundtrip_plain E EL sc ts_name m j (owns_ts_name sc) Hwt Henc). }
  apply (flatten_roundtrip_unset1 E EL sc tn md m j Hfm Hown Hwt1 Hdef Hknown); [|exact Henc].
  destruct (OneofPj.wt1_inv sc tn m Hwt1) as [_ [_ [md' [Hfm' [Hlk [_ [_ [Hwf _]]]]]]]].
  assert (md' = md) by congruence. subst md'.
  apply flatten_no_collision_probe_ok; [|exact Hnc].
  exact (unset_not_flatten sc md m Hwf (defects_nil_flatten_unset sc tn md m Hlk Hown Hdef)).
Qed.


Lemma assemble_in fvs name x :
  In (name, x) (assemble fvs) -> exists fv, In fv fvs /\ f_name (fst fv) = name /\ snd fv = x.
Proof.
  unfold assemble. intros H. apply in_map_iff in H. destruct H as [[n e] [He Hin]]. cbn [snd] in He. subst e.
  revert Hin. induction fvs as [|fv r IH]; intros Hin; [destruct Hin|]. cbn [fold_right] in Hin.
  destruct (populated (fst fv) (snd fv)).
  - apply GoJsonFacts.insert_in in Hin. destruct Hin as [Heq|Hin].
    + inversion Heq; subst. exists fv. split; [left; reflexivity|split; reflexivity].
    + destruct (IH Hin) as [fv' [H1 H2]]. exists fv'. split; [right; exact H1|exact H2].
  - destruct (IH Hin) as [fv' [H1 H2]]. exists fv'. split; [right; exact H1|exact H2].
Qed.

Lemma u_fields_in E sc md kv : forall fvs, u_fields E sc md kv = ROk fvs ->
  forall fv, In fv fvs -> exists e, In e kv /\ field_of_key md (fst e) = Some (fst fv).
Proof.
  induction kv as [|[key jv] r IH]; intros fvs H fv Hin.
  - cbn [u_fields] in H. inversion H; subst. destruct Hin.
  - cbn [u_fields] in H. destruct (field_of_key md key) as [f|] eqn:Ek; [|discriminate H].
    apply rbind_ok in H. destruct H as [ov [Hov H]]. apply rbind_ok in H. destruct H as [rest [Hrest H]].
    inversion H; subst fvs. clear H.
    assert (Hcase : fv = (f, match ov with Some v => v | None => snd fv end) /\ ov <> None \/ In fv rest).
    { destruct ov as [v|]; [destruct Hin as [Hin|Hin]; [left; subst fv; split; [reflexivity|discriminate]|right; exact Hin]|right; exact Hin]. }
    destruct Hcase as [[Hfv _]|Hr].
    + exists (key, jv). split; [left; reflexivity|]. cbn [fst]. rewrite Ek, Hfv. reflexivity.
    + destruct (IH rest Hrest fv Hr) as [e [He Hk]]. exists e. split; [right; exact He|exact Hk].
Qed.

(* no key of the object addresses a populated flatten field of m *)
Definition keys_off_set_flatten (md : message) (m : mval) (j : json) : bool :=
  match j with
  | JObj kv => forallb (fun e => match field_of_key md (fst e) with
                                 | Some g => negb (is_flatten g && match mget m (f_name g) with Some _ => true | None => false end)
                                 | None => true
                                 end) kv
  | _ => true
  end.

(* the decoder, on ANY object: a field of the result is addressed by a key of the object itself *)
Lemma flatten_decode_keys E sc tn md kv m' :
  str_eqb tn ts_name = false -> is_wkt_other tn = false ->
  find_message (all_messages sc) tn = Some md -> owner_of sc md = Own FtFlatten ->
  decode E sc tn (JObj kv) = ROk m' ->
  forall name x, In (name, x) m' ->
  exists e g, In e kv /\ field_of_key md (fst e) = Some g /\ f_name g = name.
Proof.
  intros Hts Hwk Hfm Hown Hdec name x Hin.
  assert (Hlk : lookup_message sc tn = Some md) by (unfold lookup_message; rewrite Hts; exact Hfm).
  assert (Howns : owns sc tn = true) by (unfold owns; rewrite Hlk, Hown; reflexivity).
  unfold decode in Hdec. rewrite Howns in Hdec. cbv beta iota in Hdec.
  rewrite (gj_un_flatten E sc _ tn md kv Hwk Hlk Hown) in Hdec.
  apply rbind_ok in Hdec. destruct Hdec as [o [Hun Hfin]].
  apply rbind_ok in Hun. destruct Hun as [raw' [Hflat Hpj]].
  apply rbind_ok in Hpj. destruct Hpj as [v [Hv Ho]]. inversion Ho; subst o. clear Ho.
  rewrite (pj_un_msg E sc tn (JObj raw') Hts Hwk), Hfm in Hv.
  destruct (dup_check md raw'); [discriminate Hv|].
  apply rbind_ok in Hv. destruct Hv as [fvs [Hfvs Hv]]. inversion Hv; subst v. clear Hv.
  cbv iota in Hfin. inversion Hfin; subst m'. clear Hfin.
  destruct (assemble_in fvs name x Hin) as [fv [Hfv [Hn _]]].
  destruct (u_fields_in E sc md raw' fvs Hfvs fv Hfv) as [e [He Hk]].
  exists e, (fst fv). split; [exact (dec_flat_sub E sc _ md kv raw' Hflat e He)|]. split; [exact Hk|exact Hn].
Qed.

(* so it never has a flatten field populated unless a key of the object addresses that field *)
Theorem flatten_decode_drops : forall E sc tn md kv m',
  str_eqb tn ts_name = false -> is_wkt_other tn = false ->
  find_message (all_messages sc) tn = Some md -> owner_of sc md = Own FtFlatten ->
  forallb (fun e => match field_of_key md (fst e) with Some g => negb (is_flatten g) | None => true end) kv = true ->
  decode E sc tn (JObj kv) = ROk m' ->
  forall name x g, In (name, x) m' -> In g (m_fields md) -> f_name g = name -> OneofPj.msg_ok1 md = true -> is_flatten g = false.
Proof.
  intros E sc tn md kv m' Hts Hwk Hfm Hown Hoff Hdec name x g Hin Hg Hname Hok.
  destruct (flatten_decode_keys E sc tn md kv m' Hts Hwk Hfm Hown Hdec name x Hin) as [e [g' [He [Hk Hn]]]].
  rewrite forallb_forall in Hoff. specialize (Hoff e He). rewrite Hk in Hoff.
  assert (g' = g).
  { pose proof (OneofPj.msg_ok1_key_in md g Hok Hg) as H1.
    pose proof (OneofPj.msg_ok1_key_in md g' Hok (field_of_key_in md _ _ Hk)) as H2.
    unfold jn in H1, H2. rewrite Hn, <- Hname in H2. congruence. }
  subst g'. apply Bool.negb_true_iff in Hoff. exact Hoff.
Qed.

Lemma encode_flatten_obj E sc tn md m j :
  is_wkt_other tn = false -> lookup_message sc tn = Some md -> owner_of sc md = Own FtFlatten ->
  encode E sc tn m = ROk j -> exists kv, j = JObj kv.
Proof.
  intros Hwk Hlk Hown Henc.
  destruct (encode_owned_inv E sc tn md FtFlatten m j Hwk Hlk Hown Henc) as [_ [ks [_ Hbody]]].
  apply rbind_ok in Hbody. destruct Hbody as [raw [_ Hbody]].
  apply rbind_ok in Hbody. destruct Hbody as [r [_ Hbody]]. inversion Hbody. exists r. reflexivity.
Qed.

(* C04_refuted_flatten_reset for all schemas and values: whenever some flatten field is populated (with any child,
   the empty one included) the value is not given back.  Side condition, on the JSON the encoder wrote: no key of it
   addresses a populated flatten field (a flattened child key named like the flatten field itself would) *)
Theorem flatten_set_never_roundtrips1 : forall E sc tn md m j,
  lookup_message sc tn = Some md -> owner_of sc md = Own FtFlatten ->
  OneofPj.wt1 sc tn m = true ->
  flatten_unset md m = false ->
  encode E sc tn m = ROk j ->
  keys_off_set_flatten md m j = true ->
  decode E sc tn j <> ROk (norm sc tn m).
Proof.
  intros E sc tn md m j Hlk Hown Hwt1 Hset Henc Hoff Hdec.
  destruct (OneofPj.wt1_inv sc tn m Hwt1) as [Hts [Hwk [md' [Hfm [Hlk' [Hok1 [Hsorted [Hwf Hexo]]]]]]]].
  assert (md' = md) by congruence. subst md'.
  assert (Hnorm : norm sc tn m = m) by (unfold norm; rewrite Hlk, Hown; reflexivity).
  rewrite Hnorm in Hdec.
  destruct (encode_flatten_obj E sc tn md m j Hwk Hlk Hown Henc) as [kv Hj]. subst j.
  assert (Hex : exists f y, In f (m_fields md) /\ is_flatten f = true /\ mget m (f_name f) = Some y).
  { destruct (existsb (fun f => is_flatten f && match mget m (f_name f) with Some _ => true | None => false end) (m_fields md)) eqn:Hexb.
    - apply existsb_exists in Hexb. destruct Hexb as [f [Hin Hp]]. apply andb_prop in Hp. destruct Hp as [Hfl Hg].
      destruct (mget m (f_name f)) as [y|] eqn:Eg; [|discriminate Hg]. exists f, y. repeat split; assumption.
    - exfalso. rewrite (proj2 (flatten_unset_spec md m)) in Hset; [discriminate Hset|]. intros f Hin Hfl.
      pose proof (proj1 (existsb_false _ _) Hexb f Hin) as Hp. cbv beta in Hp. rewrite Hfl in Hp.
      destruct (mget m (f_name f)); [discriminate Hp|reflexivity]. }
  destruct Hex as [f [y [Hinf [Hfl Hy]]]].
  pose proof (mget_pair m _ _ Hy) as Hinm.
  destruct (flatten_decode_keys E sc tn md kv m Hts Hwk Hfm Hown Hdec (f_name f) y Hinm) as [e [g [He [Hk Hn]]]].
  assert (g = f).
  { pose proof (OneofPj.msg_ok1_key_in md f Hok1 Hinf) as H1.
    pose proof (OneofPj.msg_ok1_key_in md g Hok1 (field_of_key_in md _ _ Hk)) as H2.
    unfold jn in H1, H2. rewrite Hn in H2. congruence. }
  subst g. cbn [keys_off_set_flatten] in Hoff. rewrite forallb_forall in Hoff. specialize (Hoff e He).
  rewrite Hk, Hfl, Hy in Hoff. discriminate Hoff.
Qed.

Theorem flatten_set_never_roundtrips : forall E sc tn md m j,
  lookup_message sc tn = Some md -> owner_of sc md = Own FtFlatten ->
  wt sc (KMessage tn) (FM m) = true ->
  flatten_unset md m = false ->
  encode E sc tn m = ROk j ->
  keys_off_set_flatten md m j = true ->
  decode E sc tn j <> ROk (norm sc tn m).
Proof.
  intros E sc tn md m j Hlk Hown Hwt Hset Henc Hoff.
  destruct (OneofPj.wt_cases sc tn m Hwt) as [->|[_ Hwt1]].
  { unfold lookup_message in Hlk. rewrite str_eqb_refl in Hlk. inversion Hlk; subst md.
    rewrite ts_message_unowned in Hown. discriminate Hown. }
  exact (flatten_set_never_roundtrips1 E sc tn md m j Hlk Hown Hwt1 Hset Henc Hoff).
Qed.

Lemma fold_set_keys p (ckv : rawmap) : forall r0 k,
  In k (map fst (fold_left (fun r e => raw_set (p ++ fst e) (snd e) r) ckv r0)) ->
  In k (map fst r0) \/ exists ck, In ck (map fst ckv) /\ k = p ++ ck.
Proof.
  induction ckv as [|e t IH]; intros r0 k H; [left; exact H|]. cbn [fold_left] in H.
  destruct (IH _ _ H) as [H1|[ck [Hck Hk]]].
  - apply keys_raw_set in H1. destruct H1 as [H1|H1]; [right; exists (fst e); split; [left; reflexivity|exact H1]|left; exact H1].
  - right. exists ck. split; [right; exact Hck|exact Hk].
Qed.

(* a field under `omitempty`: dropped when it is an empty byte string, written otherwise *)
Lemma omitempty_case {A} (P : A -> Prop) (x : fval) (a b : A) :
  P (match x with FS (VBytes []) => a | _ => b end) -> P a \/ P b.
Proof. destruct x as [[z|c|y|[|c y]|c|z]|cm|l|kv]; auto. Qed.

Section EncKeys.
Variable E : ExtLib.
Variable sc : schema.
Variable md : message.
Variable m : mval.
Variable ks : kids_t.

(* a key contributed by a populated flatten field *)
Definition child_key (k : str) : Prop :=
  exists f ckv ck, In f (m_fields md) /\ is_flatten f = true /\ mget m (f_name f) <> None /\
                   kid ks (f_name f) = ROk (JObj ckv) /\ In ck (map fst ckv) /\ k = flat_prefix f ++ ck.

Lemma enc_flat_keys fs : forall raw r,
  (forall f, In f fs -> In f (m_fields md)) ->
  fold_left (fun acc f => acc >>= (fun raw => enc_flat1 m ks raw f)) fs (ROk raw) = ROk r ->
  forall k, In k (map fst r) ->
  (In k (map fst raw) /\ forall f, In f fs -> is_flatten f = true -> mget m (f_name f) <> None -> k <> jn f) \/ child_key k.
Proof.
  induction fs as [|f t IH]; intros raw r Hsub H k Hk.
  - cbn [fold_left] in H. inversion H; subst. left. split; [exact Hk|]. intros f [].
  - cbn [fold_left rbind] in H. destruct (enc_flat1 m ks raw f) as [raw1|e|w] eqn:Estep.
    2:{ rewrite fold_bind_fail in H by (intros x; discriminate). discriminate H. }
    2:{ rewrite fold_bind_fail in H by (intros x; discriminate). discriminate H. }
    destruct (IH raw1 r (fun g Hg => Hsub g (or_intror Hg)) H k Hk) as [[Hk1 Hrest]|Hck]; [|right; exact Hck].
    unfold enc_flat1 in Estep. destruct (is_flatten f) eqn:Hfl.
    + destruct (mget m (f_name f)) as [x|] eqn:Hg.
      * apply rbind_ok in Estep. destruct Estep as [cj [Hkid Hcj]].
        assert (Hcase : (In k (map fst raw) /\ k <> jn f) \/ child_key k).
        { destruct cj as [| | | | |ckv]; try discriminate Hcj.
          - inversion Hcj; subst raw1. left. exact (keys_raw_del _ _ _ Hk1).
          - inversion Hcj; subst raw1. destruct (fold_set_keys _ _ _ _ Hk1) as [H1|[ck [Hck Hkk]]].
            + left. exact (keys_raw_del _ _ _ H1).
            + right. exists f, ckv, ck. repeat split; try assumption.
              * apply Hsub. left. reflexivity.
              * rewrite Hg. discriminate. }
        destruct Hcase as [[Hin Hne]|Hck]; [|right; exact Hck].
        left. split; [exact Hin|]. intros g [Hgf|Hgt] Hgfl Hgp; [subst g; exact Hne|exact (Hrest g Hgt Hgfl Hgp)].
      * inversion Estep; subst raw1. left. split; [exact Hk1|].
        intros g [Hgf|Hgt] Hgfl Hgp; [subst g; exfalso; apply Hgp; exact Hg|exact (Hrest g Hgt Hgfl Hgp)].
    + inversion Estep; subst raw1. left. split; [exact Hk1|].
      intros g [Hgf|Hgt] Hgfl Hgp; [subst g; rewrite Hfl in Hgfl; discriminate Hgfl|exact (Hrest g Hgt Hgfl Hgp)].
Qed.

(* encoding/json's reflection writes the proto names of declared fields *)
Lemma g_msg_keys cmd : forall cm ckv, GoJsonFacts.gj_msg E sc cmd cm = ROk ckv ->
  forall ck, In ck (map fst ckv) -> exists cf, find_field (m_fields cmd) ck = Some cf.
Proof.
  induction cm as [|[name x] r IH]; intros ckv H ck Hck.
  - cbn [GoJsonFacts.gj_msg] in H. inversion H; subst. destruct Hck.
  - cbn [GoJsonFacts.gj_msg] in H. destruct (find_field (m_fields cmd) name) as [cf|] eqn:Ecf; [|discriminate H].
    destruct (omitempty_case (fun t => t = ROk ckv) x _ _ H) as [Hr|Hk]; [exact (IH ckv Hr ck Hck)|].
    apply rbind_ok in Hk. destruct Hk as [j [_ Hk]]. apply rbind_ok in Hk. destruct Hk as [t [Ht Hk]]. inversion Hk; subst ckv.
    cbn [map fst] in Hck. destruct Hck as [Hck|Hck]; [subst ck; exists cf; exact Ecf|exact (IH t Ht ck Hck)].
Qed.
End EncKeys.

(* every populated flatten field is a singular / optional field whose (declared, non-well-known or Timestamp) message
   type owns no codec: the child is rendered by reflection over the Go struct *)
Definition flatten_children_reflected (sc : schema) (md : message) (m : mval) : bool :=
  forallb (fun f => negb (is_flatten f) ||
                    match mget m (f_name f) with
                    | None => true
                    | Some _ =>
                        match f_card f with Singular | Optional => true | _ => false end &&
                        is_msg_kind (f_kind f) && negb (is_wkt_other (msg_name (f_kind f))) &&
                        match lookup_message sc (msg_name (f_kind f)) with
                        | Some cmd => match owner_of sc cmd with OwnNone => true | _ => false end
                        | None => false
                        end
                    end) (m_fields md).

(* no flattened key prefix ++ proto name of a child field addresses a flatten field of the parent *)
Definition flatten_self_free (sc : schema) (md : message) : bool :=
  forallb (fun f => negb (is_flatten f) ||
                    match lookup_message sc (msg_name (f_kind f)) with
                    | Some cmd => forallb (fun cf => match field_of_key md (flat_prefix f ++ f_name cf) with
                                                     | Some g => negb (is_flatten g)
                                                     | None => true
                                                     end) (m_fields cmd)
                    | None => true
                    end) (m_fields md).

(* the side condition of flatten_set_never_roundtrips from the schema, when the populated flatten children are
   rendered by reflection (their types own no codec).  A key of the rendered object that addressed a populated
   flatten field g would be ([enc_flat_keys]) either one of protojson's own entries, but g's own key was deleted
   when g was inlined, or an inlined key prefix ++ ck of some populated flatten field f ([child_key]); reflection
   writes PROTO names, so ck names a field of the child's type ([g_msg_keys]), and [flatten_self_free] says that
   such a key addresses no flatten field of the parent. *)
Lemma flatten_keys_off_reflected E sc tn md m j :
  lookup_message sc tn = Some md -> owner_of sc md = Own FtFlatten ->
  OneofPj.wt1 sc tn m = true ->
  flatten_children_reflected sc md m = true -> flatten_self_free sc md = true ->
  encode E sc tn m = ROk j -> keys_off_set_flatten md m j = true.
Proof.
  intros Hlk Hown Hwt1 Hrefl Hfree Henc.
  destruct (OneofPj.wt1_inv sc tn m Hwt1) as [Hts [Hwk [md' [Hfm [Hlk' [Hok1 [Hsorted [Hwf Hexo]]]]]]]].
  assert (md' = md) by congruence. subst md'.
  pose proof (sorted_names_nodup md m Hsorted) as Hnames.
  destruct (encode_flatten_inv E sc tn md m j Hts Hwk Hfm Hown Henc) as [ks [es [r [Hks [Hes [Hr Hj]]]]]]. subst j.
  pose proof (m_msg_keys E sc md m es Hes) as Hkeys.
  cbn [keys_off_set_flatten]. apply forallb_forall. intros e He.
  destruct (field_of_key md (fst e)) as [g|] eqn:Hkg; [|reflexivity].
  destruct (is_flatten g) eqn:Hgfl; [|reflexivity]. destruct (mget m (f_name g)) as [y|] eqn:Hgy; [exfalso|reflexivity].
  pose proof (field_of_key_in md _ _ Hkg) as Hing.
  rewrite enc_flatten_fold in Hr.
  destruct (enc_flat_keys md m ks (m_fields md) es r (fun f Hf => Hf) Hr (fst e) (in_map fst _ _ He)) as [[Hin Hne]|Hck].
  - rewrite Hkeys in Hin. apply in_map_iff in Hin. destruct Hin as [[name x] [Hn Hinm]]. cbn [fst] in Hn.
    destruct (wt_fields_in sc md m name x Hwf Hinm) as [h [Hh _]].
    pose proof (OneofPj.msg_ok1_key md name h Hok1 Hh) as Hkh. rewrite Hn, Hkg in Hkh. inversion Hkh; subst h.
    destruct (find_field_spec _ _ _ Hh) as [_ Hname].
    apply (Hne g Hing Hgfl); [rewrite Hgy; discriminate|]. unfold jn. rewrite Hname. symmetry. exact Hn.
  - destruct Hck as [f [ckv [ck [Hinf [Hfl [Hpop [Hkid [Hck Hk]]]]]]]].
    destruct (mget m (f_name f)) as [x|] eqn:Hx; [|exfalso; apply Hpop; reflexivity].
    pose proof (mget_pair m _ _ Hx) as Hinm.
    destruct (wt_fields_in sc md m (f_name f) x Hwf Hinm) as [f' [Hf' Hwe]].
    assert (f' = f).
    { destruct (find_field_spec _ _ _ Hf') as [Hinf' Hname'].
      pose proof (OneofPj.msg_ok1_key_in md f Hok1 Hinf) as H1. pose proof (OneofPj.msg_ok1_key_in md f' Hok1 Hinf') as H2.
      unfold jn in H1, H2. rewrite Hname' in H2. congruence. }
    subst f'.
    rewrite (proj1 (GoJsonFacts.kid_of_kids E sc FtFlatten md m ks Hks (f_name f) x f (mget_nodup m _ _ Hnames Hinm) Hf' Hfl)) in Hkid.
    unfold flatten_children_reflected in Hrefl. rewrite forallb_forall in Hrefl. specialize (Hrefl f Hinf).
    rewrite Hfl, Hx in Hrefl. cbn [negb orb] in Hrefl.
    apply andb_prop in Hrefl. destruct Hrefl as [Hrefl Hcl]. apply andb_prop in Hrefl. destruct Hrefl as [Hrefl Hcwk].
    apply andb_prop in Hrefl. destruct Hrefl as [Hcard Hmk]. apply Bool.negb_true_iff in Hcwk.
    destruct (lookup_message sc (msg_name (f_kind f))) as [cmd|] eqn:Hcmd; [|discriminate Hcl].
    destruct (owner_of sc cmd) eqn:Hcown; try discriminate Hcl.
    destruct (is_msg_kind_inv _ Hmk) as [ctn Hkind]. rewrite Hkind in Hcmd, Hcwk, Hkid. cbn [msg_name] in Hcmd, Hcwk.
    assert (Hxm : exists cm, x = FM cm).
    { unfold wt_entry in Hwe. rewrite Hkind in Hwe.
      destruct x as [sx|cm|l|kv]; [|exists cm; reflexivity| |];
        destruct (f_card f); try discriminate Hcard; discriminate Hwe. }
    destruct Hxm as [cm Hxm]. subst x.
    rewrite (GoJsonFacts.gj_fval_reflect E sc ctn cmd cm Hcwk Hcmd Hcown) in Hkid.
    destruct (real_oneof_set cmd cm); [discriminate Hkid|].
    apply rbind_ok in Hkid. destruct Hkid as [ckv' [Hg Hkid]]. inversion Hkid; subst ckv'.
    destruct (g_msg_keys E sc cmd cm ckv Hg ck Hck) as [cf Hcf].
    destruct (find_field_spec _ _ _ Hcf) as [Hincf Hcfn].
    unfold flatten_self_free in Hfree. rewrite forallb_forall in Hfree. specialize (Hfree f Hinf).
    rewrite Hfl, Hkind in Hfree. cbn [negb orb msg_name] in Hfree. rewrite Hcmd in Hfree.
    rewrite forallb_forall in Hfree. specialize (Hfree cf Hincf). rewrite Hcfn, <- Hk, Hkg, Hgfl in Hfree. discriminate Hfree.
Qed.

(* C04_refuted_flatten_reset for all schemas and values, schema-level side conditions only *)
Theorem flatten_set_never_roundtrips_reflected : forall E sc tn md m j,
  lookup_message sc tn = Some md -> owner_of sc md = Own FtFlatten ->
  OneofPj.wt1 sc tn m = true ->
  flatten_unset md m = false ->
  flatten_children_reflected sc md m = true -> flatten_self_free sc md = true ->
  encode E sc tn m = ROk j ->
  decode E sc tn j <> ROk (norm sc tn m).
Proof.
  intros E sc tn md m j Hlk Hown Hwt1 Hset Hrefl Hfree Henc.
  exact (flatten_set_never_roundtrips1 E sc tn md m j Hlk Hown Hwt1 Hset Henc
           (flatten_keys_off_reflected E sc tn md m j Hlk Hown Hwt1 Hrefl Hfree Henc)).
Qed.

Definition set_prefix (p : string) (f : field) : field :=
  {| f_name := f_name f; f_number := f_number f; f_kind := f_kind f; f_card := f_card f; f_oneof := f_oneof f; f_query := f_query f;
     f_unwrap := f_unwrap f; f_int64 := f_int64 f; f_enumenc := f_enumenc f; f_nullable := f_nullable f; f_empty := f_empty f;
     f_tsfmt := f_tsfmt f; f_bytesenc := f_bytesenc f; f_oneof_value := f_oneof_value f; f_flatten := f_flatten f; f_flatten_prefix := Some (s p) |}.

Definition fls : schema :=
  [ {| fl_path := s "x/f.proto"; fl_package := s "x.v1"; fl_gopkg := s "x"; fl_generate := true;
       fl_messages :=
         [ msg "Addr" [fld "street" 1 KString Singular; fld "zip_code" 2 KString Singular] [];
           (* the parent's own "street" is a key the decoder probes for the child *)
           msg "Clash" [fld "street" 1 KString Singular; set_flatten (fld "home" 2 (T "Addr") Singular)] [];
           (* the same with a prefix: no clash *)
           msg "Pre" [fld "street" 1 KString Singular; set_prefix "h_" (set_flatten (fld "home" 2 (T "Addr") Singular));
                      set_prefix "w_" (set_flatten (fld "work" 3 (T "Addr") Singular))] [];
           (* flatten on a scalar field / on a field of an undeclared type *)
           msg "Scalar" [fld "id" 1 KString Singular; set_flatten (fld "x" 2 KString Singular)] [];
           msg "Gone" [fld "id" 1 KString Singular; set_flatten (fld "g" 2 (T "Missing") Singular)] [];
           (* a flattened child key that addresses the flatten field itself (by its proto name) *)
           msg "Inner" [fld "a_b" 1 KString Singular] [];
           msg "Self" [set_flatten (fld "a_b" 1 (T "Inner") Singular)] [] ];
       fl_enums := []; fl_services := [] |} ].

(* every hypothesis of flatten_roundtrip_unset holds for (tn, m), and so does its conclusion *)
Definition flat_case_ok (sc : schema) (tn : str) (m : mval) (j : json) : Prop :=
  (exists md, find_message (all_messages sc) tn = Some md /\ owner_of sc md = Own FtFlatten /\
              flatten_children_known sc md = true /\ flatten_probe_ok sc md m = true /\ flatten_no_collision sc md = true) /\
  wt sc (KMessage tn) (FM m) = true /\ defects_C04 sc tn m = [] /\
  encode Ex sc tn m = ROk j /\ norm sc tn m = m /\ decode Ex sc tn j = ROk m.

Ltac flatok := split; [eexists; do 4 (split; [reflexivity|]); reflexivity|do 4 (split; [reflexivity|]); reflexivity].

(* non-vacuity: the shared schema xs (Person, Post: the flatten field is unset, the other fields are populated) and
   two prefixed flatten fields side by side *)
Example flatten_roundtrip_unset_nonvacuous :
  flat_case_ok xs (q "Person") [(s "id", vstr "1")] (JObj [(s "id", JStr (s "1"))]) /\
  flat_case_ok xs (q "Post") [(s "id", vstr "p")] (JObj [(s "id", JStr (s "p"))]) /\
  flat_case_ok fls (q "Pre") [(s "street", vstr "s")] (JObj [(s "street", JStr (s "s"))]).
Proof. split; [flatok|]. split; flatok. Qed.

(* flatten_probe_ok is needed: the parent's own "street" is taken for the child's, deleted from the object, decoded
   into a child — and protojson.Unmarshal(remaining, x) then resets x: the parent's field is lost although no flatten
   field was populated and no defect class fires.  (annotations.ValidateFlattenCollisions refuses this schema:
   "flattened child ... collides with parent field".) *)
Example flatten_roundtrip_unset_needs_probe_ok :
  let m := [(s "street", vstr "s")] in
  (exists md, find_message (all_messages fls) (q "Clash") = Some md /\ owner_of fls md = Own FtFlatten /\
              flatten_children_known fls md = true /\ flatten_probe_ok fls md m = false /\ flatten_no_collision fls md = false) /\
  wt fls (KMessage (q "Clash")) (FM m) = true /\ defects_C04 fls (q "Clash") m = [] /\
  encode Ex fls (q "Clash") m = ROk (JObj [(s "street", JStr (s "s"))]) /\
  decode Ex fls (q "Clash") (JObj [(s "street", JStr (s "s"))]) = ROk [] /\
  norm fls (q "Clash") m = m.
Proof. cbv zeta. flatok. Qed.

(* flatten_children_known is needed in the MODEL: for a flatten field that is no field of a declared message type the
   decoder model declines (RUnm).  (annotations.ValidateFlattenField refuses flatten on a scalar field; protoc
   refuses an undeclared type.) *)
Example flatten_roundtrip_unset_needs_children_known :
  let m := [(s "id", vstr "1")] in
  (exists md, find_message (all_messages fls) (q "Scalar") = Some md /\ owner_of fls md = Own FtFlatten /\
              flatten_children_known fls md = false /\ flatten_probe_ok fls md m = true) /\
  wt fls (KMessage (q "Scalar")) (FM m) = true /\ defects_C04 fls (q "Scalar") m = [] /\
  encode Ex fls (q "Scalar") m = ROk (JObj [(s "id", JStr (s "1"))]) /\
  decode Ex fls (q "Scalar") (JObj [(s "id", JStr (s "1"))]) = RUnm (s "unknown message type") /\
  (exists md, find_message (all_messages fls) (q "Gone") = Some md /\ owner_of fls md = Own FtFlatten /\
              flatten_children_known fls md = false /\ flatten_probe_ok fls md m = true) /\
  wt fls (KMessage (q "Gone")) (FM m) = true /\ defects_C04 fls (q "Gone") m = [] /\
  encode Ex fls (q "Gone") m = ROk (JObj [(s "id", JStr (s "1"))]) /\
  decode Ex fls (q "Gone") (JObj [(s "id", JStr (s "1"))]) = RUnm (s "unknown message type").
Proof.
  cbv zeta. split; [eexists; do 3 (split; [reflexivity|]); reflexivity|].
  do 4 (split; [reflexivity|]).
  split; [eexists; do 3 (split; [reflexivity|]); reflexivity|].
  do 3 (split; [reflexivity|]). reflexivity.
Qed.

(* defects_C04 = [] is needed: C04_refuted_flatten_reset, and in general flatten_set_never_roundtrips.  Non-vacuity of
   the latter: every hypothesis holds on the shared schema xs, child non-empty and child empty *)
Example flatten_set_never_nonvacuous :
  (let m := [(s "id", vstr "1"); (s "home", FM [(s "street", vstr "s")])] in
   let j := JObj [(s "id", JStr (s "1")); (s "street", JStr (s "s"))] in
   (exists md, lookup_message xs (q "Person") = Some md /\ owner_of xs md = Own FtFlatten /\
               flatten_unset md m = false /\ keys_off_set_flatten md m j = true) /\
   wt xs (KMessage (q "Person")) (FM m) = true /\ defects_C04 xs (q "Person") m = [D4FlattenReset] /\
   encode Ex xs (q "Person") m = ROk j /\ decode Ex xs (q "Person") j = ROk [(s "id", vstr "1")]) /\
  (let m := [(s "id", vstr "1"); (s "home", FM [])] in
   let j := JObj [(s "id", JStr (s "1"))] in
   (exists md, lookup_message xs (q "Person") = Some md /\ owner_of xs md = Own FtFlatten /\
               flatten_unset md m = false /\ keys_off_set_flatten md m j = true) /\
   wt xs (KMessage (q "Person")) (FM m) = true /\ defects_C04 xs (q "Person") m = [D4FlattenReset] /\
   encode Ex xs (q "Person") m = ROk j /\ decode Ex xs (q "Person") j = ROk [(s "id", vstr "1")]).
Proof.
  cbv zeta. split; (split; [eexists|]; do 3 (split; [reflexivity|]); reflexivity).
Qed.

(* the side condition keys_off_set_flatten of flatten_set_never_roundtrips is a limit of the proof, not a known
   exception: here it fails (the flattened child key "a_b" is the proto name of the flatten field itself, so the
   decoder's protojson pass reads it as that field) and the value is still not given back *)
Example flatten_set_never_keys_off_limit :
  let m := [(s "a_b", FM [(s "a_b", vstr "x")])] in
  let j := JObj [(s "a_b", JStr (s "x"))] in
  (exists md, lookup_message fls (q "Self") = Some md /\ owner_of fls md = Own FtFlatten /\
              flatten_unset md m = false /\ keys_off_set_flatten md m j = false) /\
  wt fls (KMessage (q "Self")) (FM m) = true /\
  encode Ex fls (q "Self") m = ROk j /\ decode Ex fls (q "Self") j = RErr (s "expected object").
Proof.
  cbv zeta. split; [eexists; do 3 (split; [reflexivity|]); reflexivity|].
  do 2 (split; [reflexivity|]). reflexivity.
Qed.

(* flatten_set_never_roundtrips_reflected: its hypotheses hold on the shared schema (Person: single-word child field;
   Post: a multi-word child field, where D4FlattenChildKeys fires as well and the decoder rejects the object); on Self the
   schema condition flatten_self_free fails, as keys_off_set_flatten does *)
Example flatten_set_never_reflected_nonvacuous :
  (let m := [(s "id", vstr "1"); (s "home", FM [(s "street", vstr "s")])] in
   (exists md, lookup_message xs (q "Person") = Some md /\ owner_of xs md = Own FtFlatten /\ flatten_unset md m = false /\
               flatten_children_reflected xs md m = true /\ flatten_self_free xs md = true) /\
   OneofPj.wt1 xs (q "Person") m = true) /\
  (let m := [(s "id", vstr "1"); (s "detail", FM [(s "body_text", vstr "b")])] in
   (exists md, lookup_message xs (q "Post") = Some md /\ owner_of xs md = Own FtFlatten /\ flatten_unset md m = false /\
               flatten_children_reflected xs md m = true /\ flatten_self_free xs md = true) /\
   OneofPj.wt1 xs (q "Post") m = true /\
   encode Ex xs (q "Post") m = ROk (JObj [(s "id", JStr (s "1")); (s "body_text", JStr (s "b"))]) /\
   decode Ex xs (q "Post") (JObj [(s "id", JStr (s "1")); (s "body_text", JStr (s "b"))]) = RErr (s "unknown field")) /\
  (exists md, lookup_message fls (q "Self") = Some md /\ flatten_self_free fls md = false).
Proof.
  cbv zeta. split; [split; [eexists; do 4 (split; [reflexivity|])|]; reflexivity|].
  split; [split; [eexists; do 4 (split; [reflexivity|])|do 2 (split; [reflexivity|])]; reflexivity|].
  eexists; split; reflexivity.
Qed.
Close Scope Z_scope.
