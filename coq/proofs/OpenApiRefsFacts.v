(* OpenApiRefsFacts.v — C18: EVERY `$ref` and every discriminator mapping target of the document
   resolves to a component of the same document: a reference analysis of the field schemas and of the five
   object-schema builders (plain, root unwrap, flatten, flattened and nested discriminated oneof), put
   together over the document (info, paths, components) with the closure of the message collection
   (OpenApiFacts.collect_service_inv: what a collected component refers to is collected). *)
From Sebuf Require Import JsonSchema Yaml Rules Route OpenApi OasCheck.
From SebufProofs Require Import JsonSchemaFacts OpenApiFacts OpenApiExamples.

Definition key_plain (k : str) : bool :=
  negb (str_eqb k (s "$ref")) && negb (str_eqb k (s "discriminator")) && negb (str_eqb k (s "mapping")).

(* a node that no key can turn into a reference: not a string, and without a `mapping` table *)
Definition plain_node (x : ynode) : Prop := (forall t, x <> YStr t) /\ mapping_targets x = None.

Lemma entry_refs_plainkey k x inner : key_plain k = true -> entry_refs k x inner = inner.
Proof.
  unfold key_plain, entry_refs. intros H.
  apply andb_prop in H as [H Hm]. apply andb_prop in H as [Hr Hd].
  apply negb_true_iff in Hr, Hd. now rewrite Hr, Hd.
Qed.

Lemma entry_refs_plainnode k x : plain_node x -> entry_refs k x (refs_of x) = refs_of x.
Proof.
  intros [Hs Hm]. unfold entry_refs. rewrite Hm.
  destruct (str_eqb k (s "$ref")).
  - destruct x; try reflexivity. exfalso. now apply (Hs x).
  - destruct (str_eqb k (s "discriminator")); reflexivity.
Qed.

Lemma find_none_forall {A} (p : A -> bool) l : (forall a, In a l -> p a = false) -> find p l = None.
Proof.
  induction l as [|a l IH]; intros H; [reflexivity|]. cbn [find].
  rewrite (H a (or_introl eq_refl)). apply IH. intros b Hb. apply H. now right.
Qed.

Lemma plain_map kv : Forall (fun e => str_eqb (fst e) (s "mapping") = false) kv -> plain_node (YMap kv).
Proof.
  intros H. split; [discriminate|]. unfold mapping_targets.
  rewrite find_none_forall; [reflexivity|]. rewrite Forall_forall in H. exact H.
Qed.

Lemma key_plain_not_mapping k : key_plain k = true -> str_eqb k (s "mapping") = false.
Proof. unfold key_plain. intros H. apply andb_prop in H as [_ H]. now apply negb_true_iff in H. Qed.

Lemma refs_seq_map {A} (g : A -> ynode) l : (forall a, refs_of (g a) = []) -> refs_of (YSeq (map g l)) = [].
Proof. apply flat_map_refs_map. Qed.

Section Good.
Variable ok : str -> Prop.

(* [good_node n]: every reference inside n is ok — the goal, for the whole document.  What a map entry
   refers to depends on its key (`$ref`: the string itself; `discriminator`: the targets of its `mapping`
   table; any other key: what the value refers to), so [good_node (YMap kv)] is [gentry] of every entry
   (good_map).  The builders never need that generality; the predicates below are the three special shapes
   they produce, each implying [gentry]: [pentry] (a key that is none of the three words; the value is good),
   [flat_entry] (such a key, and a value with no reference at all: the closed keyword tables), and [fine]
   values (good, and not a string nor a map with a `mapping` table, so good under ANY key: property names,
   component names, paths).  [mentry] is gentry under a key other than `mapping`: a map of such entries
   is fine again (fine_map_gen), which is how the analysis goes up one level. *)
Definition good_node (n : ynode) : Prop := forall t, In t (refs_of n) -> ok t.
Definition gentry (e : str * ynode) : Prop :=
  forall t, In t (entry_refs (fst e) (snd e) (refs_of (snd e))) -> ok t.
Definition fine (n : ynode) : Prop := good_node n /\ plain_node n.
(* an entry under a key that is not `$ref`, `discriminator` or `mapping` *)
Definition pentry (e : str * ynode) : Prop := key_plain (fst e) = true /\ good_node (snd e).
(* ... whose value holds no reference at all *)
Definition flat_entry (e : str * ynode) : Prop := key_plain (fst e) = true /\ refs_of (snd e) = [].

Lemma good_nil n : refs_of n = [] -> good_node n.
Proof. intros H t Ht. rewrite H in Ht. destruct Ht. Qed.

Lemma good_map kv : Forall gentry kv -> good_node (YMap kv).
Proof.
  intros H t Ht. cbn [refs_of] in Ht. apply in_flat_map in Ht as [e [He Ht]].
  rewrite Forall_forall in H. exact (H e He t Ht).
Qed.

Lemma good_seq l : Forall good_node l -> good_node (YSeq l).
Proof.
  intros H t Ht. cbn [refs_of] in Ht. apply in_flat_map in Ht as [n [Hn Ht]].
  rewrite Forall_forall in H. exact (H n Hn t Ht).
Qed.

Lemma gentry_of_pentry e : pentry e -> gentry e.
Proof. intros [Hk Hg] t Ht. rewrite entry_refs_plainkey in Ht by assumption. now apply Hg. Qed.

Lemma gentry_of_fine k x : fine x -> gentry (k, x).
Proof. intros [Hg Hp] t Ht. cbn [fst snd] in Ht. rewrite entry_refs_plainnode in Ht by assumption. now apply Hg. Qed.

Lemma pentry_of_flat e : flat_entry e -> pentry e.
Proof. intros [Hk Hr]. split; [assumption|now apply good_nil]. Qed.

Lemma gentry_disc x :
  (forall l, mapping_targets x = Some l -> Forall ok l) -> (mapping_targets x = None -> good_node x) ->
  gentry (s "discriminator", x).
Proof.
  intros Hl Hg t Ht. cbn [fst snd] in Ht. unfold entry_refs in Ht.
  change (str_eqb (s "discriminator") (s "$ref")) with false in Ht.
  change (str_eqb (s "discriminator") (s "discriminator")) with true in Ht. cbv iota in Ht.
  destruct (mapping_targets x) as [l|] eqn:E.
  - specialize (Hl l eq_refl). rewrite Forall_forall in Hl. now apply Hl.
  - now apply (Hg eq_refl).
Qed.

(* an entry of a map that is itself not a `mapping` table *)
Definition mentry (e : str * ynode) : Prop := gentry e /\ str_eqb (fst e) (s "mapping") = false.
Lemma mentry_of_pentry e : pentry e -> mentry e.
Proof. intros H. split; [now apply gentry_of_pentry|apply key_plain_not_mapping, (proj1 H)]. Qed.
Lemma fine_map_gen kv : Forall mentry kv -> fine (YMap kv).
Proof.
  intros H. split.
  - apply good_map. eapply Forall_impl; [|exact H]. intros e He. exact (proj1 He).
  - apply plain_map. eapply Forall_impl; [|exact H]. intros e He. exact (proj2 He).
Qed.

Lemma fine_map_plain kv : Forall pentry kv -> fine (YMap kv).
Proof. intros H. apply fine_map_gen. eapply Forall_impl; [|exact H]. exact mentry_of_pentry. Qed.

Lemma fine_map_flat kv : Forall flat_entry kv -> fine (YMap kv).
Proof. intros H. apply fine_map_plain. eapply Forall_impl; [|exact H]. intros e. apply pentry_of_flat. Qed.

Lemma refs_map_flat kv : Forall flat_entry kv -> refs_of (YMap kv) = [].
Proof.
  intros H. cbn [refs_of]. induction H as [|e kv [Hk Hr] _ IH]; [reflexivity|].
  cbn [flat_map]. rewrite entry_refs_plainkey by assumption. now rewrite Hr, IH.
Qed.

(* a map under arbitrary keys (property names, component names, paths) whose values are fine *)
Lemma good_map_anykey kv : Forall (fun e => fine (snd e)) kv -> good_node (YMap kv).
Proof.
  intros H. apply good_map. eapply Forall_impl; [|exact H]. intros [k x] Hx. now apply gentry_of_fine.
Qed.

End Good.

(* entry lists without references (Rules.v, types.go scalar branches): plain keys, scalar values *)
Definition flat_entryb (e : str * ynode) : bool :=
  key_plain (fst e) && match snd e with YSeq _ | YMap _ => false | _ => true end.
Lemma flat_entryb_sound l : forallb flat_entryb l = true -> Forall flat_entry l.
Proof.
  intros H. apply Forall_forall. intros [k x] He. apply (proj1 (forallb_forall _ _) H) in He.
  apply andb_prop in He as [Hk Hx]. split; [exact Hk|]. destruct x; try discriminate Hx; reflexivity.
Qed.

Lemma oent_flat {A} (o : option A) (k : string) (f : A -> ynode) :
  key_plain (s k) = true -> (forall a, refs_of (f a) = []) -> Forall flat_entry (oent o k f).
Proof.
  intros Hk Hf. destruct o as [a|]; [|apply Forall_nil]. apply Forall_cons; [split; [exact Hk|apply Hf]|apply Forall_nil].
Qed.
Lemma enum_entry_flat {A} (g : A -> ynode) (l : list A) : (forall a, refs_of (g a) = []) ->
  Forall flat_entry (match l with [] => [] | a :: l' => [(s "enum", YSeq (map g (a :: l')))] end).
Proof.
  intros Hg. destruct l; [apply Forall_nil|]. apply Forall_cons; [split; [reflexivity|now apply refs_seq_map]|apply Forall_nil].
Qed.
Lemma type_enum_flat {A} (ty : string) (g : A -> ynode) (l : list A) : (forall a, refs_of (g a) = []) ->
  Forall flat_entry [(s "type", ystr ty); (s "enum", YSeq (map g l))].
Proof.
  intros Hg. apply Forall_cons; [split; reflexivity|].
  apply Forall_cons; [split; [reflexivity|now apply refs_seq_map]|apply Forall_nil].
Qed.

Lemma base_entries_flat k b : Forall flat_entry (base_entries k b).
Proof. apply flat_entryb_sound. destruct k, b; reflexivity. Qed.
Lemma bytes_entries_flat f : Forall flat_entry (bytes_entries f).
Proof. unfold bytes_entries. apply flat_entryb_sound. destruct (f_bytesenc f) as [[]|]; reflexivity. Qed.
Lemma string_entries_flat r : Forall flat_entry (string_entries r).
Proof.
  unfold string_entries. repeat (apply Forall_app; split); try (apply oent_flat; reflexivity).
  now apply enum_entry_flat.
Qed.
Lemma numeric_entries_flat r : Forall flat_entry (numeric_entries r).
Proof.
  unfold numeric_entries. repeat (apply Forall_app; split); try (apply oent_flat; reflexivity).
  now apply enum_entry_flat.
Qed.
Lemma scalar_entries_flat k r : Forall flat_entry (scalar_entries k r).
Proof.
  destruct k; cbn [scalar_entries]; try apply Forall_nil;
    first [apply string_entries_flat | apply numeric_entries_flat].
Qed.
Lemma repeated_entries_flat r : Forall flat_entry (repeated_entries r).
Proof.
  unfold repeated_entries. repeat (apply Forall_app; split); try (apply oent_flat; reflexivity).
  destruct (r_unique r); [apply flat_entryb_sound; reflexivity|apply Forall_nil].
Qed.
Lemma map_entries_flat r : Forall flat_entry (map_entries r).
Proof. unfold map_entries. apply Forall_app; split; apply oent_flat; reflexivity. Qed.
Lemma constraint_entries_flat k l m r : Forall flat_entry (constraint_entries k l m r).
Proof.
  unfold constraint_entries. apply Forall_app; split; [|apply Forall_app; split].
  - destruct (l || m); [apply Forall_nil|apply scalar_entries_flat].
  - destruct l; [apply repeated_entries_flat|apply Forall_nil].
  - destruct m; [apply map_entries_flat|apply Forall_nil].
Qed.
Lemma example_entries_flat exs : Forall flat_entry (example_entries exs).
Proof.
  unfold example_entries. destruct exs as [|e l]; [apply Forall_nil|].
  apply Forall_cons; [split; [reflexivity|now apply refs_seq_map]|]. apply Forall_cons; [split; reflexivity|apply Forall_nil].
Qed.

Section Builders.
Variables (sc : schema) (sd : side).
Variable cs : list (str * ynode).       (* the components of the document *)
Variable V : list str.                   (* full names of messages that have a component ... *)
Hypothesis HV : forall x, In x V -> In (short_name x) (map fst cs).
(* ... closed under "is the type of a field of" *)
Hypothesis Hclosed : forall x m, In x V -> lookup_message sc x = Some m -> incl (field_targets m) V.

Definition ok (t : str) : Prop := ref_resolves cs t = true.
Definition kind_ok (k : kind) : Prop := match k with KMessage tn => In tn V | _ => True end.

Lemma ok_name n : In n (map fst cs) -> ok (ref_prefix ++ n).
Proof. apply ref_resolves_name. Qed.
Lemma ok_short x : In x V -> ok (ref_prefix ++ short_name x).
Proof. intros H. apply ok_name, HV, H. Qed.

Lemma ref_to_fine x : ok (ref_prefix ++ x) -> fine ok (ref_to x).
Proof.
  intros H. split.
  - intros t Ht. change (refs_of (ref_to x)) with [ref_prefix ++ x] in Ht. destruct Ht as [<-|[]]. exact H.
  - split; [discriminate|reflexivity].
Qed.

Lemma field_kind_ok m f : incl (field_targets m) V -> In f (m_fields m) -> kind_ok (f_kind f).
Proof.
  intros Hm Hf. unfold kind_ok. destruct (f_kind f) as [| | | | | | | | | | | | | | |tn|tn] eqn:Ek; try exact I.
  apply Hm. unfold field_targets. apply in_flat_map. exists f. split; [assumption|]. rewrite Ek. now left.
Qed.

Lemma lookup_fields_ok tn m f : In tn V -> lookup_message sc tn = Some m -> In f (m_fields m) -> kind_ok (f_kind f).
Proof. intros Ht Hl Hf. eapply field_kind_ok; [|exact Hf]. exact (Hclosed tn m Ht Hl). Qed.

(* types.go convertScalarField *)
Lemma enum_schema_fine f tn : fine ok (enum_schema sc f tn).
Proof.
  unfold enum_schema. destruct (find_enum (all_enums sc) tn) as [e|].
  - destruct (f_enumenc f) as [[]|]; now apply fine_map_flat, type_enum_flat.
  - apply fine_map_flat, flat_entryb_sound. reflexivity.
Qed.
Lemma timestamp_schema_fine f : fine ok (timestamp_schema f).
Proof. unfold timestamp_schema. destruct (f_tsfmt f) as [[]|]; apply fine_map_flat, flat_entryb_sound; reflexivity. Qed.

Lemma convert_scalar_fine mn f : kind_ok (f_kind f) -> fine ok (convert_scalar sc sd mn f).
Proof.
  intros Hk. unfold convert_scalar.
  destruct (f_kind f) as [| | | | | | | | | | | | | | |tn|tn] eqn:Ek;
    try (apply fine_map_flat; apply Forall_app; split;
         [first [apply bytes_entries_flat|apply base_entries_flat]
         |apply Forall_app; split; [apply constraint_entries_flat|apply example_entries_flat]]).
  - apply enum_schema_fine.
  - destruct (is_timestamp (KMessage tn)); [apply timestamp_schema_fine|].
    apply ref_to_fine, ok_short. exact Hk.
Qed.

Lemma array_of_fine x : fine ok x -> fine ok (array_of x).
Proof.
  intros [Hx _]. unfold array_of. apply fine_map_plain.
  apply Forall_cons; [apply pentry_of_flat; split; reflexivity|].
  apply Forall_cons; [split; [reflexivity|exact Hx]|apply Forall_nil].
Qed.

(* types.go getMapValueSchema *)
Lemma unwrap_field_in m uf : find_unwrap_field m = Some uf -> In uf (m_fields m).
Proof. unfold find_unwrap_field. intros H. now apply find_some in H as [H _]. Qed.

Lemma map_value_schema_fine f : kind_ok (f_kind f) -> fine ok (map_value_schema sc sd f).
Proof.
  intros Hk. unfold map_value_schema.
  assert (Hp : fine ok (convert_scalar sc sd [] (bare_value_field f))) by (apply convert_scalar_fine; exact Hk).
  destruct (f_kind f) as [| | | | | | | | | | | | | | |tn|tn] eqn:Ek; try exact Hp.
  destruct (lookup_message sc tn) as [vm|] eqn:El; [|exact Hp].
  destruct (find_unwrap_field vm) as [uf|] eqn:Eu; [|exact Hp].
  apply array_of_fine, convert_scalar_fine.
  eapply lookup_fields_ok; [exact Hk|exact El|]. now apply unwrap_field_in.
Qed.

(* types.go makeNullableSchema: rewriting the value under one plain key, without touching the references
   inside it *)
Lemma map_key_fine key (h : str * ynode -> str * ynode) kv :
  key_plain key = true ->
  (forall e, str_eqb (fst e) key = false -> h e = e) ->
  (forall e, fst (h e) = fst e /\ refs_of (snd (h e)) = refs_of (snd e)) ->
  fine ok (YMap kv) -> fine ok (YMap (map h kv)).
Proof.
  intros Hkey Hother Hh [Hgood [_ Hm]]. split; [|split; [discriminate|]].
  - intros t Ht. apply Hgood. cbn [refs_of] in Ht |- *. rewrite flat_map_concat_map, map_map, <- flat_map_concat_map in Ht.
    apply in_flat_map in Ht as [e [He Ht]]. apply in_flat_map. exists e. split; [exact He|].
    destruct (str_eqb (fst e) key) eqn:Ek; [|now rewrite (Hother e Ek) in Ht].
    apply str_eqb_eq in Ek. destruct (Hh e) as [Hf Hr].
    rewrite Hf, Ek, entry_refs_plainkey in Ht by exact Hkey. rewrite Ek, entry_refs_plainkey by exact Hkey. now rewrite <- Hr.
  - unfold mapping_targets in Hm |- *.
    replace (find (fun e => str_eqb (fst e) (s "mapping")) (map h kv)) with (find (fun e => str_eqb (fst e) (s "mapping")) kv); [exact Hm|].
    clear Hm Hgood. induction kv as [|e kv IH]; [reflexivity|]. cbn [map find]. rewrite (proj1 (Hh e)).
    destruct (str_eqb (fst e) (s "mapping")) eqn:Em; [|exact IH]. rewrite Hother; [reflexivity|].
    apply str_eqb_eq in Em. rewrite Em. destruct (str_eqb (s "mapping") key) eqn:Ek; [|reflexivity].
    apply str_eqb_eq in Ek. now rewrite <- Ek in Hkey.
Qed.

Lemma add_null_type_fine n : fine ok n -> fine ok (add_null_type n).
Proof.
  intros H. destruct n as [x|x|x|d|b| |l|kv]; try exact H.
  apply (map_key_fine (s "type")); [reflexivity| | |exact H].
  - intros e E. now rewrite E.
  - intros e. destruct (str_eqb (fst e) (s "type")); [|now split]. split; [reflexivity|]. cbn [snd].
    destruct (snd e) as [x|x|x|d|b| |l|kv']; try reflexivity. cbn [refs_of]. rewrite flat_map_app. apply app_nil_r.
Qed.

Lemma add_null_enum_fine n : fine ok n -> fine ok (add_null_enum n).
Proof.
  intros H. destruct n as [x|x|x|d|b| |l|kv]; try exact H.
  apply (map_key_fine (s "enum")); [reflexivity| | |exact H].
  - intros e E. now rewrite E.
  - intros e. destruct (str_eqb (fst e) (s "enum")); [|now split]. split; [reflexivity|]. cbn [snd].
    destruct (snd e) as [x|x|x|d|b| |[|a l]|kv']; try reflexivity. cbn [refs_of]. rewrite flat_map_app. apply app_nil_r.
Qed.

Lemma make_nullable_fine n : fine ok n -> fine ok (make_nullable n).
Proof. intros H. unfold make_nullable. now apply add_null_enum_fine, add_null_type_fine. Qed.

(* types.go convertField *)
Lemma convert_field_fine mn f : kind_ok (f_kind f) -> fine ok (convert_field sc sd mn f).
Proof.
  intros Hk. pose proof (convert_scalar_fine mn f Hk) as Hb.
  assert (Hsing : fine ok (match f_nullable f with
                           | Some true => make_nullable (convert_scalar sc sd mn f)
                           | _ => if is_msg_kind (f_kind f) && match f_empty f with Some EBNull => true | _ => false end
                                  then YMap [(s "oneOf", YSeq [convert_scalar sc sd mn f; YMap [(s "type", ystr "null")]])]
                                  else convert_scalar sc sd mn f
                           end)).
  { assert (Hone : fine ok (if is_msg_kind (f_kind f) && match f_empty f with Some EBNull => true | _ => false end
                            then YMap [(s "oneOf", YSeq [convert_scalar sc sd mn f; YMap [(s "type", ystr "null")]])]
                            else convert_scalar sc sd mn f)).
    { destruct (is_msg_kind (f_kind f) && match f_empty f with Some EBNull => true | _ => false end); [|exact Hb].
      apply fine_map_plain. apply Forall_cons; [|apply Forall_nil]. split; [reflexivity|].
      apply good_seq. apply Forall_cons; [exact (proj1 Hb)|]. apply Forall_cons; [|apply Forall_nil].
      apply good_nil. reflexivity. }
    destruct (f_nullable f) as [[|]|]; [now apply make_nullable_fine|exact Hone|exact Hone]. }
  unfold convert_field. destruct (f_card f) as [| | |key].
  - exact Hsing.
  - exact Hsing.
  - apply fine_map_plain. apply Forall_app; split.
    + apply Forall_cons; [apply pentry_of_flat; split; reflexivity|].
      apply Forall_cons; [split; [reflexivity|exact (proj1 Hb)]|apply Forall_nil].
    + eapply Forall_impl; [|apply constraint_entries_flat]. intros e. apply pentry_of_flat.
  - apply fine_map_plain. apply Forall_app; split.
    + apply Forall_cons; [apply pentry_of_flat; split; reflexivity|].
      apply Forall_cons; [split; [reflexivity|exact (proj1 (map_value_schema_fine f Hk))]|apply Forall_nil].
    + eapply Forall_impl; [|apply constraint_entries_flat]. intros e. apply pentry_of_flat.
Qed.

Lemma props_fine (kf : field -> str) mn fs : (forall f, In f fs -> kind_ok (f_kind f)) ->
  Forall (fun e => fine ok (snd e)) (map (fun f => (kf f, convert_field sc sd mn f)) fs).
Proof.
  intros H. apply Forall_forall. intros e He. apply in_map_iff in He as [f [<- Hf]]. cbn [snd].
  apply convert_field_fine, H, Hf.
Qed.

Lemma object_of_entries props req : Forall (fun e => fine ok (snd e)) props ->
  exists kv, object_of props req = YMap kv /\ Forall (pentry ok) kv.
Proof.
  intros H. unfold object_of. eexists. split; [reflexivity|].
  apply Forall_app; split; [|apply Forall_app; split].
  - apply Forall_cons; [apply pentry_of_flat; split; reflexivity|apply Forall_nil].
  - destruct props as [|p ps] eqn:E; [apply Forall_nil|]. rewrite <- E in *.
    apply Forall_cons; [|apply Forall_nil]. split; [reflexivity|]. cbn [snd].
    apply good_map_anykey. apply Forall_forall. intros e He. apply omap_of_in in He.
    rewrite Forall_forall in H. now apply H.
  - destruct req as [|r rs]; [apply Forall_nil|]. apply Forall_cons; [|apply Forall_nil].
    apply pentry_of_flat. split; [reflexivity|]. apply refs_seq_map. reflexivity.
Qed.

Lemma object_of_fine props req : Forall (fun e => fine ok (snd e)) props -> fine ok (object_of props req).
Proof. intros H. destruct (object_of_entries props req H) as [kv [-> Hkv]]. now apply fine_map_plain. Qed.

Lemma opt_seq_forall (k : str) (l : list ynode) :
  key_plain k = true -> Forall (good_node ok) l -> Forall (pentry ok) (match l with [] => [] | _ => [(k, YSeq l)] end).
Proof.
  intros Hk Hl. destruct l as [|a l]; [apply Forall_nil|].
  apply Forall_cons; [|apply Forall_nil]. split; [exact Hk|]. now apply good_seq.
Qed.

(* plain object (generator.go buildObjectSchema, default branch) *)
Lemma plain_object_schema_fine m : incl (field_targets m) V -> fine ok (plain_object_schema sc sd m).
Proof.
  intros Hm. unfold plain_object_schema. apply object_of_fine, props_fine.
  intros f Hf. now apply (field_kind_ok m).
Qed.

(* root unwrap (generator.go:553-663) *)
Lemma root_unwrap_field_in m f : root_unwrap_field m = Some f -> In f (m_fields m).
Proof.
  unfold root_unwrap_field. destruct (m_fields m) as [|a [|b r]]; try discriminate.
  destruct (f_unwrap a && (is_map a || is_list a)); [|discriminate]. intros [= <-]. now left.
Qed.

Lemma root_unwrap_schema_fine m f : incl (field_targets m) V -> In f (m_fields m) ->
  fine ok (root_unwrap_schema sc sd m f).
Proof.
  intros Hm Hf. pose proof (field_kind_ok m f Hm Hf) as Hk. unfold root_unwrap_schema.
  destruct (is_map f); [|now apply array_of_fine, convert_scalar_fine].
  apply fine_map_plain. apply Forall_cons; [apply pentry_of_flat; split; reflexivity|].
  apply Forall_cons; [|apply Forall_nil]. split; [reflexivity|]. cbn [snd].
  assert (Hp : good_node ok (convert_scalar sc sd [] (bare_value_field f))) by (apply convert_scalar_fine; exact Hk).
  destruct (f_kind f) as [| | | | | | | | | | | | | | |tn|tn] eqn:Ek; try exact Hp.
  assert (Hr : good_node ok (ref_to (short_name tn))) by (apply ref_to_fine, ok_short; exact Hk).
  destruct (lookup_message sc tn) as [vm|] eqn:El; [|exact Hr].
  destruct (find_unwrap_field vm) as [uf|] eqn:Eu; [|exact Hr].
  apply array_of_fine, convert_scalar_fine.
  eapply lookup_fields_ok; [exact Hk|exact El|]. now apply unwrap_field_in.
Qed.

(* flatten (generator.go:479-551) *)
Lemma flattened_object_schema_fine m : incl (field_targets m) V -> fine ok (flattened_object_schema sc sd m).
Proof.
  intros Hm. cbv beta zeta delta [flattened_object_schema].
  match goal with |- fine ok (YMap (match ?l with _ => _ end)) =>
    assert (Hl : Forall (good_node ok) l); [|destruct l as [|a l']] end.
  - apply Forall_app; split.
    + match goal with |- Forall _ (match ?p with _ => _ end) => destruct p as [|p0 ps] eqn:Ep end; [apply Forall_nil|].
      rewrite <- Ep. apply Forall_cons; [|apply Forall_nil].
      apply object_of_fine, props_fine. intros f Hf. apply filter_In in Hf as [Hf _]. now apply (field_kind_ok m).
    + apply Forall_forall. intros x Hx. apply in_flat_map in Hx as [f [Hf Hx]].
      destruct (is_flatten_field f); [|destruct Hx].
      pose proof (field_kind_ok m f Hm Hf) as Hk.
      destruct (f_kind f) as [| | | | | | | | | | | | | | |tn|tn] eqn:Ek; try (destruct Hx; fail).
      destruct (lookup_message sc tn) as [cm|] eqn:El; destruct Hx as [<-|[]].
      * apply object_of_fine, props_fine. intros c Hc. now apply (lookup_fields_ok tn cm).
      * apply object_of_fine. apply Forall_nil.
  - apply fine_map_plain. apply Forall_nil.
  - apply fine_map_plain. apply Forall_cons; [|apply Forall_nil]. split; [reflexivity|]. now apply good_seq.
Qed.

Lemma disc_node_targets p l :
  mapping_targets (YMap [(s "propertyName", p); (s "mapping", mapping_node l)]) =
  Some (flat_map (fun e => match snd e with YStr t => [t] | _ => [] end)
                 (omap_of (map (fun e => (fst e, YStr (snd e))) l))).
Proof. reflexivity. Qed.

Lemma mapping_node_targets (l : list (str * str)) t :
  In t (flat_map (fun e : str * ynode => match snd e with YStr t => [t] | _ => [] end)
                 (omap_of (map (fun e => (fst e, YStr (snd e))) l))) -> In t (map snd l).
Proof.
  intros H. apply in_flat_map in H as [e [He Ht]]. apply omap_of_in in He.
  apply in_map_iff in He as [e0 [<- He0]]. cbn [snd] in Ht. destruct Ht as [<-|[]]. now apply in_map.
Qed.

Lemma gentry_disc_mapping p (l : list (str * str)) : Forall ok (map snd l) ->
  gentry ok (s "discriminator", YMap [(s "propertyName", p); (s "mapping", mapping_node l)]).
Proof.
  intros H. apply gentry_disc.
  - intros l' Hl. rewrite disc_node_targets in Hl. injection Hl as <-.
    apply Forall_forall. intros t Ht. apply mapping_node_targets in Ht.
    rewrite Forall_forall in H. now apply H.
  - intros Hn. rewrite disc_node_targets in Hn. discriminate.
Qed.

(* flattened discriminated oneof (generator.go:222-352) *)
Lemma variant_in_fields m o v : In v (variants m o) -> In v (m_fields m).
Proof. unfold variants. intros H. now apply filter_In in H as [H _]. Qed.

Lemma flattened_variant_sets_fine m o : incl (field_targets m) V ->
  forall e, In e (flattened_variant_sets sc sd m o) -> fine ok (snd e).
Proof.
  intros Hm e He. unfold flattened_variant_sets in He. apply in_map_iff in He as [v [<- Hv]]. cbn [snd].
  apply object_of_fine. apply Forall_app; split; [|apply Forall_app; split].
  - apply props_fine. intros f Hf. apply filter_In in Hf as [Hf _]. now apply (field_kind_ok m).
  - apply Forall_cons; [|apply Forall_nil]. cbn [snd]. exact (fine_map_flat ok _ (type_enum_flat "string" YPlain [disc_value v] (fun _ => eq_refl))).
  - destruct (fields_of_kind sc (f_kind v)) as [[cn cfs]|] eqn:Ef; [|apply Forall_nil].
    unfold fields_of_kind in Ef.
    pose proof (field_kind_ok m v Hm (variant_in_fields m o v Hv)) as Hk.
    destruct (f_kind v) as [| | | | | | | | | | | | | | |tn|tn] eqn:Ek; try discriminate.
    destruct (lookup_message sc tn) as [cm|] eqn:El; [|discriminate]. injection Ef as <- <-.
    apply props_fine. intros c Hc. now apply (lookup_fields_ok tn cm).
Qed.

Lemma flattened_oneof_schema_fine m :
  (forall o v, In o (filter o_flatten (disc_oneofs m)) -> In v (variants m o) ->
               ok (ref_prefix ++ variant_schema_name (short_name (m_name m)) v)) ->
  fine ok (flattened_oneof_schema m).
Proof.
  intros Hvar. cbv beta zeta delta [flattened_oneof_schema].
  set (fos := filter o_flatten (disc_oneofs m)) in *.
  apply fine_map_gen. apply Forall_app; split.
  - eapply Forall_impl; [intros e; apply mentry_of_pentry|]. apply opt_seq_forall; [reflexivity|].
    apply Forall_forall. intros x Hx. apply in_flat_map in Hx as [o [Ho Hx]].
    apply in_map_iff in Hx as [v [<- Hv]]. apply ref_to_fine. now apply (Hvar o v).
  - destruct fos as [|o fos'] eqn:Efos; [apply Forall_nil|].
    apply Forall_cons; [|apply Forall_nil]. split; [|reflexivity].
    apply gentry_disc_mapping.
    apply Forall_forall. intros t Ht. rewrite map_map in Ht. cbn [snd] in Ht.
    apply in_map_iff in Ht as [v [<- Hv]]. apply (Hvar o v); [now left|exact Hv].
Qed.

(* nested discriminated oneof (generator.go:370-477) *)
(* one member of `oneOf`: an object with the variant as its only property *)
Lemma variant_item_fine mn v : kind_ok (f_kind v) ->
  fine ok (object_of [(jname v, match f_kind v with KMessage tn => ref_to (short_name tn) | _ => convert_scalar sc sd mn v end)] []).
Proof.
  intros Hk. apply object_of_fine. apply Forall_cons; [|apply Forall_nil]. cbn [snd].
  pose proof (convert_scalar_fine mn v Hk) as Hs.
  destruct (f_kind v); try exact Hs. apply ref_to_fine, ok_short. exact Hk.
Qed.

(* the mapping of the discriminator names the components of the message-typed variants *)
Lemma variant_mapping_ok vs : (forall v, In v vs -> kind_ok (f_kind v)) ->
  Forall ok (map snd (map (fun v => (disc_value v, ref_prefix ++ match f_kind v with KMessage tn => short_name tn | _ => [] end))
                          (filter (fun v => is_msg_kind (f_kind v)) vs))).
Proof.
  intros Hvs. apply Forall_forall. intros t Ht. rewrite map_map in Ht. cbn [snd] in Ht.
  apply in_map_iff in Ht as [v [<- Hv]]. apply filter_In in Hv as [Hv Hmk]. specialize (Hvs v Hv).
  destruct (f_kind v); try discriminate Hmk. apply ok_short. exact Hvs.
Qed.

Lemma nested_oneof_schema_fine m : incl (field_targets m) V -> fine ok (nested_oneof_schema sc sd m).
Proof.
  intros Hm. cbv beta zeta delta [nested_oneof_schema].
  match goal with |- context [object_of ?p ?r] =>
    destruct (object_of_entries p r) as [base [Eb Hbase]]; [|rewrite Eb] end.
  { apply Forall_app; split.
    - apply props_fine. intros f Hf. apply filter_In in Hf as [Hf _]. now apply (field_kind_ok m).
    - apply Forall_forall. intros e He. apply in_map_iff in He as [o [<- Ho]]. cbn [snd].
      now apply fine_map_flat, type_enum_flat. }
  assert (Hvk : forall o v, In v (variants m o) -> kind_ok (f_kind v)).
  { intros o v Hv. exact (field_kind_ok m v Hm (variant_in_fields m o v Hv)). }
  apply fine_map_gen. apply Forall_app; split; [|apply Forall_app; split].
  - eapply Forall_impl; [intros e; apply mentry_of_pentry|exact Hbase].
  - eapply Forall_impl; [intros e; apply mentry_of_pentry|]. apply opt_seq_forall; [reflexivity|].
    apply Forall_forall. intros x Hx. apply in_flat_map in Hx as [o [Ho Hx]].
    apply in_map_iff in Hx as [v [<- Hv]]. apply variant_item_fine. exact (Hvk o v Hv).
  - destruct (disc_oneofs m) as [|o0 os'] eqn:Eos; [apply Forall_nil|].
    set (o := last (o0 :: os') _).
    apply Forall_cons; [|apply Forall_nil]. split; [|reflexivity].
    pose proof (variant_mapping_ok (variants m o) (Hvk o)) as Hmap.
    destruct (filter (fun v => is_msg_kind (f_kind v)) (variants m o)) as [|v0 mv].
    + apply gentry_disc; [intros l Hl; discriminate|]. intros _. apply good_nil. reflexivity.
    + match goal with |- gentry _ (_, YMap ([?a] ++ [?b])) => change ([a] ++ [b]) with [a; b] end.
      apply gentry_disc_mapping. exact Hmap.
Qed.

(* generator.go:175-220 buildObjectSchema: every component a message registers *)
Lemma variant_name_in m o v : In v (variants m o) ->
  In (variant_schema_name (short_name (m_name m)) v) (map fst (flattened_variant_sets sc sd m o)).
Proof.
  intros Hv. unfold flattened_variant_sets. rewrite map_map. apply in_map_iff. exists v. split; [reflexivity|exact Hv].
Qed.

Theorem object_schema_sets_fine M :
  incl (field_targets M) V ->
  incl (map fst (object_schema_sets sc sd M)) (map fst cs) ->
  forall e, In e (object_schema_sets sc sd M) -> fine ok (snd e).
Proof.
  intros Hm Hnames e He. unfold object_schema_sets in *.
  destruct (root_unwrap_field M) as [f|] eqn:Er.
  { destruct He as [<-|[]]. cbn [snd]. apply root_unwrap_schema_fine; [exact Hm|now apply root_unwrap_field_in]. }
  destruct (has_flatten_fields M).
  { destruct He as [<-|[]]. cbn [snd]. now apply flattened_object_schema_fine. }
  destruct (has_disc_oneof M).
  2:{ destruct He as [<-|[]]. cbn [snd]. now apply plain_object_schema_fine. }
  destruct (has_flattened_oneof M).
  2:{ destruct He as [<-|[]]. cbn [snd]. now apply nested_oneof_schema_fine. }
  apply in_app_or in He as [He|[<-|[]]].
  - apply in_flat_map in He as [o [Ho He]]. now apply (flattened_variant_sets_fine M o).
  - cbn [snd]. apply flattened_oneof_schema_fine. intros o v Ho Hv. apply ok_name, Hnames.
    rewrite map_app. apply in_or_app. left.
    pose proof (variant_name_in M o v Hv) as Hn. apply in_map_iff in Hn as [e0 [E0 He0]].
    apply in_map_iff. exists e0. split; [exact E0|]. apply in_flat_map. exists o. split; assumption.
Qed.

End Builders.

(* What protoc guarantees about a request and the Schema.v AST does not enforce: full names of
   messages are unique, and a map key is never a message. *)
Definition unique_message_names (sc : schema) : bool := negb (has_dup (map m_name (all_messages sc))).
Definition scalar_map_key (f : field) : bool := match f_card f with MapOf (KMessage _) => false | _ => true end.
Definition scalar_map_keys (sc : schema) : bool :=
  forallb (fun m => forallb scalar_map_key (m_fields m)) (all_messages sc).

Lemma find_message_in ms n m : find_message ms n = Some m -> In m ms.
Proof.
  induction ms as [|a ms IH]; [discriminate|]. cbn [find_message].
  destruct (str_eqb (m_name a) n); [intros [= <-]; now left|intros H; right; now apply IH].
Qed.

Lemma find_message_unique ms c : NoDup (map m_name ms) -> In c ms -> find_message ms (m_name c) = Some c.
Proof.
  induction ms as [|a ms IH]; intros Hnd Hc; [destruct Hc|]. cbn [find_message map] in *.
  inversion Hnd as [|? ? Ha Hms]; subst. destruct Hc as [->|Hc]; [now rewrite str_eqb_refl|].
  destruct (str_eqb (m_name a) (m_name c)) eqn:E; [|now apply IH].
  apply str_eqb_eq in E. exfalso. apply Ha. rewrite E. now apply in_map.
Qed.

Lemma lookup_unique sc c : unique_message_names sc = true -> In c (all_messages sc) ->
  lookup_message sc (m_name c) = Some c.
Proof.
  intros Hu Hc. unfold lookup_message. rewrite find_message_unique; [reflexivity| |exact Hc].
  apply has_dup_NoDup. unfold unique_message_names in Hu. now apply negb_true_iff in Hu.
Qed.

Lemma lookup_cases sc x m : lookup_message sc x = Some m -> In m (all_messages sc) \/ m = timestamp_message.
Proof.
  unfold lookup_message. destruct (find_message (all_messages sc) x) as [m'|] eqn:E.
  - intros [= <-]. left. now apply (find_message_in _ x).
  - destruct (str_eqb x timestamp_fq); [intros [= <-]; now right|discriminate].
Qed.

Lemma declared_nested_in sc D C : In C (declared_nested sc D) -> In C (all_messages sc).
Proof. unfold declared_nested. intros H. now apply filter_In in H as [H _]. Qed.

Section Resolve.
Variables (sc : schema) (sd : side) (sv : service) (st : cstate).
Hypothesis unique : unique_message_names sc = true.
Hypothesis mapkeys : scalar_map_keys sc = true.
Hypothesis collected : collect_service sc sd sv = Some st.
Hypothesis known : cs_unknown st = [].

Let cs := components_of_sets (cs_sets st).
Let V := cs_visited st.

Lemma visited_known x : In x V -> exists m, lookup_message sc x = Some m.
Proof.
  intros Hx. destruct (collect_service_inv sc sd sv st collected) as [[Hunk _] _].
  destruct (lookup_message sc x) as [m|] eqn:El; [now exists m|].
  specialize (Hunk x Hx El). rewrite known in Hunk. destruct Hunk.
Qed.

Lemma visited_in_components x : In x V -> In (short_name x) (map fst cs).
Proof. intros Hx. destruct (visited_known x Hx) as [m Hm]. exact (visited_have_components sc sd sv st x m collected Hx Hm). Qed.

Lemma visited_closed x m : In x V -> lookup_message sc x = Some m -> incl (field_targets m) V.
Proof.
  intros Hx Hm. destruct (collect_service_inv sc sd sv st collected) as [_ [Hcl _]].
  exact (proj1 (Hcl x Hx m Hm)).
Qed.

(* a descendant of a collected message is collected and is the message its name denotes *)
Lemma desc_visited P D : In (m_name P) V -> lookup_message sc (m_name P) = Some P -> desc sc P D ->
  In (m_name D) V /\ lookup_message sc (m_name D) = Some D.
Proof.
  intros HP HlP H. induction H as [|D C _ [HD HlD] HC]; [now split|].
  destruct (collect_service_inv sc sd sv st collected) as [_ [Hcl _]].
  split; [exact (proj2 (Hcl (m_name D) HD D HlD) C HC)|].
  apply lookup_unique; [exact unique|]. now apply (declared_nested_in sc D).
Qed.

Lemma fam_targets P M : In (m_name P) V -> lookup_message sc (m_name P) = Some P -> fam sc P M ->
  incl (field_targets M) V.
Proof.
  intros HP HlP [D [HD HM]]. destruct (desc_visited P D HP HlP HD) as [HDv HDl].
  pose proof (visited_closed (m_name D) D HDv HDl) as HDt.
  destruct HM as [->|HM]; [exact HDt|].
  unfold entry_messages in HM. apply in_map_iff in HM as [fd [<- Hfd]]. apply filter_In in Hfd as [Hfd Hmap].
  (* the key is not a message *)
  assert (Hkey : scalar_map_key fd = true).
  { destruct (lookup_cases sc _ _ HDl) as [Hin| ->].
    - unfold scalar_map_keys in mapkeys. rewrite forallb_forall in mapkeys. specialize (mapkeys D Hin).
      rewrite forallb_forall in mapkeys. now apply mapkeys.
    - destruct Hfd as [<-|[<-|[]]]; reflexivity. }
  intros t Ht. unfold field_targets, entry_message in Ht. cbn [m_fields flat_map] in Ht.
  apply in_app_or in Ht as [Ht|Ht]; [|apply in_app_or in Ht as [Ht|[]]].
  - exfalso. cbn [bare_key_field plain_field f_kind] in Ht. unfold scalar_map_key in Hkey.
    destruct (f_card fd) as [| | |[| | | | | | | | | | | | | | |tn|tn]]; try discriminate; destruct Ht.
  - cbn [bare_value_field plain_field f_kind] in Ht. apply HDt. unfold field_targets. apply in_flat_map.
    exists fd. now split.
Qed.

Theorem components_fine : forall e, In e cs -> fine (ok cs) (snd e).
Proof.
  intros e He. unfold cs, components_of_sets in He. apply omap_of_in in He. apply in_app_or in He as [He|He].
  - assert (Hfv : ok cs (ref_prefix ++ s "FieldViolation")).
    { apply ok_name. unfold cs, components_of_sets. apply omap_of_keys. rewrite map_app. apply in_or_app. left.
      right. now left. }
    destruct He as [<-|[<-|[<-|[]]]]; cbn [snd].
    + split; [apply good_nil; reflexivity|split; [discriminate|reflexivity]].
    + split; [apply good_nil; reflexivity|split; [discriminate|reflexivity]].
    + split; [|split; [discriminate|reflexivity]]. intros t Ht.
      change (In t [ref_prefix ++ s "FieldViolation"]) in Ht. destruct Ht as [<-|[]]. exact Hfv.
  - destruct (collect_service_inv sc sd sv st collected) as [[_ [Hprov _]] _].
    destruct (Hprov e He) as [P [M [HP [HlP [HM [HeM Hincl]]]]]].
    apply (object_schema_sets_fine sc sd cs V visited_in_components visited_closed M).
    + now apply (fam_targets P M).
    + intros n Hn. apply set_names_in_components. apply in_map_iff in Hn as [e0 [<- He0]]. apply in_map. now apply Hincl.
    + exact HeM.
Qed.

Lemma doc_ops_in e : In e (doc_ops sv) -> In (snd e) (sv_methods sv).
Proof.
  unfold doc_ops.
  assert (Hg : forall ms acc, In e (fold_left (fun acc md => assign_op (method_key sv md) md acc) ms acc) ->
                 In e acc \/ In (snd e) ms).
  { induction ms as [|md ms IH]; intros acc H; cbn [fold_left] in H; [now left|].
    apply IH in H as [H|H]; [|right; now right].
    apply assign_op_in in H as [->|H]; [right; now left|now left]. }
  intros H. apply Hg in H as [[]|H]. exact H.
Qed.

Lemma verb_key_plain v : key_plain (verb_key v) = true.
Proof. destruct v; reflexivity. Qed.

Lemma operations_good md : In md (sv_methods sv) -> good_node (ok cs) (operation_node sc sv md).
Proof.
  intros Hmd t Ht.
  destruct (collect_service_inv sc sd sv st collected) as [_ [_ Hroots]].
  assert (Hroot : forall r, In r [md_in md; md_out md] -> lookup_message sc r <> None).
  { intros r Hr. assert (Hv : In r V).
    { apply Hroots. unfold method_roots. apply in_flat_map. exists md. now split. }
    destruct (visited_known r Hv) as [m ->]. discriminate. }
  apply (refs_resolve_operations sc sd sv st collected md Hmd); [apply Hroot; now left|apply Hroot; right; now left|exact Ht].
Qed.

Lemma paths_good : good_node (ok cs) (paths_y sc sv).
Proof.
  unfold paths_y. apply good_map_anykey. apply Forall_forall. intros e He.
  apply in_map_iff in He as [p [<- _]]. cbn [snd]. apply fine_map_plain.
  apply Forall_forall. intros e' He'. apply in_map_iff in He' as [e0 [<- He0]].
  apply filter_In in He0 as [He0 _]. split; cbn [fst snd]; [apply verb_key_plain|].
  apply operations_good. now apply doc_ops_in.
Qed.

Theorem refs_resolve_all d : document_y sc sd sv = Some d ->
  forall t, In t (refs_of d) -> ref_resolves cs t = true.
Proof.
  intros Hd. unfold document_y, components_y in Hd. rewrite collected in Hd. injection Hd as <-.
  fold cs. change (good_node (ok cs) (YMap [(s "info", YMap [(s "title", YStr (sv_name sv ++ s " API"))]);
                                             (s "paths", paths_y sc sv);
                                             (s "components", YMap [(s "schemas", YMap cs)])])).
  apply good_map. apply Forall_cons; [|apply Forall_cons; [|apply Forall_cons; [|apply Forall_nil]]];
    apply gentry_of_pentry; (split; [reflexivity|]); cbn [snd].
  - apply good_nil. reflexivity.
  - exact paths_good.
  - apply good_map. apply Forall_cons; [|apply Forall_nil]. apply gentry_of_pentry. split; [reflexivity|]. cbn [snd].
    apply good_map_anykey. apply Forall_forall. exact components_fine.
Qed.

End Resolve.

(* The statement of C18_refs_resolve_full with the two side conditions; the defect hypothesis is not
   needed for this clause (a short-name collision merges components, it does not remove one). *)
Theorem refs_resolve_full sc sd sv st d :
  unique_message_names sc = true -> scalar_map_keys sc = true ->
  collect_service sc sd sv = Some st -> document_y sc sd sv = Some d -> cs_unknown st = [] ->
  forall t, In t (refs_of d) -> ref_resolves (components_of_sets (cs_sets st)) t = true.
Proof. intros Hu Hk Hc Hd Hn. exact (refs_resolve_all sc sd sv st Hu Hk Hc Hn d Hd). Qed.

(* what the examples below read off a service's collection and document, evaluated in one go *)
Definition doc_summary (sc : schema) (sd : side) (sv : service) : option (list str * list str * list str) :=
  match collect_service sc sd sv, document_y sc sd sv with
  | Some st, Some d => Some (cs_unknown st, map fst (components_of_sets (cs_sets st)), refs_of d)
  | _, _ => None
  end.

Lemma doc_summary_some sc sd sv u ns rs : doc_summary sc sd sv = Some (u, ns, rs) ->
  exists st d, collect_service sc sd sv = Some st /\ document_y sc sd sv = Some d /\ cs_unknown st = u /\
    map fst (components_of_sets (cs_sets st)) = ns /\ refs_of d = rs.
Proof.
  unfold doc_summary. destruct (collect_service sc sd sv) as [st|]; [|discriminate].
  destruct (document_y sc sd sv) as [d|]; [|discriminate]. intros [= <- <- <-]. now exists st, d.
Qed.

Section Examples.
Local Open Scope string_scope.
Local Open Scope list_scope.

Definition ofld (name : string) (num : Z) (k : kind) (o : string) : field :=
  {| f_name := s name; f_number := num; f_kind := k; f_card := Singular; f_oneof := Some (s o);
     f_query := None; f_unwrap := false; f_int64 := None; f_enumenc := None; f_nullable := None; f_empty := None;
     f_tsfmt := None; f_bytesenc := None; f_oneof_value := None; f_flatten := None; f_flatten_prefix := None |}.
Definition ufld (name : string) (num : Z) (k : kind) (c : card) : field :=
  {| f_name := s name; f_number := num; f_kind := k; f_card := c; f_oneof := None;
     f_query := None; f_unwrap := true; f_int64 := None; f_enumenc := None; f_nullable := None; f_empty := None;
     f_tsfmt := None; f_bytesenc := None; f_oneof_value := None; f_flatten := None; f_flatten_prefix := None |}.
Definition flfld (name : string) (num : Z) (k : kind) (pre : string) : field :=
  {| f_name := s name; f_number := num; f_kind := k; f_card := Singular; f_oneof := None;
     f_query := None; f_unwrap := false; f_int64 := None; f_enumenc := None; f_nullable := None; f_empty := None;
     f_tsfmt := None; f_bytesenc := None; f_oneof_value := None; f_flatten := Some true; f_flatten_prefix := Some (s pre) |}.
Definition omsg (fq : string) (path : list string) (fs : list field) (os : list oneof) : message :=
  {| m_name := s fq; m_path := map s path; m_fields := fs; m_oneofs := os |}.

Definition refs_messages : list message :=
  [ msg "a.Tree" ["Tree"] [fld "label" 1 KString Singular; fld "kids" 2 (KMessage (s "a.Tree")) Repeated;
                           fld "leaf" 3 (KMessage (s "a.Tree.Leaf")) Singular;
                           fld "attrs" 4 (KMessage (s "a.Tree.Leaf")) (MapOf KString);
                           fld "seen" 5 (KMessage (s "google.protobuf.Timestamp")) Singular];
    msg "a.Tree.Leaf" ["Tree"; "Leaf"] [fld "weight" 1 KDouble Singular];
    (* nested discriminated oneof *)
    omsg "a.Event" ["Event"] [fld "id" 1 KString Singular;
                              ofld "click" 2 (KMessage (s "a.Click")) "payload";
                              ofld "scroll" 3 (KMessage (s "a.Scroll")) "payload";
                              ofld "note" 4 KString "payload"]
         [{| o_name := s "payload"; o_has_cfg := true; o_discriminator := s "type"; o_flatten := false |}];
    msg "a.Click" ["Click"] [fld "x" 1 KInt32 Singular; fld "target" 2 (KMessage (s "a.Tree")) Singular];
    msg "a.Scroll" ["Scroll"] [fld "dy" 1 KInt32 Singular];
    (* flattened discriminated oneof *)
    omsg "a.Shape" ["Shape"] [fld "name" 1 KString Singular;
                              ofld "circle" 2 (KMessage (s "a.Circle")) "kind";
                              ofld "square" 3 (KMessage (s "a.Square")) "kind"]
         [{| o_name := s "kind"; o_has_cfg := true; o_discriminator := s "kind"; o_flatten := true |}];
    msg "a.Circle" ["Circle"] [fld "radius" 1 KDouble Singular; fld "center" 2 (KMessage (s "a.Point")) Singular];
    msg "a.Square" ["Square"] [fld "side" 1 KDouble Singular];
    msg "a.Point" ["Point"] [fld "px" 1 KDouble Singular; fld "py" 2 KDouble Singular];
    (* flatten *)
    msg "a.Wrapper" ["Wrapper"] [fld "id" 1 KString Singular; flfld "meta" 2 (KMessage (s "a.Meta")) "m_"];
    msg "a.Meta" ["Meta"] [fld "owner" 1 (KMessage (s "a.Owner")) Singular; fld "rev" 2 KInt64 Singular];
    msg "a.Owner" ["Owner"] [fld "login" 1 KString Singular];
    (* root unwrap, and unwrap as a map value *)
    msg "a.ItemList" ["ItemList"] [ufld "items" 1 (KMessage (s "a.Item")) Repeated];
    msg "a.Item" ["Item"] [fld "sku" 1 KString Singular];
    msg "a.Req" ["Req"] [fld "tree" 1 (KMessage (s "a.Tree")) Singular; fld "event" 2 (KMessage (s "a.Event")) Singular;
                         fld "shapes" 3 (KMessage (s "a.Shape")) Repeated;
                         fld "wrapper" 4 (KMessage (s "a.Wrapper")) Singular;
                         fld "groups" 5 (KMessage (s "a.ItemList")) (MapOf KString)];
    msg "a.Resp" ["Resp"] [fld "items" 1 (KMessage (s "a.ItemList")) Singular] ].
Definition refs_service : service := svc "Shapes" "/v1" [] [rpc "Do" "a.Req" "a.Resp" "/do" 2].
Definition refs_schema : schema := file1 refs_messages [refs_service].

(* a recursive message with a nested declaration, a map of messages and a Timestamp; a nested and a
   flattened discriminated oneof; a flatten field with prefix; a root unwrap that is also a map value *)
Example refs_nonvacuous :
  unique_message_names refs_schema = true /\ scalar_map_keys refs_schema = true /\
  defects_C18 refs_schema no_side refs_service = [] /\
  exists st d, collect_service refs_schema no_side refs_service = Some st /\
    document_y refs_schema no_side refs_service = Some d /\ cs_unknown st = [] /\
    map fst (components_of_sets (cs_sets st))
    = map s ["Error"; "FieldViolation"; "ValidationError"; "Req"; "GroupsEntry"; "Tree"; "AttrsEntry"; "Leaf"; "Timestamp";
             "Event"; "Click"; "Scroll"; "Shape_circle"; "Shape_square"; "Shape"; "Circle"; "Point"; "Square";
             "Wrapper"; "Meta"; "Owner"; "ItemList"; "Item"; "Resp"] /\
    refs_of d
    = map (fun n => ref_prefix ++ s n)
          ["Req"; "Resp"; "ValidationError"; "Error"; "FieldViolation"; "Tree"; "Event"; "Shape"; "Wrapper"; "Item"; "ItemList";
           "Tree"; "Leaf"; "Leaf"; "Leaf"; "Click"; "Scroll"; "Click"; "Scroll"; "Tree"; "Point";
           "Shape_circle"; "Shape_square"; "Shape_circle"; "Shape_square"; "Point"; "Owner"; "Owner"; "Item"; "ItemList"].
Proof.
  split; [vm_compute; reflexivity|]. split; [vm_compute; reflexivity|]. split; [vm_compute; reflexivity|].
  apply doc_summary_some. vm_compute. reflexivity.
Qed.

(* Without unique full names: a.M.Inner is declared twice; the collection follows the fields of the first
   declaration only (and here visits it before a.M), while processMessage on a.M registers the schema
   of both declarations under "Inner", and the second one refers to Z. *)
Definition dup_schema : schema :=
  file1 [ msg "a.Req" ["Req"] [fld "inner" 1 (KMessage (s "a.M.Inner")) Singular; fld "m" 2 (KMessage (s "a.M")) Singular];
          msg "a.M" ["M"] [fld "x" 1 KString Singular];
          msg "a.M.Inner" ["M"; "Inner"] [fld "v" 1 KString Singular];
          msg "a.M.Inner" ["M"; "Inner"] [fld "z" 1 (KMessage (s "a.Z")) Singular];
          msg "a.Z" ["Z"] [fld "w" 1 KString Singular] ]
        [svc "S" "/s" [] [rpc "Do" "a.Req" "a.Req" "/do" 2]].
Definition dup_service : service := svc "S" "/s" [] [rpc "Do" "a.Req" "a.Req" "/do" 2].

Example refs_resolve_needs_unique_names :
  unique_message_names dup_schema = false /\ scalar_map_keys dup_schema = true /\
  defects_C18 dup_schema no_side dup_service = [] /\
  exists st d, collect_service dup_schema no_side dup_service = Some st /\
    document_y dup_schema no_side dup_service = Some d /\ cs_unknown st = [] /\
    In (ref_prefix ++ s "Z") (refs_of d) /\
    ref_resolves (components_of_sets (cs_sets st)) (ref_prefix ++ s "Z") = false.
Proof.
  split; [vm_compute; reflexivity|]. split; [vm_compute; reflexivity|]. split; [vm_compute; reflexivity|].
  edestruct (doc_summary_some dup_schema no_side dup_service) as (st & d & Hc & Hd & Hu & Hn & Hr); [vm_compute; reflexivity|].
  exists st, d. unfold ref_resolves. rewrite Hn, Hr.
  split; [exact Hc|]. split; [exact Hd|]. split; [exact Hu|]. split; [|reflexivity].
  apply mem_str_In. reflexivity.
Qed.

(* With a message as map key: the entry schema refers to the key type, which the collection (it
   follows the value field only) never visits. *)
Definition mapkey_schema : schema :=
  file1 [ msg "a.Req" ["Req"] [fld "idx" 1 KString (MapOf (KMessage (s "a.K")))];
          msg "a.K" ["K"] [fld "w" 1 KString Singular] ]
        [svc "S" "/s" [] [rpc "Do" "a.Req" "a.Req" "/do" 2]].

Example refs_resolve_needs_scalar_map_keys :
  unique_message_names mapkey_schema = true /\ scalar_map_keys mapkey_schema = false /\
  defects_C18 mapkey_schema no_side dup_service = [] /\
  exists st d, collect_service mapkey_schema no_side dup_service = Some st /\
    document_y mapkey_schema no_side dup_service = Some d /\ cs_unknown st = [] /\
    In (ref_prefix ++ s "K") (refs_of d) /\
    ref_resolves (components_of_sets (cs_sets st)) (ref_prefix ++ s "K") = false.
Proof.
  split; [vm_compute; reflexivity|]. split; [vm_compute; reflexivity|]. split; [vm_compute; reflexivity|].
  edestruct (doc_summary_some mapkey_schema no_side dup_service) as (st & d & Hc & Hd & Hu & Hn & Hr); [vm_compute; reflexivity|].
  exists st, d. unfold ref_resolves. rewrite Hn, Hr.
  split; [exact Hc|]. split; [exact Hd|]. split; [exact Hu|]. split; [|reflexivity].
  apply mem_str_In. reflexivity.
Qed.

End Examples.

(* without the side conditions the statement is false in the model *)
Theorem refs_resolve_unconditional_refuted :
  ~ (forall sc sd sv st d, collect_service sc sd sv = Some st -> document_y sc sd sv = Some d ->
       cs_unknown st = [] -> defects_C18 sc sd sv = [] ->
       forall t, In t (refs_of d) -> ref_resolves (components_of_sets (cs_sets st)) t = true).
Proof.
  intros H.
  destruct refs_resolve_needs_scalar_map_keys as [_ [_ [Hd [st [d [Hc [Hdoc [Hu [Hin Hres]]]]]]]]].
  specialize (H _ _ _ _ _ Hc Hdoc Hu Hd _ Hin). congruence.
Qed.

Print Assumptions refs_resolve_full.
Print Assumptions refs_resolve_unconditional_refuted.
