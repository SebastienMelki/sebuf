(* EmptyFacts.v — the empty_behavior codec (internal/httpgen/empty_behavior.go) in general:
   MarshalJSON   = protojson output with the entry of an EMPTY child rewritten per field
                   (NULL: value replaced by null, OMIT: entry deleted, PRESERVE: untouched),
   UnmarshalJSON = every null under a NULL field turned back into {} and the rest read by protojson;
   hence the round trip (C04) up to [norm] (= the presence of an empty OMIT child is lost) for every
   message whose codec is the empty_behavior one, for all schemas and all well-typed values.
   One side condition is needed and shown necessary (EmptyConforms.v, empty_roundtrip_needs_epoch_null_free):
   no NULL field of type Timestamp holds the epoch (proto.Size = 0, so it is written as null, read back
   as {} and rejected by protojson, whose Timestamp form is a string).
   Also: [norm] is idempotent (all message types) and is the identity without lossy annotations. *)
From Coq Require Import Lia ZArith.
From Sebuf Require Import CodecCases.
From SebufProofs Require Import ListFacts ProtoJsonFacts NullableFacts.

Open Scope Z_scope.

Lemma nodup_str_inv x l : nodup_str (x :: l) = true -> ~ In x l /\ nodup_str l = true.
Proof. intros H. apply nodup_str_iff in H. inversion H; subst. split; [assumption|apply nodup_str_iff; assumption]. Qed.

(* what MarshalJSON does to the entry of one field.  [hit f x] sorts (field, value) into the three cases, so that
   the codec's action ([act_empty_hit]) and the documented loss ([nf_norm_hit]) are read off one case analysis *)
Inductive eact := AKeep | ANull | ADrop.

Definition hit (f : field) (x : fval) : eact :=
  match empty_of f, x with
  | Some EBNull, FM [] => ANull
  | Some EBOmit, FM [] => ADrop
  | _, _ => AKeep
  end.
Definition is_nullf (f : field) : bool := match empty_of f with Some EBNull => true | _ => false end.

Lemma hit_null f x : hit f x = ANull -> empty_of f = Some EBNull /\ x = FM [].
Proof. unfold hit. destruct (empty_of f) as [[| | |]|]; destruct x as [sx|[|e0 r0]|l|kv]; intros H; try discriminate H; auto. Qed.
(* side condition of the round trip (see empty_roundtrip_needs_epoch_null_free): no NULL field of type
   Timestamp holds the epoch.  [null_not_ts] is the schema-level sufficient condition: a NULL field is never
   a Timestamp. *)
Definition epoch_null_free (md : message) (m : mval) : bool :=
  forallb (fun e => match find_field (m_fields md) (fst e), snd e with
                    | Some f, FM [] => negb (is_nullf f && is_timestamp (f_kind f))
                    | _, _ => true
                    end) m.
Definition null_not_ts (md : message) : bool :=
  forallb (fun f => negb (is_nullf f && is_timestamp (f_kind f))) (m_fields md).

Lemma null_not_ts_epoch_free md m : null_not_ts md = true -> epoch_null_free md m = true.
Proof.
  unfold null_not_ts, epoch_null_free. rewrite !forallb_forall. intros H [name x] _. cbn [fst snd].
  destruct (find_field (m_fields md) name) as [f|] eqn:Ef; [|reflexivity].
  destruct x as [sx|[|e0 r0]|l|kv]; try reflexivity.
  apply H. apply (find_field_spec _ _ _ Ef).
Qed.

Section Codec.
Variable E : ExtLib.
Hypothesis EL : ExtLaws E.
Variable sc : schema.

(* an empty child that is well typed is rendered, and as {} unless it is a Timestamp *)
Lemma pj_empty_child f : wt_entry sc f (FM []) = true ->
  exists j, pj_fval E sc (f_kind f) (FM []) = ROk j /\ (is_timestamp (f_kind f) = false -> j = JObj []).
Proof.
  intros Hw.
  assert (Hwt : wt sc (f_kind f) (FM []) = true).
  { unfold wt_entry in Hw. destruct (f_card f); try discriminate Hw; exact Hw. }
  destruct (f_kind f) as [| | | | | | | | | | | | | | | tn0 | ctn]; try (simpl in Hwt; discriminate Hwt).
  rewrite wt_FM in Hwt. rewrite pj_fval_FM. unfold is_timestamp. change (s "google.protobuf.Timestamp") with ts_name.
  destruct (str_eqb ctn ts_name).
  - eexists. split; [vm_compute; reflexivity|discriminate].
  - apply andb_prop in Hwt. destruct Hwt as [Hwk Hwt]. apply Bool.negb_true_iff in Hwk. rewrite Hwk.
    destruct (find_message (all_messages sc) ctn); [|discriminate Hwt]. eexists. split; reflexivity.
Qed.

Lemma act_empty_hit m f x : mget m (f_name f) = Some x ->
  act_empty m f = match hit f x with ANull => Some (Some JNull) | ADrop => Some None | AKeep => None end.
Proof.
  intros Hm. unfold act_empty, hit. rewrite Hm.
  destruct (empty_of f) as [[| | |]|]; destruct x as [sx|[|e0 r0]|l|kv]; reflexivity.
Qed.
Lemma nf_norm_hit f x : tsfmt_of f = None ->
  nf_norm f x = match hit f x with ADrop => None | _ => Some x end.
Proof.
  intros Ht. unfold nf_norm, hit. rewrite Ht.
  destruct (empty_of f) as [[| | |]|]; destruct x as [sx|[|e0 r0]|l|kv]; reflexivity.
Qed.

(* C04 for the empty_behavior codec, all values: an empty NULL child is written null and read back as {},
   which is what protojson wrote for it unless it is a Timestamp; an empty OMIT child is dropped by both
   MarshalJSON and [norm]; anything else is left alone, and protojson never writes null *)
Theorem empty_roundtrip : forall tn md m j,
  str_eqb tn ts_name = false -> is_wkt_other tn = false ->
  find_message (all_messages sc) tn = Some md -> owner_of sc md = Own FtEmpty ->
  nodup_str (map jn (m_fields md)) = true ->
  epoch_null_free md m = true ->
  wt sc (KMessage tn) (FM m) = true ->
  encode E sc tn m = ROk j -> decode E sc tn j = ROk (norm sc tn m).
Proof.
  intros tn md m j Hts _ Hfm Hown _ Hnt Hwt Henc.
  rewrite (norm_owned sc tn md FtEmpty m (find_lookup sc tn md Hts Hfm) Hown), norm_fields_nmap.
  apply (field_codec_roundtrip E sc FtEmpty _ tn md m j eq_refl Hts Hfm Hown Hwt); [| | |exact Henc].
  - intros _ x f jx Hff Hm Hw Hj. cbn [act_of gd_of]. pose proof (proj1 (find_field_spec _ _ _ Hff)) as Hf.
    assert (Ht : tsfmt_of f = None).
    { destruct (tsfmt_of f) as [t|] eqn:Et; [|reflexivity].
      discriminate (own_excl sc md FtEmpty FtTs Hown (feature_ts sc md f t Hf Et)). }
    unfold slot_ok, thru. rewrite (act_empty_hit m f x Hm), (nf_norm_hit f x Ht).
    destruct (hit f x) eqn:Eh; cbn [aval].
    + assert (Hd : gd_empty f jx = None).
      { unfold gd_empty. destruct (empty_of f) as [[| | |]|]; try reflexivity.
        destruct jx; try reflexivity. exfalso. exact (pj_not_null E EL sc _ _ _ Hj eq_refl). }
      rewrite Hd. exists jx. split; [reflexivity|].
      exact (entry_rt E EL sc f x jx (pj_roundtrip_fval E EL sc x) Hw Hj).
    + destruct (hit_null f x Eh) as [Hemp Hx]. subst x.
      assert (Hn : is_nullf f = true) by (unfold is_nullf; rewrite Hemp; reflexivity).
      assert (Hnts : is_timestamp (f_kind f) = false).
      { unfold epoch_null_free in Hnt. rewrite forallb_forall in Hnt. specialize (Hnt _ (mget_pair m _ _ Hm)).
        cbn [fst snd] in Hnt. rewrite Hff, Hn in Hnt. destruct (is_timestamp (f_kind f)); [discriminate Hnt|reflexivity]. }
      destruct (pj_empty_child f Hw) as [j0 [Hj0 Hobj]].
      assert (Hjj : jx = JObj []) by (rewrite <- (Hobj Hnts); congruence). subst jx.
      unfold gd_empty. rewrite Hemp. cbn [aval]. exists (JObj []). split; [reflexivity|].
      exact (entry_rt E EL sc f (FM []) (JObj []) (pj_roundtrip_fval E EL sc (FM [])) Hw Hj).
    + reflexivity.
  - intros f v _. apply absent_deleted.
  - intros es _ _ _. apply dec_of_gstep; [reflexivity|discriminate].
Qed.

End Codec.


Definition ts_list (a b : Z) : list (str * fval) :=
  (if a =? 0 then [] else [(s "seconds", FS (VInt a))]) ++ (if b =? 0 then [] else [(s "nanos", FS (VInt b))]).
Lemma ts_value_list a b : ts_value a b = FM (ts_list a b).
Proof. reflexivity. Qed.
Lemma mget_int_ts_list a b : mget_int (ts_list a b) (s "seconds") = a /\ mget_int (ts_list a b) (s "nanos") = b.
Proof.
  unfold ts_list. destruct (Z.eqb_spec a 0) as [Ha|Ha]; destruct (Z.eqb_spec b 0) as [Hb|Hb]; subst;
    split; vm_compute; reflexivity.
Qed.

Lemma day_floor_idem sec : day_floor (day_floor sec) = day_floor sec.
Proof.
  unfold day_floor. pose proof (Z.div_mod sec 86400 ltac:(lia)) as Hdm.
  assert (Heq : sec - sec mod 86400 = (sec / 86400) * 86400) by lia.
  rewrite Heq. rewrite Z.mod_mul by lia. lia.
Qed.

Lemma trunc_ts_FM fmt tm :
  trunc_ts fmt (FM tm) =
  match fmt with
  | TFUnixSeconds => ts_value (mget_int tm (s "seconds")) 0
  | TFUnixMillis => ts_value (mget_int tm (s "seconds")) ((mget_int tm (s "nanos") / 1000000) * 1000000)
  | TFDate => ts_value (day_floor (mget_int tm (s "seconds"))) 0
  | _ => FM tm
  end.
Proof. reflexivity. Qed.

Lemma trunc_ts_idem fmt v : trunc_ts fmt (trunc_ts fmt v) = trunc_ts fmt v.
Proof.
  destruct v as [x|tm|l|kv]; try reflexivity.
  rewrite (trunc_ts_FM fmt tm).
  destruct fmt; try reflexivity; rewrite ts_value_list, trunc_ts_FM.
  - destruct (mget_int_ts_list (mget_int tm (s "seconds")) 0) as [H1 H2]. rewrite H1. reflexivity.
  - destruct (mget_int_ts_list (mget_int tm (s "seconds")) (mget_int tm (s "nanos") / 1000000 * 1000000)) as [H1 H2].
    rewrite H1, H2. rewrite Z.div_mul by lia. reflexivity.
  - destruct (mget_int_ts_list (day_floor (mget_int tm (s "seconds"))) 0) as [H1 H2]. rewrite H1, day_floor_idem. reflexivity.
Qed.

(* [norm_fields] works field by field, and what it does to a field's value it does not do twice *)
Lemma nf_norm_idem f x x' : nf_norm f x = Some x' -> nf_norm f x' = Some x'.
Proof.
  unfold nf_norm. destruct (tsfmt_of f) as [fmt|].
  - intros H. injection H as <-. rewrite trunc_ts_idem. reflexivity.
  - destruct (empty_of f) as [[| | |]|]; destruct x as [sx|[|e0 r0]|l|kv]; intros H; try discriminate H;
      injection H as <-; reflexivity.
Qed.
Lemma norm_fields_idem md m : norm_fields md (norm_fields md m) = norm_fields md m.
Proof. rewrite !norm_fields_nmap. apply nmap_idem. exact nf_norm_idem. Qed.

Section NormSc.
Variable sc : schema.

Definition sw_value (uf : field) (kvp : sval * fval) : sval * fval :=
  match snd kvp with
  | FM wm => (fst kvp, FM (filter (fun we => str_eqb (fst we) (f_name uf)) wm))
  | w => (fst kvp, w)
  end.
Definition sw_entry (md : message) (e : str * fval) : str * fval :=
  match find_field (m_fields md) (fst e) with
  | Some f =>
      match value_unwrap sc f, snd e with
      | Some uf, FMap kv => (fst e, FMap (map (sw_value uf) kv))
      | _, _ => e
      end
  | None => e
  end.
Lemma strip_wrappers_map md m : strip_wrappers sc md m = map (sw_entry md) m.
Proof. reflexivity. Qed.

Lemma sw_value_idem uf p : sw_value uf (sw_value uf p) = sw_value uf p.
Proof.
  destruct p as [k w]. unfold sw_value. cbn [fst snd].
  destruct w as [x|wm|l|kv]; cbn [fst snd]; try reflexivity. rewrite filter_idem. reflexivity.
Qed.

Lemma sw_entry_idem md e : sw_entry md (sw_entry md e) = sw_entry md e.
Proof.
  destruct e as [name x]. unfold sw_entry at 2. cbn [fst snd].
  destruct (find_field (m_fields md) name) as [f|] eqn:Ef.
  - destruct (value_unwrap sc f) as [uf|] eqn:Eu.
    + destruct x as [sx|cm|l|kv]; unfold sw_entry; cbn [fst snd]; rewrite Ef, Eu; try reflexivity.
      rewrite map_map. do 2 f_equal. apply map_ext. intros p. apply sw_value_idem.
    + unfold sw_entry. cbn [fst snd]. rewrite Ef, Eu. reflexivity.
  - unfold sw_entry. cbn [fst]. rewrite Ef. reflexivity.
Qed.

Lemma strip_wrappers_idem md m : strip_wrappers sc md (strip_wrappers sc md m) = strip_wrappers sc md m.
Proof. rewrite !strip_wrappers_map, map_map. apply map_ext. intros e. apply sw_entry_idem. Qed.

(* for EVERY message type (whatever codec it owns) and every value *)
Theorem norm_idempotent : forall tn m, norm sc tn (norm sc tn m) = norm sc tn m.
Proof.
  intros tn m. unfold norm. destruct (lookup_message sc tn) as [md|]; [|reflexivity].
  destruct (owner_of sc md) as [|[]|]; try reflexivity;
    try apply norm_fields_idem; apply strip_wrappers_idem.
Qed.

(* no lossy timestamp_format (UNIX_SECONDS / UNIX_MILLIS / DATE) field, no empty_behavior = OMIT field, no map
   whose values are unwrap wrappers.  (PRESERVE and NULL lose nothing.) *)
Definition is_omitf (f : field) : bool := match empty_of f with Some EBOmit => true | _ => false end.
Definition lossy_free (md : message) : bool :=
  forallb (fun f => match tsfmt_of f, value_unwrap sc f with None, None => negb (is_omitf f) | _, _ => false end)
          (m_fields md).

Lemma lossy_free_field md f : lossy_free md = true -> In f (m_fields md) ->
  tsfmt_of f = None /\ is_omitf f = false /\ value_unwrap sc f = None.
Proof.
  unfold lossy_free. rewrite forallb_forall. intros H Hin. specialize (H f Hin).
  destruct (tsfmt_of f); [discriminate H|].
  destruct (value_unwrap sc f); [discriminate H|]. apply Bool.negb_true_iff in H. auto.
Qed.

Theorem norm_id_without_lossy : forall tn m,
  (forall md, lookup_message sc tn = Some md -> lossy_free md = true) ->
  norm sc tn m = m.
Proof.
  intros tn m H. unfold norm. destruct (lookup_message sc tn) as [md|]; [|reflexivity].
  specialize (H md eq_refl).
  assert (Hnf : norm_fields md m = m).
  { unfold norm_fields. induction m as [|[name x] r IH]; [reflexivity|]. cbn [flat_map fst snd]. rewrite IH.
    destruct (find_field (m_fields md) name) as [f|] eqn:Ef; [|reflexivity].
    destruct (lossy_free_field md f H (proj1 (find_field_spec _ _ _ Ef))) as [Ht [He _]]. rewrite Ht.
    unfold is_omitf in He. destruct (empty_of f) as [[| | |]|]; try discriminate He; reflexivity. }
  assert (Hsw : strip_wrappers sc md m = m).
  { rewrite strip_wrappers_map. rewrite <- (map_id m) at 2. apply map_ext. intros [name x]. unfold sw_entry. cbn [fst snd].
    destruct (find_field (m_fields md) name) as [f|] eqn:Ef; [|reflexivity].
    destruct (lossy_free_field md f H (proj1 (find_field_spec _ _ _ Ef))) as [_ [_ Hu]]. rewrite Hu. reflexivity. }
  destruct (owner_of sc md) as [|[]|]; try reflexivity; assumption.
Qed.
End NormSc.
Close Scope Z_scope.
