(* UnwrapRootExamples.v — witnesses for the root-unwrap theorems: non-vacuity on the shared schema [xs] and on a
   schema with every root-unwrap shape, and one refutation per side condition. *)
From Sebuf Require Import CodecCases.
From SebufProofs Require Import TextFacts CodecTextFacts ProtoJsonFacts NullableFacts MappingFacts GoJsonFacts UnwrapRootFacts UnwrapRootConforms.
From SebufProofs Require Import CodecExamples.
Open Scope Z_scope.

Definition color_enum : enum :=
  {| e_name := s "x.v1.Color";
     e_values := [ {| ev_name := s "COLOR_UNSPECIFIED"; ev_number := 0; ev_custom := None |};
                   {| ev_name := s "COLOR_RED"; ev_number := 1; ev_custom := Some (s "red") |};
                   {| ev_name := s "COLOR_BLUE"; ev_number := 2; ev_custom := Some (s "blue") |} ] |}.
(* two values with one enum_value text *)
Definition dup_enum : enum :=
  {| e_name := s "x.v1.Dup";
     e_values := [ {| ev_name := s "DUP_A"; ev_number := 0; ev_custom := Some (s "same") |};
                   {| ev_name := s "DUP_B"; ev_number := 1; ev_custom := Some (s "same") |} ] |}.

(* root unwrap in every shape *)
Definition uws : schema :=
  [ {| fl_path := s "x/u.proto"; fl_package := s "x.v1"; fl_gopkg := s "x"; fl_generate := true;
       fl_messages :=
         [ msg "Leaf" [fld "a" 1 KString Singular; fld "n" 2 KInt64 Singular] [];
           msg "LeafMap" [set_unwrap (fld "by_id" 1 (T "Leaf") (MapOf KString))] [];
           msg "Page" [set_unwrap (fld "items" 1 (T "Leaf") Repeated); fld "total" 2 KInt32 Singular] [];
           msg "Book" [set_unwrap (fld "pages" 1 (T "Page") (MapOf KString))] [];
           msg "StrMap" [set_unwrap (fld "m" 1 KString (MapOf KString))] [];
           msg "Tags" [set_unwrap (fld "vals" 1 KString Repeated); fld "total" 2 KInt32 Singular] [];
           msg "TagCombo" [set_unwrap (fld "by_k" 1 (T "Tags") (MapOf KString))] [];
           msg "Ratios" [set_unwrap (fld "rs" 1 KDouble Repeated)] [];
           msg "Bigs" [set_unwrap (fld "bs" 1 KInt64 Repeated)] [];
           msg "Colors" [set_unwrap (fld "cs" 1 (KEnum (s "x.v1.Color")) Repeated)] [];
           msg "ColorCombo" [set_unwrap (fld "by_k" 1 (T "Colors") (MapOf KString))] [];
           msg "Dups" [set_unwrap (fld "ds" 1 (KEnum (s "x.v1.Dup")) Repeated)] [];
           msg "IntKeys" [set_unwrap (fld "by_n" 1 (T "Leaf") (MapOf KInt32))] [] ];
       fl_enums := [color_enum; dup_enum]; fl_services := [] |} ].

Definition leaf1 : fval := FM [(s "a", vstr "x"); (s "n", vint 7)].
Definition leaf1_json : json := JObj [(s "a", JStr (s "x")); (s "n", JStr (s "7"))].

(* all hypotheses of unwrap_root_roundtrip / conforms_unwrap_root at once *)
Definition root_hyps (sc : schema) (tn : str) (m : mval) : Prop :=
  str_eqb tn ts_name = false /\ is_wkt_other tn = false /\
  exists md, find_message (all_messages sc) tn = Some md /\ owner_of sc md = Own FtUnwrapRoot /\
             buildable sc FtUnwrapRoot md = true /\ unwrap_root_dom sc md = true /\
             wt sc (KMessage tn) (FM m) = true /\ defects_C04 sc tn m = [] /\ root_conf sc md m = true.
Ltac leaf :=
  match goal with
  | |- exists md : message, _ => apply ex_md_of_match; vm_compute; conj_split; reflexivity
  | |- exists _, _ => eexists; vm_compute; reflexivity
  | |- _ => vm_compute; reflexivity
  end.
Ltac witness := cbv zeta; unfold root_hyps; conj_split; leaf.

(* the shared witness schema [xs]: root list of messages (BarList), root list of strings (Strs) *)
Example unwrap_root_nonvacuous_xs :
  (let m := [(s "bars", FL [leaf1; FM []])] in
   let j := JArr [leaf1_json; JObj []] in
   root_hyps xs (q "BarList") m /\
   encode Ex xs (q "BarList") m = ROk j /\ to_json Ex xs (q "BarList") m = ROk j /\
   decode Ex xs (q "BarList") j = ROk m /\ norm xs (q "BarList") m = m) /\
  (let m := [(s "vals", FL [vstr "a"; vstr "b"])] in
   let j := JArr [JStr (s "a"); JStr (s "b")] in
   root_hyps xs (q "Strs") m /\
   encode Ex xs (q "Strs") m = ROk j /\ to_json Ex xs (q "Strs") m = ROk j /\
   decode Ex xs (q "Strs") j = ROk m /\ norm xs (q "Strs") m = m) /\
  (* nothing set: [] for messages; null for scalars, read back as nothing set *)
  encode Ex xs (q "BarList") [] = ROk (JArr []) /\ decode Ex xs (q "BarList") (JArr []) = ROk [] /\
  encode Ex xs (q "Strs") [] = ROk JNull /\ decode Ex xs (q "Strs") JNull = ROk [].
Proof. witness. Qed.

(* root map of messages, the combined form (the wrapper's other field is dropped: norm), root map of strings,
   root list of doubles, root list of an enum with enum_value texts *)
Example unwrap_root_nonvacuous_shapes :
  (let m := [(s "by_id", FMap [(VStr (s "a"), leaf1); (VStr (s "b"), FM [])])] in
   let j := JObj [(s "a", leaf1_json); (s "b", JObj [])] in
   root_hyps uws (q "LeafMap") m /\
   encode Ex uws (q "LeafMap") m = ROk j /\ to_json Ex uws (q "LeafMap") m = ROk j /\
   decode Ex uws (q "LeafMap") j = ROk m /\ norm uws (q "LeafMap") m = m) /\
  (let m := [(s "pages", FMap [(VStr (s "p1"), FM [(s "items", FL [leaf1]); (s "total", vint 3)]); (VStr (s "p2"), FM [])])] in
   let m' := [(s "pages", FMap [(VStr (s "p1"), FM [(s "items", FL [leaf1])]); (VStr (s "p2"), FM [])])] in
   let j := JObj [(s "p1", JArr [leaf1_json]); (s "p2", JArr [])] in
   root_hyps uws (q "Book") m /\
   encode Ex uws (q "Book") m = ROk j /\ to_json Ex uws (q "Book") m = ROk j /\
   decode Ex uws (q "Book") j = ROk m' /\ norm uws (q "Book") m = m') /\
  (let m := [(s "m", FMap [(VStr (s "a"), vstr "x")])] in
   let j := JObj [(s "a", JStr (s "x"))] in
   root_hyps uws (q "StrMap") m /\
   encode Ex uws (q "StrMap") m = ROk j /\ to_json Ex uws (q "StrMap") m = ROk j /\
   decode Ex uws (q "StrMap") j = ROk m) /\
  (let m := [(s "by_k", FMap [(VStr (s "a"), FM [(s "vals", FL [vstr "x"]); (s "total", vint 2)])])] in
   let m' := [(s "by_k", FMap [(VStr (s "a"), FM [(s "vals", FL [vstr "x"])])])] in
   let j := JObj [(s "a", JArr [JStr (s "x")])] in
   root_hyps uws (q "TagCombo") m /\
   encode Ex uws (q "TagCombo") m = ROk j /\ to_json Ex uws (q "TagCombo") m = ROk j /\
   decode Ex uws (q "TagCombo") j = ROk m' /\ norm uws (q "TagCombo") m = m') /\
  (let m := [(s "rs", FL [FS (VFloat 4609434218613702656)])] in
   let j := JArr [jflt 4609434218613702656] in
   root_hyps uws (q "Ratios") m /\
   encode Ex uws (q "Ratios") m = ROk j /\ to_json Ex uws (q "Ratios") m = ROk j /\
   decode Ex uws (q "Ratios") j = ROk m).
Proof. witness. Qed.

(* an enum with a MarshalJSON among the scalar elements: the round trip holds (conformance is not claimed) *)
Example unwrap_root_nonvacuous_enum :
  let m := [(s "cs", FL [FS (VEnum 1); FS (VEnum 2); FS (VEnum 0)])] in
  let j := JArr [JStr (s "red"); JStr (s "blue"); JStr (s "COLOR_UNSPECIFIED")] in
  (exists md, find_message (all_messages uws) (q "Colors") = Some md /\ owner_of uws md = Own FtUnwrapRoot /\
              unwrap_root_dom uws md = true) /\
  wt uws (KMessage (q "Colors")) (FM m) = true /\ defects_C04 uws (q "Colors") m = [] /\
  encode Ex uws (q "Colors") m = ROk j /\ decode Ex uws (q "Colors") j = ROk m.
Proof. witness. Qed.

(* the message shapes of unwrap_root_roundtrip_messages *)
Example unwrap_root_messages_nonvacuous :
  (exists md, find_message (all_messages xs) (q "BarList") = Some md /\ owner_of xs md = Own FtUnwrapRoot /\ msg_elems xs md = true) /\
  (exists md, find_message (all_messages uws) (q "LeafMap") = Some md /\ owner_of uws md = Own FtUnwrapRoot /\ msg_elems uws md = true) /\
  (exists md, find_message (all_messages uws) (q "Book") = Some md /\ owner_of uws md = Own FtUnwrapRoot /\ msg_elems uws md = true) /\
  (exists md, find_message (all_messages xs) (q "Strs") = Some md /\ owner_of xs md = Own FtUnwrapRoot /\ msg_elems xs md = false).
Proof. witness. Qed.

(* two enum values with one enum_value text: the second is read back as the first *)
Example unwrap_root_roundtrip_needs_enum_texts_distinct :
  let m := [(s "ds", FL [FS (VEnum 1)])] in
  (exists md, find_message (all_messages uws) (q "Dups") = Some md /\ owner_of uws md = Own FtUnwrapRoot /\
              unwrap_root_dom uws md = false) /\
  wt uws (KMessage (q "Dups")) (FM m) = true /\ defects_C04 uws (q "Dups") m = [] /\
  encode Ex uws (q "Dups") m = ROk (JArr [JStr (s "same")]) /\
  decode Ex uws (q "Dups") (JArr [JStr (s "same")]) = ROk [(s "ds", FL [FS (VEnum 0)])] /\
  norm uws (q "Dups") m = m.
Proof. witness. Qed.

(* an undefined number of an enum with a MarshalJSON inside a wrapper: written as "99", not read back; the
   defect classifier of CodecCases.v only looks at the root field (its kind here is a message), so
   defects_C04 = [] does not exclude it *)
Example unwrap_root_roundtrip_needs_no_codec_enum_in_wrapper :
  let m := [(s "by_k", FMap [(VStr (s "a"), FM [(s "cs", FL [FS (VEnum 99)])])])] in
  (exists md, find_message (all_messages uws) (q "ColorCombo") = Some md /\ owner_of uws md = Own FtUnwrapRoot /\
              unwrap_root_dom uws md = false) /\
  wt uws (KMessage (q "ColorCombo")) (FM m) = true /\ defects_C04 uws (q "ColorCombo") m = [] /\
  encode Ex uws (q "ColorCombo") m = ROk (JObj [(s "a", JArr [JStr (s "99")])]) /\
  decode Ex uws (q "ColorCombo") (JObj [(s "a", JArr [JStr (s "99")])]) = RErr (s "unknown enum value").
Proof. witness. Qed.

(* the same at the root is what defects_C04 tags (D4EnumCodecUnknown): the hypothesis defects_C04 = [] is needed *)
Example unwrap_root_roundtrip_needs_defect_free :
  let m := [(s "cs", FL [FS (VEnum 99)])] in
  (exists md, find_message (all_messages uws) (q "Colors") = Some md /\ owner_of uws md = Own FtUnwrapRoot /\
              unwrap_root_dom uws md = true) /\
  wt uws (KMessage (q "Colors")) (FM m) = true /\ defects_C04 uws (q "Colors") m = [D4EnumCodecUnknown] /\
  encode Ex uws (q "Colors") m = ROk (JArr [JStr (s "99")]) /\
  decode Ex uws (q "Colors") (JArr [JStr (s "99")]) = RErr (s "unknown enum value").
Proof. witness. Qed.

(* conformance: a map key type other than string does not compile (C13), the model declines *)
Example conforms_unwrap_root_needs_buildable :
  let m := [(s "by_n", FMap [(VInt 1, leaf1)])] in
  (exists md, find_message (all_messages uws) (q "IntKeys") = Some md /\ owner_of uws md = Own FtUnwrapRoot /\
              buildable uws FtUnwrapRoot md = false /\ root_conf uws md m = true) /\
  wt uws (KMessage (q "IntKeys")) (FM m) = true /\
  (exists w, encode Ex uws (q "IntKeys") m = RUnm w) /\
  to_json Ex uws (q "IntKeys") m = ROk (JObj [(s "1", leaf1_json)]).
Proof. witness. Qed.

(* conformance: outside root_conf — the nil scalar list at the root (D5RootNull), 64-bit integers as scalar
   elements (D5UnwrapSibling), and the nil scalar list INSIDE a wrapper, which defects_C05 does not tag *)
Example conforms_unwrap_root_needs_root_conf :
  (exists md, find_message (all_messages xs) (q "Strs") = Some md /\ root_conf xs md [] = false) /\
  defects_C05 xs (q "Strs") [] = [D5RootNull] /\
  encode Ex xs (q "Strs") [] = ROk JNull /\ to_json Ex xs (q "Strs") [] = ROk (JArr []) /\
  (let m := [(s "bs", FL [vint 5])] in
   (exists md, find_message (all_messages uws) (q "Bigs") = Some md /\ root_conf uws md m = false) /\
   wt uws (KMessage (q "Bigs")) (FM m) = true /\ defects_C05 uws (q "Bigs") m = [D5UnwrapSibling] /\
   encode Ex uws (q "Bigs") m = ROk (JArr [JNum 5]) /\ to_json Ex uws (q "Bigs") m = ROk (JArr [JStr (s "5")])) /\
  (let m := [(s "by_k", FMap [(VStr (s "b"), FM [(s "total", vint 3)])])] in
   (exists md, find_message (all_messages uws) (q "TagCombo") = Some md /\ owner_of uws md = Own FtUnwrapRoot /\
               buildable uws FtUnwrapRoot md = true /\ root_conf uws md m = false) /\
   wt uws (KMessage (q "TagCombo")) (FM m) = true /\ defects_C05 uws (q "TagCombo") m = [] /\
   encode Ex uws (q "TagCombo") m = ROk (JObj [(s "b", JNull)]) /\
   to_json Ex uws (q "TagCombo") m = ROk (JObj [(s "b", JArr [])])).
Proof. witness. Qed.

(* conformance: a list naming the field twice is not a message value (wt excludes it) *)
Example conforms_unwrap_root_needs_wt :
  let m := [(s "bars", FL [leaf1]); (s "bars", FL [FM []])] in
  (exists md, find_message (all_messages xs) (q "BarList") = Some md /\ root_conf xs md m = true) /\
  wt xs (KMessage (q "BarList")) (FM m) = false /\
  encode Ex xs (q "BarList") m = ROk (JArr [leaf1_json]) /\
  (exists w, to_json Ex xs (q "BarList") m = RUnm w).
Proof. witness. Qed.
Close Scope Z_scope.
