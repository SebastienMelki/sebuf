(* RulesFacts.v — C19: the published constraints accept exactly what the rules accept (outside the
   defect classes), the predicate `refutes` and the rule sets of the refutations in props/C19.v.
   (`required`: OpenApiFacts.required_iff.) *)
From Sebuf Require Import JsonSchema Yaml Rules.
From SebufProofs Require Import ListFacts JsonSchemaFacts.
From Coq Require Import Btauto.

Lemma dec_leb_int a b : dec_leb (mkdec a 0) (mkdec b 0) = (a <=? b)%Z.
Proof.
  unfold dec_leb. rewrite dec_compare_int. unfold Z.leb. destruct (a ?= b)%Z; reflexivity.
Qed.

Definition kw12 (f : nat) (e : str * ynode) : keyword :=
  kw_of_entry (schema_of_jv f) (fst e) (denote reader12 (snd e)).

Lemma schema_of_ymap f es : schema_of_jv (S f) (denote reader12 (YMap es)) = SObj (map (kw12 f) es).
Proof.
  cbn [denote schema_of_jv]. f_equal.
  induction es as [|[k x] es IH]; [reflexivity|].
  cbn [map fst snd]. rewrite IH. reflexivity.
Qed.

Section Equiv.
Variable P : vparams.

Definition chk (n : nat) (props : list str) (v : jv) (kw : keyword) : vres :=
  check_kw P [] (validates P [] n) props kw v.

Lemma validates_obj n kws v :
  validates P [] (S n) (SObj kws) v = vall (map (chk n (declared_props kws) v) kws).
Proof. reflexivity. Qed.

(* a block of entries, read and checked against v, gives verdict b *)
Definition blk (n f : nat) (props : list str) (v : jv) (es : list (str * ynode)) (b : bool) : Prop :=
  vall (map (chk n props v) (map (kw12 f) es)) = VOk b.

Lemma blk_nil n f props v : blk n f props v [] true.
Proof. reflexivity. Qed.

Lemma blk_app n f props v es1 es2 b1 b2 :
  blk n f props v es1 b1 -> blk n f props v es2 b2 -> blk n f props v (es1 ++ es2) (b1 && b2).
Proof. unfold blk. intros H1 H2. rewrite !map_app. now apply vall_ok_app. Qed.

Lemma blk_one n f props v e b : chk n props v (kw12 f e) = VOk b -> blk n f props v [e] b.
Proof. intros H. unfold blk. cbn [map]. unfold vall. cbn [fold_right]. rewrite H. cbn. now rewrite andb_true_r. Qed.

Lemma blk_oent {A} n f props v (o : option A) k (mk : A -> ynode) (test : A -> bool) :
  (forall a, chk n props v (kw12 f (s k, mk a)) = VOk (test a)) ->
  blk n f props v (oent o k mk) (opt_all o test).
Proof. intros H. destruct o as [a|]; [apply blk_one, H|apply blk_nil]. Qed.

Lemma blk_true_app n f props v es1 es2 :
  blk n f props v es1 true -> blk n f props v es2 true -> blk n f props v (es1 ++ es2) true.
Proof. apply (blk_app n f props v es1 es2 true true). Qed.

Lemma kw_nat_ynat k mk n : kw_nat k mk (JVNum (dec_of_N n)) = mk n.
Proof. unfold kw_nat. now rewrite nat_of_jv_N. Qed.

Lemma kw_minLength f n : kw12 f (s "minLength", ynat n) = KwMinLength n.
Proof. exact (kw_nat_ynat _ _ n). Qed.
Lemma kw_maxLength f n : kw12 f (s "maxLength", ynat n) = KwMaxLength n.
Proof. exact (kw_nat_ynat _ _ n). Qed.
Lemma kw_minItems f n : kw12 f (s "minItems", ynat n) = KwMinItems n.
Proof. exact (kw_nat_ynat _ _ n). Qed.
Lemma kw_maxItems f n : kw12 f (s "maxItems", ynat n) = KwMaxItems n.
Proof. exact (kw_nat_ynat _ _ n). Qed.
Lemma kw_minProps f n : kw12 f (s "minProperties", ynat n) = KwMinProperties n.
Proof. exact (kw_nat_ynat _ _ n). Qed.
Lemma kw_maxProps f n : kw12 f (s "maxProperties", ynat n) = KwMaxProperties n.
Proof. exact (kw_nat_ynat _ _ n). Qed.
Lemma kw_pattern f re : kw12 f (s "pattern", YStr re) = KwPattern re.
Proof. reflexivity. Qed.
Lemma kw_format f x : kw12 f (s "format", YStr x) = KwFormat x.
Proof. reflexivity. Qed.
Lemma kw_minimum f d : kw12 f (s "minimum", YNum d) = KwMinimum d.
Proof. reflexivity. Qed.
Lemma kw_maximum f d : kw12 f (s "maximum", YNum d) = KwMaximum d.
Proof. reflexivity. Qed.
Lemma kw_const f x : kw12 f (s "const", YPlain x) = KwConst (rd_plain reader12 x).
Proof. reflexivity. Qed.
Lemma kw_enum f l : kw12 f (s "enum", YSeq (map YPlain l)) = KwEnum (map (rd_plain reader12) l).
Proof. unfold kw12. cbn [fst snd denote]. rewrite map_map. reflexivity. Qed.
(* string const / in values are tagged !!str: a YAML 1.2 reader gets the string itself, whatever it spells *)
Lemma kw_const_str f x : kw12 f (s "const", YStr x) = KwConst (JVStr x).
Proof. reflexivity. Qed.
Lemma kw_enum_str f l : kw12 f (s "enum", YSeq (map YStr l)) = KwEnum (map JVStr l).
Proof. unfold kw12. cbn [fst snd denote]. rewrite map_map. reflexivity. Qed.
Lemma kw_unique f : kw12 f (s "uniqueItems", YBool true) = KwUniqueItems true.
Proof. reflexivity. Qed.
Lemma kw_items f es : kw12 (S f) (s "items", YMap es) = KwItems (SObj (map (kw12 f) es)).
Proof. now rewrite <- schema_of_ymap. Qed.
Lemma kw_additional f es : kw12 (S f) (s "additionalProperties", YMap es) = KwAdditional (SObj (map (kw12 f) es)).
Proof. now rewrite <- schema_of_ymap. Qed.

Lemma reads_as_string_eq x : reads_as_string reader12 x = true -> rd_plain reader12 x = JVStr x.
Proof.
  unfold reads_as_string. destruct (rd_plain reader12 x); try discriminate.
  intros H. apply str_eqb_eq in H. now subst.
Qed.

Lemma existsb_str_enum x l :
  existsb (fun e => jv_eqb e (JVStr x)) (map JVStr l) = mem_str x l.
Proof.
  unfold mem_str. induction l as [|a l IH]; [reflexivity|].
  cbn [map existsb]. rewrite IH.
  cbn [jv_eqb]. now rewrite (str_eqb_sym a x).
Qed.

Lemma opt_all_opos_min (o : option N) (L : N) :
  opt_all (opos o) (fun n => (n <=? L)%N) = opt_all o (fun n => (n <=? L)%N).
Proof.
  destruct o as [[|p]|]; try reflexivity. cbn. symmetry. apply N.leb_le, N.le_0_l.
Qed.
Lemma opos_not_zero (o : option N) : is_zero o = false -> opos o = o.
Proof. destruct o as [[|p]|]; cbn; congruence. Qed.

Definition supported_well_known : list str :=
  [s "email"; s "uuid"; s "uri"; s "hostname"; s "ip"; s "ipv4"; s "ipv6"].
Definition rules_wf (r : rules) : bool :=
  match r_well_known r with Some w => mem_str w supported_well_known | None => true end.

Lemma format_supported w : mem_str w supported_well_known = true -> format_of_well_known w = Some w.
Proof.
  unfold mem_str, supported_well_known. cbn [existsb].
  intros H. repeat (apply orb_prop in H as [H|H]; [apply str_eqb_eq in H; subst; reflexivity|]).
  discriminate.
Qed.

Lemma string_block n f props x r :
  rules_wf r = true -> is_zero (r_max_len r) = false -> r_len r = None -> r_str_not_in r = [] ->
  blk n f props (JVStr x) (string_entries r) (sat_string P r x).
Proof.
  intros Hwf Hz Hlen Hnotin.
  replace (sat_string P r x) with
    (opt_all (opos (r_min_len r)) (fun m => (m <=? utf8_len x)%N) &&
     (opt_all (r_max_len r) (fun m => (utf8_len x <=? m)%N) &&
      (opt_all (r_pattern r) (fun re => vp_regex P re x) &&
       (opt_all (r_well_known r) (fun w => vp_format P w x) &&
        ((match r_str_in r with [] => true | l => mem_str x l end) &&
         opt_all (r_str_const r) (fun c => str_eqb c x)))))).
  2:{ unfold sat_string. rewrite Hlen, Hnotin, opt_all_opos_min. cbn [opt_all mem_str existsb negb]. btauto. }
  unfold string_entries. rewrite (opos_not_zero _ Hz). repeat apply blk_app.
  - apply blk_oent. intros a. now rewrite kw_minLength.
  - apply blk_oent. intros a. now rewrite kw_maxLength.
  - apply blk_oent. reflexivity.
  - unfold rules_wf in Hwf. destruct (r_well_known r) as [w|]; [|apply blk_nil].
    rewrite (format_supported _ Hwf). apply blk_one. reflexivity.
  - destruct (r_str_in r) as [|a l]; [apply blk_nil|]. apply blk_one. rewrite kw_enum_str.
    unfold chk. cbn [check_kw]. now rewrite existsb_str_enum.
  - apply blk_oent. reflexivity.
Qed.

Lemma literal_ok_plain c : literal_ok c = true -> rd_plain reader12 c = JVNum (num_lit c).
Proof.
  unfold literal_ok, num_lit. cbn [rd_plain reader12]. destruct (resolve12 c); try discriminate. reflexivity.
Qed.

Lemma existsb_num_enum d l :
  forallb literal_ok l = true ->
  existsb (fun e => jv_eqb e (JVNum d)) (map (rd_plain reader12) l) = existsb (fun c => dec_eqb (num_lit c) d) l.
Proof.
  induction l as [|a l IH]; intros H; [reflexivity|].
  cbn [forallb] in H. apply andb_prop in H as [Ha Hl].
  cbn [map existsb]. rewrite (literal_ok_plain _ Ha), IH by assumption. reflexivity.
Qed.

Lemma wide_exact_eq b : wide_exact b = true -> nb_wide b = nb_rule b.
Proof. unfold wide_exact. apply dec_record_eq. Qed.

Lemma numeric_block n f props d r :
  r_gt r = None -> r_lt r = None -> reversed_range r = false ->
  forallb wide_exact (bounds_of r) = true -> literals_ok r = true ->
  blk n f props (JVNum d) (numeric_entries r) (sat_num r d).
Proof.
  intros Hgt Hlt Hrev Hwide Hlit.
  unfold literals_ok in Hlit. rewrite forallb_app in Hlit. apply andb_prop in Hlit as [Hc Hin].
  unfold bounds_of in Hwide. cbn [flat_map] in Hwide. rewrite app_nil_r, forallb_app in Hwide.
  apply andb_prop in Hwide as [Hwg Hwl].
  replace (sat_num r d) with
    (opt_all (r_gte r) (fun b => dec_leb (nb_rule b) d) &&
     (opt_all (r_lte r) (fun b => dec_leb d (nb_rule b)) &&
      (opt_all (r_num_const r) (fun c => dec_eqb (num_lit c) d) &&
       (match r_num_in r with [] => true | l => existsb (fun c => dec_eqb (num_lit c) d) l end))))
    by (unfold sat_num, lower_ok, upper_ok; rewrite Hgt, Hlt, Hrev; cbn [opt_all]; btauto).
  unfold numeric_entries. rewrite Hgt, Hlt. cbn [oent app]. repeat apply blk_app.
  - destruct (r_gte r) as [b|]; [|apply blk_nil]. apply blk_one. rewrite kw_minimum.
    cbn [forallb] in Hwg. apply andb_prop in Hwg as [Hb _]. now rewrite (wide_exact_eq _ Hb).
  - destruct (r_lte r) as [b|]; [|apply blk_nil]. apply blk_one. rewrite kw_maximum.
    cbn [forallb] in Hwl. apply andb_prop in Hwl as [Hb _]. now rewrite (wide_exact_eq _ Hb).
  - destruct (r_num_const r) as [c|]; [|apply blk_nil]. apply blk_one. rewrite kw_const.
    cbn [forallb] in Hc. apply andb_prop in Hc as [Hc _]. now rewrite (literal_ok_plain _ Hc).
  - destruct (r_num_in r) as [|a l]; [apply blk_nil|]. apply blk_one. rewrite kw_enum.
    unfold chk. cbn [check_kw]. now rewrite existsb_num_enum.
Qed.

Lemma isSome_false {A} (o : option A) : isSome o = false -> o = None.
Proof. destruct o; [discriminate|reflexivity]. Qed.
Lemma nonempty_false {A} (l : list A) : nonempty l = false -> l = [].
Proof. destruct l; [reflexivity|discriminate]. Qed.

Lemma has_numeric_rules_false r : has_numeric_rules r = false ->
  r_gt r = None /\ r_gte r = None /\ r_lt r = None /\ r_lte r = None /\ r_num_const r = None /\ r_num_in r = [].
Proof.
  unfold has_numeric_rules, has_bounds. intros H.
  apply orb_false_elim in H as [H Hin]. apply orb_false_elim in H as [H Hc].
  apply orb_false_elim in H as [H Hlte]. apply orb_false_elim in H as [H Hlt]. apply orb_false_elim in H as [Hgt Hgte].
  apply isSome_false in Hgt, Hgte, Hlt, Hlte, Hc. apply nonempty_false in Hin. now repeat split.
Qed.

Lemma has_string_rules_false r : has_string_rules r = false ->
  r_min_len r = None /\ r_max_len r = None /\ r_len r = None /\ r_pattern r = None /\ r_well_known r = None /\
  r_str_in r = [] /\ r_str_not_in r = [] /\ r_str_const r = None.
Proof.
  unfold has_string_rules. intros H.
  apply orb_false_elim in H as [H Hc]. apply orb_false_elim in H as [H Hni]. apply orb_false_elim in H as [H Hin].
  apply orb_false_elim in H as [H Hw]. apply orb_false_elim in H as [H Hp]. apply orb_false_elim in H as [H Hl].
  apply orb_false_elim in H as [Hmin Hmax].
  apply isSome_false in Hmin, Hmax, Hl, Hp, Hw, Hc. apply nonempty_false in Hin, Hni. now repeat split.
Qed.

Lemma no_numeric_rules_entries r : has_numeric_rules r = false -> numeric_entries r = [].
Proof.
  intros H. destruct (has_numeric_rules_false r H) as (Hgt & Hgte & Hlt & Hlte & Hc & Hin).
  unfold numeric_entries. now rewrite Hgt, Hgte, Hlt, Hlte, Hc, Hin.
Qed.
Lemma no_numeric_rules_sat r d : has_numeric_rules r = false -> sat_num r d = true.
Proof.
  intros H. destruct (has_numeric_rules_false r H) as (Hgt & Hgte & Hlt & Hlte & Hc & Hin).
  unfold sat_num, reversed_range, lower_bound, upper_bound, lower_ok, upper_ok.
  now rewrite Hgt, Hgte, Hlt, Hlte, Hc, Hin.
Qed.
Lemma no_string_rules_sat r x : has_string_rules r = false -> sat_string P r x = true.
Proof.
  intros H. destruct (has_string_rules_false r H) as (Hmin & Hmax & Hl & Hp & Hw & Hin & Hni & Hc).
  unfold sat_string. now rewrite Hmin, Hmax, Hl, Hp, Hw, Hin, Hni, Hc.
Qed.

Lemma int_typed_facts d rg :
  match rg with Some (lo, hi) => (de d =? 0)%Z && (lo <=? dm d)%Z && (dm d <=? hi)%Z | None => false end = true ->
  de d = 0%Z /\ forall lo hi, rg = Some (lo, hi) -> (lo <= dm d)%Z.
Proof.
  destruct rg as [[lo hi]|]; [|discriminate]. intros H.
  apply andb_prop in H as [H _]. apply andb_prop in H as [He Hlo].
  split; [now apply Z.eqb_eq|]. intros lo' hi' [= <- <-]. now apply Z.leb_le.
Qed.

(* the kind fixes the shape of a typed value: an integer kind holds an integer, non-negative when unsigned *)
Lemma typed_scalar_shape k x : typed_scalar k x = true ->
  match x with
  | RStr _ => k = KString
  | RNum d => is_numeric_kind k = true /\
              (is_float_kind k = false -> de d = 0%Z /\ (is_unsigned_kind k = true -> (0 <= dm d)%Z))
  | ROther (JVBool _) => k = KBool
  | ROther (JVStr _) => k = KBytes
  | ROther _ => False
  end.
Proof.
  destruct x as [y|d|[]]; destruct k; cbn [typed_scalar]; intros H; try discriminate H; try reflexivity.
  (* left: a number under one of the twelve numeric kinds *)
  all: split; [reflexivity|]; intros Hf; try discriminate Hf.
  (* the ten integer kinds: H is the range test *)
  all: apply int_typed_facts in H as [He Hlo]; split; [exact He|]; intros Hu; try discriminate Hu.
  (* the four unsigned ones, whose range starts at 0 *)
  all: exact (Hlo _ _ eq_refl).
Qed.

Lemma typed_same_shape k a b : typed_scalar k a = true -> typed_scalar k b = true ->
  match a, b with RStr _, RStr _ | RNum _, RNum _ | ROther _, ROther _ => True | _, _ => False end.
Proof.
  intros Ha Hb. apply typed_scalar_shape in Ha, Hb.
  destruct a as [x|da|ja], b as [y|db|jb]; try exact I.
  - subst k. now destruct Hb.
  - subst k. destruct jb; (discriminate Hb || exact Hb).
  - subst k. now destruct Ha.
  - destruct Ha as [Ha _]. destruct jb; try exact Hb; subst k; discriminate Ha.
  - subst k. destruct ja; (discriminate Ha || exact Ha).
  - destruct Hb as [Hb _]. destruct ja; try exact Ha; subst k; discriminate Hb.
Qed.

(* format names that describe the wire encoding of a kind, not a rule: a format checker must treat
   them as annotations *)
Definition encoding_formats : list str := [s "int32"; s "int64"; s "uint64"; s "float"; s "double"; s "byte"].
Definition encoding_formats_are_annotations : Prop :=
  forall name x, mem_str name encoding_formats = true -> vp_format P name x = true.

(* the base block: the type / format / minimum 0 of the kind accept every typed value *)
Lemma base_block n f props fs x :
  encoding_formats_are_annotations -> typed_scalar (fs_kind fs) x = true ->
  blk n f props (scalar_json fs x) (base_entries (fs_kind fs) (fs_i64num fs)) true.
Proof.
  intros Hfmt Ht. apply typed_scalar_shape in Ht.
  destruct fs as [k c i64]. unfold scalar_json, string_typed_int64. cbn [fs_kind fs_i64num] in *.
  destruct x as [y|[m e]|j].
  - subst k. reflexivity.
  - destruct Ht as [Hnum Hint].
    destruct k; try discriminate Hnum.
    (* an integer kind holds an integer m *)
    all: try (destruct (Hint eq_refl) as [He Hm]; cbn [de dm] in He, Hm; subst e).
    all: destruct i64; unfold blk; cbn; rewrite ?Hfmt by reflexivity; try reflexivity.
    (* left: `minimum: 0` against an unsigned m *)
    all: unfold dec_of_Z; rewrite dec_leb_int, (proj2 (Z.leb_le 0 m) (Hm eq_refl)); reflexivity.
  - destruct j; try contradiction; subst k; [reflexivity|].
    unfold blk. cbn. now rewrite Hfmt.
Qed.

Definition singular_card (c : card) : bool := match c with Singular | Optional => true | _ => false end.

Lemma scalar_entries_numeric k r : reads_rules k = true -> is_numeric_kind k = true -> scalar_entries k r = numeric_entries r.
Proof. destruct k; try discriminate; reflexivity. Qed.
Lemma scalar_entries_unread k r : reads_rules k = false -> scalar_entries k r = [].
Proof. destruct k; try discriminate; reflexivity. Qed.

(* what the absence of a defect tag says about the rules of a singular field *)
Lemma defects_C19_singular fs r :
  singular_card (fs_card fs) = true -> defects_C19 fs r = [] ->
  is_numeric_kind (fs_kind fs) && negb (reads_rules (fs_kind fs)) && has_numeric_rules r = false /\
  (reads_rules (fs_kind fs) && is_numeric_kind (fs_kind fs) = true ->
     string_typed_int64 fs && has_numeric_rules r = false /\ r_gt r = None /\ r_lt r = None /\
     reversed_range r = false /\ forallb wide_exact (bounds_of r) = true) /\
  (is_string_kind (fs_kind fs) = true ->
     is_zero (r_max_len r) = false /\ r_len r = None /\ r_str_not_in r = []).
Proof.
  intros Hc Hd. destruct fs as [k c i64]. unfold string_typed_int64. cbn [fs_kind fs_card fs_i64num] in *.
  assert (H : defects_C19 {| fs_kind := k; fs_card := Singular; fs_i64num := i64 |} r = [])
    by (destruct c; try discriminate Hc; exact Hd).
  clear Hd. unfold defects_C19, string_typed_int64 in H. cbn [fs_kind fs_card fs_i64num] in H.
  apply app_eq_nil in H as [Hwrong H]. apply app_eq_nil in H as [Hnum Hstr].
  split; [exact (if_nil _ _ Hwrong)|]. split.
  - intros E. rewrite E in Hnum.
    apply app_eq_nil in Hnum as [Hst Hnum]. apply app_eq_nil in Hnum as [Hex Hnum]. apply app_eq_nil in Hnum as [Hrev Hwide].
    apply if_nil in Hst, Hex, Hrev. apply orb_false_elim in Hex as [Hgt Hlt].
    apply isSome_false in Hgt, Hlt. repeat split; try assumption.
    destruct (forallb wide_exact (bounds_of r)); [reflexivity|]. destruct k; discriminate Hwide.
  - intros E. rewrite E in Hstr.
    apply app_eq_nil in Hstr as [Hz Hstr]. apply app_eq_nil in Hstr as [Hlen Hni].
    apply if_nil in Hz, Hlen, Hni. apply isSome_false in Hlen. apply nonempty_false in Hni. now repeat split.
Qed.

Lemma scalar_block n f props fs r x :
  singular_card (fs_card fs) = true ->
  defects_C19 fs r = [] -> rules_wf r = true -> literals_ok r = true ->
  typed_scalar (fs_kind fs) x = true ->
  blk n f props (scalar_json fs x) (scalar_entries (fs_kind fs) r) (sat_scalar P (fs_kind fs) r x).
Proof.
  intros Hc Hd Hwf Hlit Ht. apply typed_scalar_shape in Ht.
  destruct (defects_C19_singular fs r Hc Hd) as (Hwrong & Hnum & Hstr).
  destruct x as [y|d|j]; cbn [scalar_json sat_scalar].
  - rewrite Ht in *. destruct (Hstr eq_refl) as (Hz & Hlen & Hni). now apply string_block.
  - destruct Ht as [Hk _]. rewrite Hk in *. destruct (reads_rules (fs_kind fs)) eqn:Er.
    + rewrite (scalar_entries_numeric _ r Er Hk). destruct (Hnum eq_refl) as (Hst & Hgt & Hlt & Hrev & Hwide).
      destruct (string_typed_int64 fs); [|now apply numeric_block].
      (* a 64-bit integer sent as a string: no numeric keyword is published for it *)
      rewrite (no_numeric_rules_entries _ Hst), (no_numeric_rules_sat _ _ Hst). apply blk_nil.
    + (* a numeric kind whose rule message is never read *)
      rewrite (scalar_entries_unread _ r Er), (no_numeric_rules_sat _ _ Hwrong). apply blk_nil.
  - rewrite scalar_entries_unread; [apply blk_nil|]. destruct j; try contradiction; now rewrite Ht.
Qed.

Definition not_arr (v : jv) : bool := match v with JVArr _ => false | _ => true end.
Definition not_obj (v : jv) : bool := match v with JVObj _ => false | _ => true end.

Lemma scalar_json_shape fs x : typed_scalar (fs_kind fs) x = true ->
  not_arr (scalar_json fs x) = true /\ not_obj (scalar_json fs x) = true.
Proof.
  intros H. apply typed_scalar_shape in H. unfold scalar_json.
  destruct x as [y|d|j]; [now split | destruct (string_typed_int64 _); now split |].
  destruct j; try contradiction; now split.
Qed.

Lemma repeated_block_other n f props v r : not_arr v = true -> blk n f props v (repeated_entries r) true.
Proof.
  intros Hv. unfold repeated_entries. repeat apply blk_true_app.
  - destruct (opos (r_min_items r)); [|apply blk_nil]. apply blk_one. rewrite kw_minItems. destruct v; try discriminate; reflexivity.
  - destruct (opos (r_max_items r)); [|apply blk_nil]. apply blk_one. rewrite kw_maxItems. destruct v; try discriminate; reflexivity.
  - destruct (r_unique r); [|apply blk_nil]. apply blk_one. rewrite kw_unique. destruct v; try discriminate; reflexivity.
Qed.

Lemma map_block_other n f props v r : not_obj v = true -> blk n f props v (map_entries r) true.
Proof.
  intros Hv. unfold map_entries. apply blk_true_app.
  - destruct (opos (r_min_pairs r)); [|apply blk_nil]. apply blk_one. rewrite kw_minProps. destruct v; try discriminate; reflexivity.
  - destruct (opos (r_max_pairs r)); [|apply blk_nil]. apply blk_one. rewrite kw_maxProps. destruct v; try discriminate; reflexivity.
Qed.

Lemma repeated_block_arr n f props vs r :
  is_zero (r_max_items r) = false ->
  blk n f props (JVArr vs) (repeated_entries r)
      (opt_all (r_min_items r) (fun m => (m <=? len_N vs)%N) && opt_all (r_max_items r) (fun m => (len_N vs <=? m)%N)
       && (negb (r_unique r) || all_distinct vs)).
Proof.
  intros Hz. unfold repeated_entries. rewrite (opos_not_zero _ Hz). rewrite <- opt_all_opos_min, <- andb_assoc.
  apply blk_app; [|apply blk_app].
  - apply blk_oent. intros a. rewrite kw_minItems. reflexivity.
  - apply blk_oent. intros a. rewrite kw_maxItems. reflexivity.
  - destruct (r_unique r); [|apply blk_nil]. apply blk_one. rewrite kw_unique. reflexivity.
Qed.

Lemma map_block_obj n f props kv r :
  is_zero (r_max_pairs r) = false ->
  blk n f props (JVObj kv) (map_entries r)
      (opt_all (r_min_pairs r) (fun m => (m <=? len_N kv)%N) && opt_all (r_max_pairs r) (fun m => (len_N kv <=? m)%N)).
Proof.
  intros Hz. unfold map_entries. rewrite (opos_not_zero _ Hz). rewrite <- opt_all_opos_min.
  apply blk_app.
  - apply blk_oent. intros a. rewrite kw_minProps. reflexivity.
  - apply blk_oent. intros a. rewrite kw_maxProps. reflexivity.
Qed.

Lemma forallb_forall_true {A} (l : list A) : forallb (fun _ => true) l = true.
Proof. induction l; [reflexivity|assumption]. Qed.

(* every item / every member value passes the sub-schema *)
Lemma blk_items n f props vs es :
  (forall a, In a vs -> blk n f (declared_props (map (kw12 f) es)) a es true) ->
  blk (S n) (S f) props (JVArr vs) [(s "items", YMap es)] true.
Proof.
  intros H. apply blk_one. rewrite kw_items. unfold chk. cbn [check_kw].
  rewrite (vall_all_ok _ (fun _ => true)); [now rewrite forallb_forall_true|exact H].
Qed.

Lemma blk_additional n f kv es :
  (forall e, In e kv -> blk n f (declared_props (map (kw12 f) es)) (snd e) es true) ->
  blk (S n) (S f) [] (JVObj kv) [(s "additionalProperties", YMap es)] true.
Proof.
  intros H. apply blk_one. rewrite kw_additional. unfold chk. cbn [check_kw mem_str existsb].
  rewrite (vall_all_ok _ (fun _ => true)); [now rewrite forallb_forall_true|exact H].
Qed.

(* proto equality of typed values of one kind = JSON equality of their wire forms *)
Lemma scalar_json_eqb fs a b :
  typed_scalar (fs_kind fs) a = true -> typed_scalar (fs_kind fs) b = true ->
  jv_eqb (scalar_json fs a) (scalar_json fs b) = rval_eqb a b.
Proof.
  intros Ha Hb. pose proof (typed_same_shape _ _ _ Ha Hb) as Hs.
  destruct a as [x|[ma ea]|ja], b as [y|[mb eb]|jb]; try contradiction; try reflexivity.
  unfold scalar_json, string_typed_int64. destruct (is_int64_kind (fs_kind fs) && negb (fs_i64num fs)) eqn:E; [|reflexivity].
  (* decimal strings of two 64-bit integers *)
  apply andb_prop in E as [E _]. apply typed_scalar_shape in Ha, Hb.
  assert (Hf : is_float_kind (fs_kind fs) = false) by (destruct (fs_kind fs); try discriminate E; reflexivity).
  destruct (proj2 Ha Hf) as [Hea _]. destruct (proj2 Hb Hf) as [Heb _]. cbn [de] in Hea, Heb. subst ea eb.
  cbn [jv_eqb rval_eqb dm]. now rewrite str_eqb_show_Z, dec_eqb_int.
Qed.

Lemma distinct_wire fs l :
  forallb (typed_scalar (fs_kind fs)) l = true ->
  all_distinct (map (scalar_json fs) l) = rvals_distinct l.
Proof.
  induction l as [|a l IH]; intros H; [reflexivity|].
  cbn [forallb] in H. apply andb_prop in H as [Ha Hl].
  cbn [map all_distinct rvals_distinct]. rewrite IH by assumption. f_equal. f_equal.
  clear IH. induction l as [|b l IH]; [reflexivity|].
  cbn [forallb] in Hl. apply andb_prop in Hl as [Hb Hl].
  cbn [map existsb]. rewrite IH by assumption. now rewrite scalar_json_eqb.
Qed.

Lemma sat_scalar_no_rules k r x : scalar_rules_present k r = false -> sat_scalar P k r x = true.
Proof.
  unfold scalar_rules_present, sat_scalar. intros H. apply orb_false_elim in H as [Hs Hn].
  destruct x as [y|d|j]; [| |reflexivity].
  - destruct (is_string_kind k); [|reflexivity]. cbn in Hs. now apply no_string_rules_sat.
  - destruct (is_numeric_kind k); [|reflexivity]. cbn in Hn. now apply no_numeric_rules_sat.
Qed.

Lemma len_N_map {A B} (g : A -> B) (l : list A) : len_N (map g l) = len_N l.
Proof. unfold len_N. now rewrite map_length. Qed.

Lemma collection_defects fs r :
  singular_card (fs_card fs) = false -> defects_C19 fs r = [] ->
  scalar_rules_present (fs_kind fs) r = false /\
  is_zero (match fs_card fs with Repeated => r_max_items r | _ => r_max_pairs r end) = false.
Proof.
  unfold defects_C19. destruct (fs_card fs); try discriminate; intros _ H;
    apply app_eq_nil in H as [H1 H2]; apply if_nil in H1, H2; now split.
Qed.

Lemma field_schema_singular fs r : singular_card (fs_card fs) = true ->
  field_schema_y fs r = YMap (base_entries (fs_kind fs) (fs_i64num fs) ++ scalar_entries (fs_kind fs) r).
Proof.
  unfold field_schema_y, constraint_entries. destruct (fs_card fs); try discriminate; intros _; cbn [orb app]; now rewrite app_nil_r.
Qed.

Theorem equiv fs r :
  encoding_formats_are_annotations -> rules_wf r = true -> literals_ok r = true ->
  defects_C19 fs r = [] ->
  forall v, typed fs v = true -> forall fuel, 2 <= fuel ->
  validates P [] fuel (translate reader12 fs r) (to_json fs v) = VOk (sat P fs r v).
Proof.
  intros Hfmt Hwf Hlit Hd v Ht fuel Hfuel.
  destruct fuel as [|[|n]]; try lia. clear Hfuel.
  unfold translate. change schema_fuel with (S (S 6)).
  destruct (singular_card (fs_card fs)) eqn:Ec.
  { rewrite (field_schema_singular _ _ Ec), (schema_of_ymap 7), validates_obj.
    assert (Hx : exists x, v = FOne x /\ typed_scalar (fs_kind fs) x = true).
    { unfold typed in Ht. destruct (fs_card fs); try discriminate Ec; destruct v as [x| |]; try discriminate Ht; now exists x. }
    destruct Hx as [x [-> Hx]]. cbn [to_json sat].
    exact (blk_app _ _ _ _ _ _ _ _ (base_block _ _ _ _ _ Hfmt Hx) (scalar_block _ _ _ _ _ _ Ec Hd Hwf Hlit Hx)). }
  destruct (collection_defects fs r Ec Hd) as [Hnr Hz].
  unfold typed in Ht. unfold field_schema_y, constraint_entries.
  destruct (fs_card fs) eqn:Ecard; try discriminate Ec; cbv beta iota zeta; cbn [orb app].
  - destruct v as [|l|]; try discriminate Ht.
    rewrite app_nil_r, (schema_of_ymap 7), validates_obj. cbn [to_json sat].
    (* no rule applies to the elements themselves (Hnr) *)
    replace (forallb (sat_scalar P (fs_kind fs) r) l) with true
      by (symmetry; apply forallb_forall; intros; now apply sat_scalar_no_rules).
    rewrite andb_true_r, <- (distinct_wire fs l Ht), <- (len_N_map (scalar_json fs) l).
    apply (blk_app _ _ _ _ [_] _ true). { apply blk_one. reflexivity. }
    apply (blk_app _ _ _ _ [_] _ true); [|now apply repeated_block_arr].
    apply blk_items. intros a Ha. apply in_map_iff in Ha as [x [<- Hx]].
    assert (Htx : typed_scalar (fs_kind fs) x = true) by (eapply forallb_forall in Ht; eassumption).
    apply blk_true_app; [now apply base_block|]. apply repeated_block_other, (scalar_json_shape _ _ Htx).
  - destruct v as [| |kv]; try discriminate Ht. apply andb_prop in Ht as [Ht _].
    rewrite (schema_of_ymap 7), validates_obj. cbn [to_json sat].
    replace (forallb (fun e => sat_scalar P (fs_kind fs) r (snd e)) kv) with true
      by (symmetry; apply forallb_forall; intros; now apply sat_scalar_no_rules).
    rewrite andb_true_r, <- (len_N_map (fun e => (fst e, scalar_json fs (snd e))) kv).
    (* no `properties` keyword: additionalProperties looks at every member *)
    replace (declared_props _) with (@nil str).
    2:{ unfold map_entries. destruct (opos (r_min_pairs r)), (opos (r_max_pairs r)); cbn [oent app map];
          rewrite ?kw_minProps, ?kw_maxProps; reflexivity. }
    apply (blk_app _ _ _ _ [_] _ true). { apply blk_one. reflexivity. }
    apply (blk_app _ _ _ _ [_] _ true); [|now apply map_block_obj].
    apply blk_additional. intros e He. apply in_map_iff in He as [x [<- Hx]]. cbn [snd].
    apply base_block; [exact Hfmt|]. eapply forallb_forall in Ht; [exact Ht|exact Hx].
Qed.

End Equiv.

Definition P0 : vparams := annotation_only (fun _ _ => true).
Definition fsp (k : kind) (c : card) (n : bool) : fspec := {| fs_kind := k; fs_card := c; fs_i64num := n |}.
Definition bnd (a b : dec) : option nbound := Some {| nb_rule := a; nb_wide := b |}.
Definition ib (z : Z) : option nbound := bnd (dec_of_Z z) (dec_of_Z z).

Definition refutes (tag : c19_defect) (fs : fspec) (r : rules) (v : fvalue) : Prop :=
  rule_kind (fs_kind fs) = true /\ rules_wf r = true /\ literals_ok r = true /\ typed fs v = true /\
  defects_C19 fs r = [tag] /\
  validates P0 [] schema_fuel (translate reader12 fs r) (to_json fs v) <> VOk (sat P0 fs r v).

Ltac refute := unfold refutes; vm_compute; repeat split; try reflexivity; discriminate.

Definition with_gte (b : option nbound) : rules :=
  {| r_required := false; r_min_len := None; r_max_len := None; r_len := None; r_pattern := None;
     r_str_in := []; r_str_not_in := []; r_str_const := None; r_well_known := None;
     r_gt := None; r_gte := b; r_lt := None; r_lte := None; r_num_const := None; r_num_in := [];
     r_min_items := None; r_max_items := None; r_unique := false; r_min_pairs := None; r_max_pairs := None |}.
Definition with_lte (b : option nbound) : rules :=
  {| r_required := false; r_min_len := None; r_max_len := None; r_len := None; r_pattern := None;
     r_str_in := []; r_str_not_in := []; r_str_const := None; r_well_known := None;
     r_gt := None; r_gte := None; r_lt := None; r_lte := b; r_num_const := None; r_num_in := [];
     r_min_items := None; r_max_items := None; r_unique := false; r_min_pairs := None; r_max_pairs := None |}.
Definition with_gt (b : option nbound) : rules :=
  {| r_required := false; r_min_len := None; r_max_len := None; r_len := None; r_pattern := None;
     r_str_in := []; r_str_not_in := []; r_str_const := None; r_well_known := None;
     r_gt := b; r_gte := None; r_lt := None; r_lte := None; r_num_const := None; r_num_in := [];
     r_min_items := None; r_max_items := None; r_unique := false; r_min_pairs := None; r_max_pairs := None |}.
Definition with_range (lo hi : option nbound) : rules :=
  {| r_required := false; r_min_len := None; r_max_len := None; r_len := None; r_pattern := None;
     r_str_in := []; r_str_not_in := []; r_str_const := None; r_well_known := None;
     r_gt := None; r_gte := lo; r_lt := None; r_lte := hi; r_num_const := None; r_num_in := [];
     r_min_items := None; r_max_items := None; r_unique := false; r_min_pairs := None; r_max_pairs := None |}.
Definition str_rules (mn mx ln : option N) (nin : list str) (c : option str) : rules :=
  {| r_required := false; r_min_len := mn; r_max_len := mx; r_len := ln; r_pattern := None;
     r_str_in := []; r_str_not_in := nin; r_str_const := c; r_well_known := None;
     r_gt := None; r_gte := None; r_lt := None; r_lte := None; r_num_const := None; r_num_in := [];
     r_min_items := None; r_max_items := None; r_unique := false; r_min_pairs := None; r_max_pairs := None |}.

(* The nodes of string const / in values carry the tag !!str.  For EVERY string c - "123", "true", "null",
   "" included - the schema published for `string.const = c` accepts exactly the JSON string c and the one
   for `string.in = l` exactly the JSON strings of l: no number, boolean or null is accepted in their place and
   the string itself is never rejected.  (Until bfcf808 `const: 123` was a number and rejected "123";
   const "" crashed the plugin.) *)
Definition fstr : fspec := fsp KString Singular false.
Definition const_rules (c : str) : rules := str_rules None None None [] (Some c).
Definition in_rules (l : list str) : rules :=
  {| r_required := false; r_min_len := None; r_max_len := None; r_len := None; r_pattern := None;
     r_str_in := l; r_str_not_in := []; r_str_const := None; r_well_known := None;
     r_gt := None; r_gte := None; r_lt := None; r_lte := None; r_num_const := None; r_num_in := [];
     r_min_items := None; r_max_items := None; r_unique := false; r_min_pairs := None; r_max_pairs := None |}.

Lemma const_schema_y c : field_schema_y fstr (const_rules c) = YMap [(s "type", ystr "string"); (s "const", YStr c)].
Proof. reflexivity. Qed.
Lemma in_schema_y a l :
  field_schema_y fstr (in_rules (a :: l)) = YMap [(s "type", ystr "string"); (s "enum", YSeq (map YStr (a :: l)))].
Proof. reflexivity. Qed.

Theorem string_const_in_are_strings (P : vparams) (fuel : nat) (j : jv) :
  1 <= fuel ->
  (forall c, validates P [] fuel (translate reader12 fstr (const_rules c)) j
             = VOk (match j with JVStr x => str_eqb c x | _ => false end)) /\
  (forall a l, validates P [] fuel (translate reader12 fstr (in_rules (a :: l))) j
               = VOk (match j with JVStr x => mem_str x (a :: l) | _ => false end)).
Proof.
  intros Hfuel. destruct fuel as [|n]; [lia|]. clear Hfuel.
  split.
  - intros c. unfold translate. rewrite const_schema_y. change schema_fuel with (S 7).
    rewrite (schema_of_ymap 7). cbn [map]. rewrite kw_const_str.
    change (kw12 7 (s "type", ystr "string")) with (KwType [TString]).
    rewrite validates_obj. cbn [map]. unfold chk, vall. cbn [fold_right check_kw existsb].
    destruct j as [| | | x | |]; cbn [has_type orb jv_eqb vand andb]; try reflexivity.
    now rewrite andb_true_r.
  - intros a l. unfold translate. rewrite in_schema_y. change schema_fuel with (S 7).
    remember (a :: l) as al eqn:Eal. clear Eal.
    rewrite (schema_of_ymap 7). cbn [map]. rewrite kw_enum_str.
    change (kw12 7 (s "type", ystr "string")) with (KwType [TString]).
    rewrite validates_obj. cbn [map]. unfold chk, vall. cbn [fold_right check_kw].
    destruct j as [| | | x | |]; cbn [existsb has_type orb vand andb]; try reflexivity.
    now rewrite andb_true_r, existsb_str_enum.
Qed.

Lemma mem_str_false_or x l1 l2 : (mem_str x l1 || mem_str x l2) = false -> mem_str x l1 = false /\ mem_str x l2 = false.
Proof. apply orb_false_elim. Qed.

(* the same nodes in the JSON rendering (the YAML text re-read by a YAML 1.1 resolver): the value is the string
   itself unless it is one of the YAML 1.1 boolean words (y, yes, on, n, no, off, ...), which the v4 emitter
   leaves plain - the separate C18 finding yaml11-bool-word *)
Theorem string_node_json_rendering x :
  yaml11_bool_word x = false -> denote reader11 (YStr x) = JVStr x /\ denote reader12 (YStr x) = JVStr x.
Proof.
  intros Hw. split; [|reflexivity]. cbn [denote reader11 rd_str].
  destruct (resolve12 x) eqn:E12; try reflexivity.
  unfold yaml11_bool_word in Hw. apply orb_false_elim in Hw as [Ht Hf].
  unfold resolve12, resolve_with in E12. unfold resolve11, resolve_with.
  destruct x as [|c r]; [discriminate E12|].
  destruct (negb (no_control (c :: r))); [discriminate E12|].
  destruct (numeric_start c); [destruct (plain_number (c :: r)); discriminate E12|].
  destruct (str_eqb (c :: r) (s "~")); [discriminate E12|].
  destruct (str_eqb (c :: r) (s "<<")); [discriminate E12|].
  change (mem_str (c :: r) []) with false in E12. rewrite !orb_false_r in E12.
  destruct (mem_str (c :: r) true_words); [discriminate E12|].
  destruct (mem_str (c :: r) false_words); [discriminate E12|].
  destruct (mem_str (c :: r) null_words); [discriminate E12|].
  rewrite Ht, Hf. reflexivity.
Qed.

(* the hostile spellings, through the whole pipeline: emitted node, both renderings, verdicts *)
Definition const_in_ok (c : str) : Prop :=
  string_entries (const_rules c) = [(s "const", YStr c)] /\
  denote reader12 (field_schema_y fstr (const_rules c)) = JVObj [(s "type", JVStr (s "string")); (s "const", JVStr c)] /\
  denote reader11 (field_schema_y fstr (const_rules c)) = JVObj [(s "type", JVStr (s "string")); (s "const", JVStr c)] /\
  defects_C19 fstr (const_rules c) = [] /\
  validates P0 [] schema_fuel (translate reader12 fstr (const_rules c)) (JVStr c) = VOk true /\
  validates P0 [] schema_fuel (translate reader12 fstr (const_rules c)) (rd_plain reader12 c) = VOk (reads_as_string reader12 c) /\
  validates P0 [] schema_fuel (translate reader12 fstr (in_rules [c; s "x"])) (JVStr c) = VOk true /\
  validates P0 [] schema_fuel (translate reader12 fstr (in_rules [s "x"; c])) (rd_plain reader12 c) = VOk (reads_as_string reader12 c).

Example string_const_in_are_strings_examples :
  Forall const_in_ok [s "123"; s "true"; s "null"; s ""; s "1.5"; s "-7"; s "~"; s "fixed"] /\
  (* what an untagged node would have been read as: a number, a boolean, null - none of them is accepted any more *)
  map (rd_plain reader12) [s "123"; s "true"; s "null"; s ""] = [JVNum (dec_of_Z 123); JVBool true; JVNull; JVNull] /\
  map (reads_as_string reader12) [s "123"; s "true"; s "null"; s ""; s "fixed"] = [false; false; false; false; true].
Proof.
  split.
  - repeat (apply Forall_cons; [unfold const_in_ok; vm_compute; repeat split|]). apply Forall_nil.
  - vm_compute. split; reflexivity.
Qed.

(* the theorem has content: a rule set in the good region that accepts some values and rejects others *)
Definition good_string_rules : rules :=
  {| r_required := true; r_min_len := Some 2%N; r_max_len := Some 5%N; r_len := None; r_pattern := Some (s "^a");
     r_str_in := [s "ab"; s "abc"; s "zzzzzzzz"]; r_str_not_in := []; r_str_const := None; r_well_known := Some (s "email");
     r_gt := None; r_gte := None; r_lt := None; r_lte := None; r_num_const := None; r_num_in := [];
     r_min_items := None; r_max_items := None; r_unique := false; r_min_pairs := None; r_max_pairs := None |}.
Definition good_int64_rules : rules :=
  {| r_required := false; r_min_len := None; r_max_len := None; r_len := None; r_pattern := None;
     r_str_in := []; r_str_not_in := []; r_str_const := None; r_well_known := None;
     r_gt := None; r_gte := ib (-5); r_lt := None; r_lte := ib 9007199254740992; r_num_const := None; r_num_in := [s "1"; s "-5"; s "7"];
     r_min_items := None; r_max_items := None; r_unique := false; r_min_pairs := None; r_max_pairs := None |}.
Definition good_list_rules : rules :=
  {| r_required := false; r_min_len := None; r_max_len := None; r_len := None; r_pattern := None;
     r_str_in := []; r_str_not_in := []; r_str_const := None; r_well_known := None;
     r_gt := None; r_gte := None; r_lt := None; r_lte := None; r_num_const := None; r_num_in := [];
     r_min_items := Some 1%N; r_max_items := Some 2%N; r_unique := true; r_min_pairs := None; r_max_pairs := None |}.

Example equiv_nonvacuous :
  (rule_kind KString = true /\ rules_wf good_string_rules = true /\ literals_ok good_string_rules = true /\
   defects_C19 (fsp KString Optional false) good_string_rules = [] /\
   sat P0 (fsp KString Optional false) good_string_rules (FOne (RStr (s "abc"))) = true /\
   sat P0 (fsp KString Optional false) good_string_rules (FOne (RStr (s "zzzzzzzz"))) = false) /\
  (defects_C19 (fsp KInt64 Singular true) good_int64_rules = [] /\ literals_ok good_int64_rules = true /\
   typed (fsp KInt64 Singular true) (FOne (RNum (dec_of_Z (-5)))) = true /\
   sat P0 (fsp KInt64 Singular true) good_int64_rules (FOne (RNum (dec_of_Z (-5)))) = true /\
   sat P0 (fsp KInt64 Singular true) good_int64_rules (FOne (RNum (dec_of_Z 2))) = false) /\
  (defects_C19 (fsp KInt64 Repeated false) good_list_rules = [] /\
   typed (fsp KInt64 Repeated false) (FList [RNum (dec_of_Z 3); RNum (dec_of_Z 3)]) = true /\
   sat P0 (fsp KInt64 Repeated false) good_list_rules (FList [RNum (dec_of_Z 3); RNum (dec_of_Z 4)]) = true /\
   sat P0 (fsp KInt64 Repeated false) good_list_rules (FList [RNum (dec_of_Z 3); RNum (dec_of_Z 3)]) = false).
Proof. vm_compute. repeat apply conj; reflexivity. Qed.
