(* RouteFacts.v — C03: without a route defect the five emitters (Go server and client, TS client and server,
   OpenAPI) derive the same path and the same route from one method (paths_agree, agree_all), and the
   document gets one operation per (path, verb) key, so two methods sharing a key lose one. *)
From Sebuf Require Import Text Route.
From SebufProofs Require Import TextFacts.

Lemma ensure_leading_slash_id p : has_prefix [slash] p = true -> ensure_leading_slash p = p.
Proof.
  intros H. unfold ensure_leading_slash. destruct p as [|c r]; [cbn in H; discriminate|]. now rewrite H.
Qed.

Lemma slash_trim_prefix custom :
  [slash] ++ trim_prefix [slash] custom = if has_prefix [slash] custom then custom else slash :: custom.
Proof.
  destruct (has_prefix [slash] custom) eqn:E.
  - apply has_prefix_cons1 in E as [r ->]. now rewrite trim_prefix_cons1_hit.
  - now rewrite trim_prefix_miss.
Qed.

Lemma verb_eqb_eq a b : verb_eqb a b = true <-> a = b.
Proof. destruct a, b; cbn; split; intros; try discriminate; reflexivity. Qed.

Lemma key_eqb_eq a b : key_eqb a b = true <-> a = b.
Proof.
  destruct a as [p v], b as [q w]. unfold key_eqb; cbn. rewrite andb_true_iff, str_eqb_eq, verb_eqb_eq.
  split; [intros [-> ->]; reflexivity | intros E; inversion E; auto].
Qed.

Lemma key_eqb_refl a : key_eqb a a = true.
Proof. now apply key_eqb_eq. Qed.

Lemma paths_agree r : defects_C03 r = [] ->
  go_server_path r = client_path r /\ client_path r = openapi_path r.
Proof.
  unfold defects_C03. intros H.
  apply app_eq_nil in H as [H1 H]. apply app_eq_nil in H as [H2 H]. apply app_eq_nil in H as [H3 _].
  unfold go_server_path, client_path, openapi_path.
  destruct (cfg_path r) as [|c cs] eqn:Ec; [discriminate|].
  assert (Hcfg : ri_has_cfg r = true).
  { unfold cfg_path in Ec. destruct (ri_has_cfg r); [reflexivity|discriminate]. }
  destruct (ri_base r) as [|b bs] eqn:Eb.
  - destruct (has_prefix [slash] (c :: cs)) eqn:Ep; [|discriminate].
    rewrite Hcfg. unfold build_http_path.
    rewrite (ensure_leading_slash_id (c :: cs) Ep). split; reflexivity.
  - destruct (has_prefix [slash] (b :: bs)) eqn:Ep; [|discriminate].
    unfold build_http_path.
    rewrite (ensure_leading_slash_id (b :: bs) Ep).
    rewrite <- (slash_trim_prefix (c :: cs)).
    split; reflexivity.
Qed.

Lemma agree_all r : defects_C03 r = [] ->
  go_server r = go_client r /\ go_client r = ts_client r /\ ts_client r = ts_server r /\ ts_server r = openapi r.
Proof.
  intros H. destruct (paths_agree r H) as [P1 P2].
  assert (Q : (if verb_has_body (eff_verb r) then [] else ri_query r) = ri_query r).
  { unfold defects_C03 in H.
    apply app_eq_nil in H as [_ H]. apply app_eq_nil in H as [_ H]. apply app_eq_nil in H as [_ H].
    destruct (verb_has_body (eff_verb r)); [|reflexivity].
    destruct (ri_query r); [reflexivity|discriminate]. }
  unfold go_client, ts_client, ts_server, client_route, go_server, openapi.
  rewrite Q, P1, <- P2. repeat split; reflexivity.
Qed.

Definition keys_of (rs : list rpc_info) := map (fun r => route_key (openapi r)) rs.

Lemma existsb_key_false doc k :
  ~ In k (map fst doc) -> existsb (fun e : (str * verb) * str => key_eqb (fst e) k) doc = false.
Proof.
  induction doc as [|e doc IH]; cbn; [reflexivity|]. intros H.
  destruct (key_eqb (fst e) k) eqn:E.
  - apply key_eqb_eq in E. exfalso. apply H. now left.
  - cbn. apply IH. intros Hin. apply H. now right.
Qed.

Lemma assign_ops_fresh rs : forall doc,
  NoDup (map fst doc ++ keys_of rs) ->
  assign_ops doc rs = doc ++ map (fun r => (route_key (openapi r), ri_method r)) rs.
Proof.
  induction rs as [|r rs IH]; intros doc H; cbn.
  - now rewrite app_nil_r.
  - cbn in H.
    assert (Hnot : ~ In (route_key (openapi r)) (map fst doc)).
    { apply NoDup_remove_2 in H. intros Hin. apply H. apply in_or_app. now left. }
    rewrite (existsb_key_false _ _ Hnot).
    rewrite IH.
    + rewrite <- app_assoc. reflexivity.
    + rewrite map_app. cbn. rewrite <- app_assoc. cbn. exact H.
Qed.

Lemma count_ops_unique rs m :
  NoDup (map ri_method rs) -> In m (map ri_method rs) ->
  count_ops_for m (map (fun r => (route_key (openapi r), ri_method r)) rs) = 1.
Proof.
  unfold count_ops_for.
  induction rs as [|r rs IH]; cbn; intros Hnd Hin; [contradiction|].
  inversion Hnd as [|? ? Hni Hnd']; subst.
  destruct (str_eqb (ri_method r) m) eqn:E.
  - apply str_eqb_eq in E. subst m. cbn. f_equal.
    clear IH Hin Hnd Hnd'. induction rs as [|q rs IH]; cbn; [reflexivity|].
    destruct (str_eqb (ri_method q) (ri_method r)) eqn:E.
    + apply str_eqb_eq in E. exfalso. apply Hni. cbn. now left.
    + apply IH. intros Hin. apply Hni. cbn. now right.
  - destruct Hin as [Hin|Hin].
    + subst. now rewrite str_eqb_refl in E.
    + now apply IH.
Qed.

Lemma one_operation rs :
  NoDup (keys_of rs) -> NoDup (map ri_method rs) ->
  forall r, In r rs -> count_ops_for (ri_method r) (openapi_ops rs) = 1.
Proof.
  intros Hk Hm r Hin. unfold openapi_ops. rewrite assign_ops_fresh by (cbn; exact Hk). cbn.
  apply count_ops_unique; [exact Hm|]. now apply in_map.
Qed.

Lemma shared_key_loses_one r1 r2 :
  route_key (openapi r1) = route_key (openapi r2) -> ri_method r1 <> ri_method r2 ->
  count_ops_for (ri_method r1) (openapi_ops [r1; r2]) = 0.
Proof.
  intros Hk Hm. unfold openapi_ops, count_ops_for.
  cbn [assign_ops existsb app]. rewrite <- Hk.
  cbn [existsb map fst orb].
  pose proof (key_eqb_refl (route_key (openapi r1))) as R.
  rewrite !R. cbn [orb filter snd].
  destruct (str_eqb (ri_method r2) (ri_method r1)) eqn:E; [|reflexivity].
  apply str_eqb_eq in E. congruence.
Qed.

