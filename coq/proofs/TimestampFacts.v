(* TimestampFacts.v — the timestamp_format codec (internal/httpgen/timestamp_format.go) in general:
   MarshalJSON   = protojson output with the value of every annotated, populated Timestamp field
                   replaced by Unix seconds / Unix millis / "YYYY-MM-DD";
   UnmarshalJSON = the same entries rewritten to an RFC 3339 text, then protojson.
   Entry by entry (CodecBase.field_codec_roundtrip) an annotated field comes back truncated as documented
   ([ts_entry_back]); hence the round trip (C04) modulo [norm], for every schema and every well-typed
   value — negative seconds included: the model's [/] and [mod] are floor division, which is what Go's
   Time.UnixMilli / time.UnixMilli compute after normalisation (sec = floor, 0 <= nsec < 1e9). *)
From Coq Require Import Lia ZArith.
From Sebuf Require Import CodecCases.
From SebufProofs Require Import TextFacts ProtoJsonFacts NullableFacts.

Open Scope Z_scope.

(* CodecBase.sorted_names_nodup in the form the statements about codecs use ([nodup_str], boolean) *)
Lemma sorted_names_nodup_str md (m : mval) :
  sorted_Z (map (fun e => num_of md (fst e)) m) = true -> nodup_str (map fst m) = true.
Proof. intros H. apply nodup_str_iff. exact (CodecBase.sorted_names_nodup md m H). Qed.

Lemma ts_in_range_spec a b :
  ts_in_range a b = true <-> (-62135596800 <= a <= 253402300799 /\ 0 <= b <= 999999999).
Proof.
  unfold ts_in_range, ts_min_sec, ts_max_sec. rewrite !Bool.andb_true_iff, !Z.leb_le. lia.
Qed.

Lemma in_i64 z : -9223372036854775808 <= z <= 9223372036854775807 -> in_int_range KInt64 z = true.
Proof.
  intros Hz. unfold in_int_range.
  assert (Hlo : int_lo KInt64 = -9223372036854775808) by reflexivity.
  assert (Hhi : int_hi KInt64 = 9223372036854775807) by reflexivity.
  rewrite Hlo, Hhi. apply andb_true_intro. split; apply Z.leb_le; lia.
Qed.

Lemma millis_split sec nanos :
  0 <= nanos <= 999999999 ->
  let n := sec * 1000 + nanos / 1000000 in
  n / 1000 = sec /\ (n mod 1000) * 1000000 = (nanos / 1000000) * 1000000 /\ 0 <= nanos / 1000000 <= 999.
Proof.
  intros Hn. cbv zeta.
  assert (Hq : 0 <= nanos / 1000000 < 1000).
  { split; [apply Z.div_pos; lia|apply Z.div_lt_upper_bound; lia]. }
  assert (Heq : sec * 1000 + nanos / 1000000 = 1000 * sec + nanos / 1000000) by lia.
  split; [|split].
  - symmetry. apply (Z.div_unique_pos _ 1000 sec (nanos / 1000000) Hq Heq).
  - f_equal. symmetry. apply (Z.mod_unique_pos _ 1000 sec (nanos / 1000000) Hq Heq).
  - lia.
Qed.

Lemma day_floor_range sec :
  -62135596800 <= sec <= 253402300799 -> -62135596800 <= day_floor sec <= 253402300799.
Proof.
  intros Hs. unfold day_floor.
  pose proof (Z.mod_pos_bound sec 86400 ltac:(lia)) as Hm.
  pose proof (Z.div_mod sec 86400 ltac:(lia)) as Hd.
  assert (Hq : -719162 <= sec / 86400) by (apply Z.div_le_lower_bound; lia).
  lia.
Qed.

Lemma tsfmt_of_inv f fmt : tsfmt_of f = Some fmt ->
  f_kind f = KMessage ts_name /\ is_map f = false /\ f_tsfmt f = Some fmt /\
  (fmt = TFUnixSeconds \/ fmt = TFUnixMillis \/ fmt = TFDate).
Proof.
  unfold tsfmt_of. destruct (is_timestamp (f_kind f)) eqn:Hk; [|intros H; discriminate H].
  destruct (is_map f); simpl; [intros H; discriminate H|].
  assert (Hkind : f_kind f = KMessage ts_name).
  { unfold is_timestamp in Hk. destruct (f_kind f) as [| | | | | | | | | | | | | | | tn0 | tn]; try discriminate Hk.
    apply str_eqb_eq in Hk. subst tn. reflexivity. }
  destruct (f_tsfmt f) as [[| | | |]|]; intros H; inversion H; subst; repeat split; auto.
Qed.

Section Codec.
Variable E : ExtLib.
Hypothesis EL : ExtLaws E.
Variable sc : schema.

Lemma nano_back sec n (f : field) :
  ts_in_range sec n = true -> f_kind f = KMessage ts_name -> f_card f = Singular ->
  u_value E sc f (nano_text_or_bad E sec n) = ROk (Some (ts_value sec n)).
Proof.
  intros Hr Hk Hc. unfold nano_text_or_bad. rewrite Hr. unfold u_value. rewrite Hc, Hk, pj_un_ts.
  unfold ts_of_json. rewrite (law_nano E EL _ _ Hr), Hr. reflexivity.
Qed.

(* one annotated entry through MarshalJSON's rewrite, UnmarshalJSON's rewrite and protojson *)
Lemma ts_entry_back m (g : field) fmt tm :
  tsfmt_of g = Some fmt -> f_card g = Singular -> ts_ok tm = true -> mget m (f_name g) = Some (FM tm) ->
  exists v' v'', act_ts E m g = Some (Some v') /\ gd_ts E g v' = Some (Some v'') /\
                 u_value E sc g v'' = ROk (Some (trunc_ts fmt (FM tm))).
Proof.
  intros Hfmt Hcard Hok Hm.
  destruct (tsfmt_of_inv g fmt Hfmt) as [Hkind [_ [_ Hcases]]].
  destruct (ts_ok_canon tm Hok) as [Hrange _].
  unfold act_ts, gd_ts. rewrite Hfmt, Hm. unfold trunc_ts.
  remember (mget_int tm (s "seconds")) as sec eqn:Hsec.
  remember (mget_int tm (s "nanos")) as nanos eqn:Hnanos.
  cbv zeta.
  apply ts_in_range_spec in Hrange. destruct Hrange as [Hs Hn].
  destruct Hcases as [Hc|[Hc|Hc]]; subst fmt.
  - assert (Hi : go_int KInt64 (JNum sec) = Some sec).
    { unfold go_int. rewrite in_i64 by lia. reflexivity. }
    eexists. eexists. split; [reflexivity|]. rewrite Hi. split; [reflexivity|].
    apply nano_back; [apply ts_in_range_spec; lia|exact Hkind|exact Hcard].
  - (* n = sec * 1000 + nanos / 10^6 splits back into sec and the whole milliseconds: floor division *)
    destruct (millis_split sec nanos Hn) as [Hdiv [Hmod Hq]].
    assert (Hi : go_int KInt64 (JNum (sec * 1000 + nanos / 1000000)) = Some (sec * 1000 + nanos / 1000000)).
    { unfold go_int. rewrite in_i64 by lia. reflexivity. }
    eexists. eexists. split; [reflexivity|]. rewrite Hi. split; [reflexivity|].
    rewrite Hdiv, Hmod.
    apply nano_back; [apply ts_in_range_spec; lia|exact Hkind|exact Hcard].
  - (* the date text is read back as the start of its day *)
    assert (Hr0 : ts_in_range sec 0 = true) by (apply ts_in_range_spec; lia).
    eexists. eexists. split; [reflexivity|]. cbv beta iota. rewrite (law_date E EL sec Hr0). split; [reflexivity|].
    pose proof (day_floor_range sec Hs) as Hdf.
    apply nano_back; [apply ts_in_range_spec; lia|exact Hkind|exact Hcard].
Qed.

(* C04 for the timestamp_format codec, all schemas, all well-typed values *)
Theorem ts_roundtrip : forall tn md m j,
  str_eqb tn ts_name = false -> is_wkt_other tn = false ->
  find_message (all_messages sc) tn = Some md -> owner_of sc md = Own FtTs ->
  buildable sc FtTs md = true ->
  nodup_str (map jn (m_fields md)) = true ->
  wt sc (KMessage tn) (FM m) = true ->
  encode E sc tn m = ROk j -> decode E sc tn j = ROk (norm sc tn m).
Proof.
  intros tn md m j Hts _ Hfm Hown _ _ Hwt Henc.
  rewrite (norm_owned sc tn md FtTs m (find_lookup sc tn md Hts Hfm) Hown), norm_fields_nmap.
  apply (field_codec_roundtrip E sc FtTs _ tn md m j eq_refl Hts Hfm Hown Hwt); [| | |exact Henc].
  - intros Hb x f jx Hff Hm Hw Hj. cbn [act_of gd_of]. pose proof (proj1 (find_field_spec _ _ _ Hff)) as Hf.
    assert (Hem : empty_of f = None).
    { destruct (empty_of f) as [b|] eqn:Ee; [|reflexivity].
      discriminate (own_excl sc md FtTs FtEmpty Hown (feature_empty sc md f b Hf Ee)). }
    destruct (tsfmt_of f) as [fmt|] eqn:Hfmt.
    + (* an annotated Timestamp field: singular (else the emitted code does not compile), canonical value *)
      destruct (tsfmt_of_inv f fmt Hfmt) as [Hkind [_ [_ Hcases]]].
      assert (Hcard : f_card f = Singular).
      { unfold buildable in Hb. rewrite forallb_forall in Hb. specialize (Hb f Hf). rewrite Hfmt in Hb.
        unfold plain_singular in Hb. destruct (f_card f); try discriminate Hb. reflexivity. }
      assert (Hshape : exists tm, x = FM tm /\ ts_ok tm = true).
      { unfold wt_entry in Hw. rewrite Hcard, Hkind in Hw.
        destruct x as [sx|tm|l|kv]; [discriminate Hw| |discriminate Hw|discriminate Hw].
        exists tm. split; [reflexivity|]. rewrite wt_FM, str_eqb_refl in Hw. exact Hw. }
      destruct Hshape as [tm [Hx Htm]]. subst x.
      destruct (ts_entry_back m f fmt tm Hfmt Hcard Htm Hm) as [v' [v'' [Ha [Hd Hback]]]].
      unfold slot_ok, thru, nf_norm. rewrite Hfmt, Ha. cbn [aval]. rewrite Hd. cbn [aval].
      exists v''. split; [reflexivity|]. split; [exact Hback|].
      unfold trunc_ts. destruct Hcases as [Hc|[Hc|Hc]]; subst fmt; reflexivity.
    + apply (slot_ok_plain E EL sc); [| | |exact Hw|exact Hj].
      * unfold act_ts. rewrite Hfmt. reflexivity.
      * unfold gd_ts. rewrite Hfmt. reflexivity.
      * unfold nf_norm. rewrite Hfmt, Hem. reflexivity.
  - intros f v _. apply absent_deleted.
  - intros es _ _ _. apply dec_of_gstep; [reflexivity|discriminate].
Qed.
End Codec.
Close Scope Z_scope.
