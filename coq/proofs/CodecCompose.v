(* CodecCompose.v — the per-codec theorems put together.
     C04_roundtrip_field_codecs : ONE round-trip theorem for every message type whose codec is none, or
       exactly one of the five field codecs (nullable, int64 NUMBER, bytes_encoding, timestamp_format,
       empty_behavior); every side condition of the per-codec theorems (distinct JSON names, "the emitted
       codec compiles", "no NULL Timestamp holds the epoch", "tn is not a well-known type") is DERIVED here
       from wt, encode = ROk and defects_C04 = [].
     C05_conforms_field_codecs : ONE Impl = Spec theorem for the same message types, under ONE computable
       schema predicate [field_codec_plain] (the message carries only its own codec's annotation and the
       emitted codec compiles) and a well-typed value with un-annotated children. *)
From Coq Require Import ZArith List.
From Sebuf Require Import CodecCases.
From SebufProofs Require Import TextFacts ProtoJsonFacts CodecExamples CodecFacts MappingFacts.
From SebufProofs Require NullableFacts NullableConforms Int64Facts Int64Conforms BytesFacts BytesConforms.
From SebufProofs Require TimestampFacts TimestampConforms EmptyFacts EmptyConforms ConformsBase CodecBase.
Import ListNotations.

Open Scope Z_scope.

(* the same predicate as CodecBase.is_field_codec, which the per-codec files use *)
Definition field_codec_ft (ft : feature) : bool :=
  match ft with FtNullable | FtInt64 | FtBytes | FtTs | FtEmpty => true | _ => false end.

(* the message type exists and its codec is none, or exactly one of the five field codecs
   (not flatten / discriminated oneof / unwrap, not two features at once) *)
Definition field_codec_owner (sc : schema) (tn : str) : bool :=
  match lookup_message sc tn with
  | Some md => match owner_of sc md with
               | OwnNone => true
               | Own ft => field_codec_ft ft
               | OwnMany => false
               end
  | None => false
  end.

Lemma defects_nil_epoch_null_free sc tn md m :
  lookup_message sc tn = Some md -> owner_of sc md = Own FtEmpty ->
  sorted_Z (map (fun e => num_of md (fst e)) m) = true ->
  defects_C04 sc tn m = [] -> EmptyFacts.epoch_null_free md m = true.
Proof.
  intros Hlk Hown Hsorted Hd.
  pose proof (CodecBase.defects_nil_local sc tn md FtEmpty m Hlk Hown Hd) as Hloc.
  unfold local_defects in Hloc. rewrite Hown in Hloc.
  destruct (existsb (fun f => match empty_of f, mget m (f_name f) with
                              | Some EBNull, Some (FM []) => is_timestamp (f_kind f)
                              | _, _ => false end) (m_fields md)) eqn:Hex; [discriminate Hloc|]. clear Hloc.
  unfold EmptyFacts.epoch_null_free. apply forallb_forall. intros [name x] Hin. cbn [fst snd].
  destruct (find_field (m_fields md) name) as [f|] eqn:Ef; [|reflexivity].
  destruct x as [sx|[|e0 r0]|l|kv]; try reflexivity.
  destruct (EmptyFacts.is_nullf f) eqn:Hn; [|reflexivity].
  destruct (is_timestamp (f_kind f)) eqn:Ht; [exfalso|reflexivity].
  destruct (find_field_spec _ _ _ Ef) as [Hinf Hname].
  pose proof (proj1 (ListFacts.existsb_false _ _) Hex f Hinf) as Hf. cbn beta in Hf.
  rewrite Hname, (CodecBase.sorted_mget md m name (FM []) Hsorted Hin) in Hf.
  unfold EmptyFacts.is_nullf in Hn. destruct (empty_of f) as [[| | |]|]; try discriminate Hn.
  congruence.
Qed.

Theorem C04_roundtrip_field_codecs : forall E, ExtLaws E -> forall sc tn m j,
  field_codec_owner sc tn = true ->
  wt sc (KMessage tn) (FM m) = true ->
  defects_C04 sc tn m = [] ->
  encode E sc tn m = ROk j -> decode E sc tn j = ROk (norm sc tn m).
Proof.
  intros E EL sc tn m j Hfc Hwt Hdef Henc.
  destruct (str_eqb tn ts_name) eqn:Hts.
  - (* Timestamp itself: protojson both ways *)
    apply str_eqb_eq in Hts. subst tn.
    exact (C04_roundtrip_plain E EL sc ts_name m j (CodecBase.owns_ts_name sc) Hwt Henc).
  - destruct (CodecBase.wt_message sc tn m Hts Hwt) as [Hwk [md [Hfm [Hlk [Hok [Hsorted Hwf]]]]]].
    pose proof (NullableFacts.msg_ok_nodup_jn md Hok) as Hnd.
    unfold field_codec_owner in Hfc. rewrite Hlk in Hfc.
    destruct (owner_of sc md) as [|ft|] eqn:Hown; [| |discriminate Hfc].
    + (* no codec *)
      assert (Howns : owns sc tn = false) by (unfold owns; rewrite Hlk, Hown; reflexivity).
      exact (C04_roundtrip_plain E EL sc tn m j Howns Hwt Henc).
    + pose proof (CodecBase.encode_ok_buildable E sc tn md ft m j Hwk Hlk Hown Henc) as Hb.
      destruct ft; try discriminate Hfc.
      * exact (Int64Facts.int64_roundtrip E EL sc tn md m j Hts Hwk Hfm Hown Hwt Henc).
      * exact (NullableFacts.nullable_roundtrip E EL sc tn md m j Hts Hwk Hfm Hown Hnd Hwt Henc).
      * exact (EmptyFacts.empty_roundtrip E EL sc tn md m j Hts Hwk Hfm Hown Hnd
                 (defects_nil_epoch_null_free sc tn md m Hlk Hown Hsorted Hdef) Hwt Henc).
      * exact (TimestampFacts.ts_roundtrip E EL sc tn md m j Hts Hwk Hfm Hown Hb Hnd Hwt Henc).
      * exact (BytesFacts.bytes_roundtrip E EL sc tn md m j Hts Hwk Hfm Hown Hwt Henc).
Qed.

(* C05: one schema predicate for "this message carries only its own codec's annotation, its emitted codec
   compiles, and nothing else about it is annotated": the per-codec predicates, selected by the owner.
   (No codec at all: MappingFacts.plain_msg.) *)
Definition field_codec_plain (sc : schema) (md : message) : bool :=
  match owner_of sc md with
  | OwnNone => plain_msg md
  | Own ft =>
      buildable sc ft md &&
      match ft with
      | FtNullable => NullableConforms.nulplain_msg md
      | FtInt64 => Int64Conforms.i64plain_msg md
      | FtBytes => BytesConforms.bytesplain_msg md
      | FtTs => forallb TimestampConforms.tsplain_field (m_fields md)
      | FtEmpty => EmptyConforms.empplain_msg md
      | _ => false
      end
  | OwnMany => false
  end.

Lemma field_codec_plain_owner sc tn md :
  lookup_message sc tn = Some md -> field_codec_plain sc md = true -> field_codec_owner sc tn = true.
Proof.
  intros Hlk Hp. unfold field_codec_owner. rewrite Hlk. unfold field_codec_plain in Hp.
  destruct (owner_of sc md) as [|ft|]; [reflexivity| |discriminate Hp].
  apply andb_prop in Hp. destruct Hp as [_ Hp]. destruct ft; try discriminate Hp; reflexivity.
Qed.

Section Conforms.
Variable E : ExtLib.
Variable sc : schema.

(* the children of a value, field by field, are un-annotated *)
Notation plain_children md m :=
  (forallb (fun e : str * fval => match find_field (m_fields md) (fst e) with
                                  | Some f => plain_in sc (f_kind f) (snd e)
                                  | None => false end) m).

(* timestamp_format, bytes_encoding: the shape of the annotated values follows from well-typedness, since the
   emitted codec compiles for singular (bytes: or optional) fields only *)
Lemma ts_entries_ok md m :
  buildable sc FtTs md = true -> wt_fields sc md m = true -> plain_children md m = true ->
  forallb (TimestampConforms.ts_entry_ok sc md) m = true.
Proof.
  intros Hb Hwf Hch. apply forallb_forall. intros [n x] Hin.
  destruct (CodecBase.wt_fields_in sc md m n x Hwf Hin) as [f [Hfd Hw]].
  unfold TimestampConforms.ts_entry_ok. cbn [fst snd]. rewrite Hfd.
  destruct (tsfmt_of f) as [fmt|] eqn:Hfmt; [|exact (ConformsBase.plain_children_in sc md m n x f Hch Hin Hfd)].
  destruct (TimestampFacts.tsfmt_of_inv f fmt Hfmt) as [Hkind _].
  assert (Hps : plain_singular f = true).
  { unfold buildable in Hb. rewrite forallb_forall in Hb. specialize (Hb f (find_field_in _ _ _ Hfd)). rewrite Hfmt in Hb. exact Hb. }
  assert (Hcard : f_card f = Singular).
  { unfold plain_singular in Hps. destruct (f_card f); try discriminate Hps. reflexivity. }
  unfold wt_entry in Hw. rewrite Hcard, Hkind in Hw.
  destruct x as [sx|tm|l|kv]; [discriminate Hw|reflexivity|discriminate Hw|discriminate Hw].
Qed.

(* a bytes field whose option names the default encoding may be repeated and hold a list: the option changes
   nothing on either side *)
Lemma bytes_entries_ok md m :
  buildable sc FtBytes md = true -> wt_fields sc md m = true -> plain_children md m = true ->
  forall n x f, In (n, x) m -> find_field (m_fields md) n = Some f -> BytesConforms.bytes_entry_ok sc f x.
Proof.
  intros Hb Hwf Hch n x f Hin Hfd. unfold BytesConforms.bytes_entry_ok.
  destruct (bytesenc_of f) as [e|] eqn:Ebo; [|exact (ConformsBase.plain_children_in sc md m n x f Hch Hin Hfd)].
  destruct (CodecBase.wt_fields_in sc md m n x Hwf Hin) as [f' [Hfd' Hw]]. assert (f' = f) by congruence. subst f'.
  exact (BytesFacts.bytes_entry_shape sc f x (BytesFacts.bytesenc_kind f e Ebo)
           (BytesFacts.buildable_bytes_card sc md f e Hb (find_field_in _ _ _ Hfd) Ebo) Hw).
Qed.

Theorem C05_conforms_field_codecs : forall tn md m,
  lookup_message sc tn = Some md ->
  field_codec_plain sc md = true ->
  wt sc (KMessage tn) (FM m) = true ->
  forallb (fun e => match find_field (m_fields md) (fst e) with
                    | Some f => plain_in sc (f_kind f) (snd e)
                    | None => false end) m = true ->
  encode E sc tn m = to_json E sc tn m.
Proof.
  intros tn md m Hlk Hp Hwt Hch. unfold field_codec_plain in Hp.
  destruct (owner_of sc md) as [|ft|] eqn:Hown; [| |discriminate Hp].
  - (* no codec: both sides are protojson *)
    assert (Howns : owns sc tn = false) by (unfold owns; rewrite Hlk, Hown; reflexivity).
    unfold encode. rewrite Howns. symmetry. unfold to_json, pj_marshal.
    apply (mapping_plain_none E sc (FM m) (KMessage tn)). rewrite plain_in_FM.
    destruct (str_eqb tn ts_name) eqn:Hts; [reflexivity|].
    unfold lookup_message in Hlk. rewrite Hts in Hlk. rewrite Hlk, Hp. cbn [andb].
    clear -Hch. induction m as [|[name x] r IH]; [reflexivity|].
    cbn [forallb fst snd] in Hch. cbn [plain_fields]. destruct (find_field (m_fields md) name) as [f|]; [|discriminate Hch].
    apply andb_prop in Hch. destruct Hch as [Hx Hr]. rewrite Hx. exact (IH Hr).
  - apply andb_prop in Hp. destruct Hp as [Hb Hp].
    destruct (str_eqb tn ts_name) eqn:Hts.
    { (* Timestamp has no codec *)
      exfalso. unfold lookup_message in Hlk. rewrite Hts in Hlk. inversion Hlk; subst md.
      rewrite CodecBase.ts_message_unowned in Hown. discriminate Hown. }
    destruct (CodecBase.wt_message sc tn m Hts Hwt) as [Hwk [md' [Hfm [Hlk' [Hok [Hsorted Hwf]]]]]].
    assert (md' = md) by congruence. subst md'.
    pose proof (NullableFacts.msg_ok_nodup_jn md Hok) as Hnd.
    pose proof (TimestampFacts.sorted_names_nodup_str md m Hsorted) as Hnames.
    destruct ft; try discriminate Hp.
    + exact (Int64Conforms.conforms_int64 E sc tn md m Hts Hwk Hfm Hown Hb Hnd Hp Hwt Hch).
    + exact (NullableConforms.conforms_nullable E sc tn md m Hts Hwk Hfm Hown Hnd Hp Hch).
    + exact (EmptyConforms.conforms_empty E sc tn md m Hts Hwk Hfm Hown Hb Hnd Hp Hwt Hch).
    + exact (TimestampConforms.conforms_ts E sc tn md m Hts Hwk Hfm Hown Hb Hnd Hp Hnames (ts_entries_ok md m Hb Hwf Hch)).
    + exact (BytesConforms.conforms_bytes_entries E sc tn md m Hts Hwk Hfm Hown Hb Hnd Hp Hnames
               (ConformsBase.plain_children_declared sc md m Hch) (bytes_entries_ok md m Hb Hwf Hch)).
Qed.
End Conforms.

(* witnesses.  The shared schema [xs] (proofs/CodecExamples.v) has one message type per field codec:
   Nums (int64 NUMBER), Nul (nullable), Emp (empty_behavior), Times (timestamp_format), Blob (bytes_encoding),
   and Leaf (no codec). *)

(* every hypothesis of C04_roundtrip_field_codecs holds for (tn, m) — owner [ow], JSON [j] — and so does its
   conclusion, [back] being the normalised value *)
Definition c04_case_ok (sc : schema) (tn : str) (ow : owner) (m : mval) (j : json) (back : mval) : Prop :=
  (exists md, lookup_message sc tn = Some md /\ owner_of sc md = ow) /\
  field_codec_owner sc tn = true /\ wt sc (KMessage tn) (FM m) = true /\ defects_C04 sc tn m = [] /\
  encode Ex sc tn m = ROk j /\ norm sc tn m = back /\ decode Ex sc tn j = ROk back.

(* every hypothesis of C05_conforms_field_codecs holds for (tn, m), and Impl = Spec = ROk j *)
Definition c05_case_ok (sc : schema) (tn : str) (ow : owner) (m : mval) (j : json) : Prop :=
  exists md, lookup_message sc tn = Some md /\ owner_of sc md = ow /\ field_codec_plain sc md = true /\
    wt sc (KMessage tn) (FM m) = true /\
    forallb (fun e => match find_field (m_fields md) (fst e) with
                      | Some f => plain_in sc (f_kind f) (snd e)
                      | None => false end) m = true /\
    encode Ex sc tn m = ROk j /\ to_json Ex sc tn m = ROk j.

(* the message is found by unification ([reflexivity], not [vm_compute; reflexivity]), so that the witness is the
   term the schema has and not its normal form; what is left is closed and evaluated in one go *)
Ltac c04ok := split; [eexists; split; [reflexivity|vm_compute; reflexivity]|vm_compute; repeat split].
Ltac c05ok := eexists; split; [reflexivity|vm_compute; repeat split].

Example roundtrip_field_codecs_nonvacuous :
  c04_case_ok xs (q "Nums") (Own FtInt64)
    [(s "big", vint 9007199254740993); (s "name", vstr "n")]
    (JObj [(s "big", JNum 9007199254740993); (s "name", JStr (s "n"))])
    [(s "big", vint 9007199254740993); (s "name", vstr "n")] /\
  c04_case_ok xs (q "Nul") (Own FtNullable)
    [(s "id", vstr "x")]
    (JObj [(s "id", JStr (s "x")); (s "nick", JNull)])
    [(s "id", vstr "x")] /\
  c04_case_ok xs (q "Nul") (Own FtNullable)
    [(s "nick", vstr "k"); (s "id", vstr "x")]
    (JObj [(s "nick", JStr (s "k")); (s "id", JStr (s "x"))])
    [(s "nick", vstr "k"); (s "id", vstr "x")] /\
  c04_case_ok xs (q "Emp") (Own FtEmpty)
    [(s "nul_it", FM []); (s "omit", FM []); (s "id", vstr "x")]
    (JObj [(s "nulIt", JNull); (s "id", JStr (s "x"))])
    [(s "nul_it", FM []); (s "id", vstr "x")] /\
  c04_case_ok xs (q "Times") (Own FtTs)
    [(s "secs", tsv 5 123456789); (s "day", tsv 90000 1); (s "id", vstr "x")]
    (JObj [(s "secs", JNum 5); (s "day", JStr (s "1970-01-02")); (s "id", JStr (s "x"))])
    [(s "secs", tsv 5 0); (s "day", tsv 86400 0); (s "id", vstr "x")] /\
  c04_case_ok xs (q "Blob") (Own FtBytes)
    [(s "h", FS (VBytes [ch 105; ch 183])); (s "id", vstr "x")]
    (JObj [(s "h", JStr (s "69b7")); (s "id", JStr (s "x"))])
    [(s "h", FS (VBytes [ch 105; ch 183])); (s "id", vstr "x")] /\
  c04_case_ok xs (q "Leaf") OwnNone
    [(s "a", vstr "x"); (s "n", vint 3)]
    (JObj [(s "a", JStr (s "x")); (s "n", JStr (s "3"))])
    [(s "a", vstr "x"); (s "n", vint 3)].
Proof. do 6 (split; [c04ok|]). c04ok. Qed.

Example conforms_field_codecs_nonvacuous :
  c05_case_ok xs (q "Nums") (Own FtInt64)
    [(s "big", vint 9007199254740993); (s "name", vstr "n")]
    (JObj [(s "big", JNum 9007199254740993); (s "name", JStr (s "n"))]) /\
  c05_case_ok xs (q "Nul") (Own FtNullable)
    [(s "id", vstr "x")]
    (JObj [(s "id", JStr (s "x")); (s "nick", JNull)]) /\
  c05_case_ok xs (q "Emp") (Own FtEmpty)
    [(s "nul_it", FM []); (s "omit", FM []); (s "id", vstr "x")]
    (JObj [(s "nulIt", JNull); (s "id", JStr (s "x"))]) /\
  c05_case_ok xs (q "Times") (Own FtTs)
    [(s "secs", tsv 5 123456789); (s "day", tsv 90000 1); (s "id", vstr "x")]
    (JObj [(s "secs", JNum 5); (s "day", JStr (s "1970-01-02")); (s "id", JStr (s "x"))]) /\
  c05_case_ok xs (q "Blob") (Own FtBytes)
    [(s "h", FS (VBytes [ch 105; ch 183])); (s "id", vstr "x")]
    (JObj [(s "h", JStr (s "69b7")); (s "id", JStr (s "x"))]) /\
  c05_case_ok xs (q "Leaf") OwnNone
    [(s "a", vstr "x"); (s "n", vint 3)]
    (JObj [(s "a", JStr (s "x")); (s "n", JStr (s "3"))]).
Proof. do 5 (split; [c05ok|]). c05ok. Qed.

(* a repeated bytes field whose bytes_encoding option names the default (BASE64) next to a HEX field: the
   composed theorem covers it (well-typedness decides the shape of the value); BytesConforms.conforms_bytes
   does not, its value condition asks for ONE byte string under every field that carries the option *)
Definition fcs : schema :=
  [ {| fl_path := s "x/c.proto"; fl_package := s "x.v1"; fl_gopkg := s "x"; fl_generate := true;
       fl_messages :=
         [ msg "BDef" [set_bytes BEHex (fld "h" 1 KBytes Singular); set_bytes BEBase64 (fld "reps" 2 KBytes Repeated);
                       fld "id" 3 KString Singular] [] ];
       fl_enums := []; fl_services := [] |} ].
Example conforms_field_codecs_default_bytes_list :
  let m := [(s "h", FS (VBytes [ch 105; ch 183])); (s "reps", FL [FS (VBytes [ch 1]); FS (VBytes [])]); (s "id", vstr "x")] in
  c05_case_ok fcs (q "BDef") (Own FtBytes) m
    (JObj [(s "h", JStr (s "69b7")); (s "reps", JArr [JStr (s "AQ=="); JStr []]); (s "id", JStr (s "x"))]) /\
  (exists md, lookup_message fcs (q "BDef") = Some md /\ forallb (BytesConforms.bytes_value_ok fcs md) m = false) /\
  c04_case_ok fcs (q "BDef") (Own FtBytes) m
    (JObj [(s "h", JStr (s "69b7")); (s "reps", JArr [JStr (s "AQ=="); JStr []]); (s "id", JStr (s "x"))]) m.
Proof.
  cbv zeta. split; [c05ok|]. split; [eexists; split; [reflexivity|vm_compute; reflexivity]|c04ok].
Qed.

(* C04: defects_C04 = [] (its only clause that matters for a field codec is D4EmptyNullEpochTs: empty_behavior =
   NULL on a Timestamp field holding the epoch is written as null, read back as {} and rejected by protojson) *)
Example roundtrip_field_codecs_needs_no_defects :
  let m := [(s "at", FM []); (s "id", vstr "x")] in
  field_codec_owner EmptyConforms.ebs (q "TsNull") = true /\
  wt EmptyConforms.ebs (KMessage (q "TsNull")) (FM m) = true /\
  defects_C04 EmptyConforms.ebs (q "TsNull") m = [D4EmptyNullEpochTs] /\
  encode Ex EmptyConforms.ebs (q "TsNull") m = ROk (JObj [(s "at", JNull); (s "id", JStr (s "x"))]) /\
  decode Ex EmptyConforms.ebs (q "TsNull") (JObj [(s "at", JNull); (s "id", JStr (s "x"))]) = RErr (s "invalid timestamp").
Proof. vm_compute. repeat split; reflexivity. Qed.

(* C04: what field_codec_owner accepts: the Timestamp type and every type with no codec or one field codec; not the
   flatten / discriminated-oneof / unwrap owners (their round trips are the refuted classes of CodecFacts.v and
   the open part of C04_roundtrip_full), not an undeclared type *)
Example field_codec_owner_examples :
  field_codec_owner xs (q "Person") = false /\ field_codec_owner xs (q "Event") = false /\
  field_codec_owner xs (q "Series") = false /\ field_codec_owner xs (q "Strs") = false /\
  field_codec_owner xs (s "x.v1.Missing") = false /\ field_codec_owner xs ts_name = true.
Proof. vm_compute. repeat split; reflexivity. Qed.

(* C05: field_codec_plain — (1) an annotation the codec does not honour (NUMBER on a map), (2) a codec that does
   not compile (NUMBER on an optional field) *)
Example conforms_field_codecs_needs_plain :
  (let m := [(s "by_k", FMap [(VStr (s "k"), vint 5)])] in
   exists md, lookup_message xs (q "NumMap") = Some md /\ owner_of xs md = Own FtInt64 /\
     buildable xs FtInt64 md = true /\ field_codec_plain xs md = false /\
     wt xs (KMessage (q "NumMap")) (FM m) = true /\
     forallb (fun e => match find_field (m_fields md) (fst e) with
                       | Some f => plain_in xs (f_kind f) (snd e) | None => false end) m = true /\
     encode Ex xs (q "NumMap") m = ROk (JObj [(s "byK", JObj [(s "k", JStr (s "5"))])]) /\
     to_json Ex xs (q "NumMap") m = ROk (JObj [(s "byK", JObj [(s "k", JNum 5)])])) /\
  (let m := [(s "o", vint 5)] in
   exists md w, lookup_message Int64Facts.i64s (q "Opt") = Some md /\ owner_of Int64Facts.i64s md = Own FtInt64 /\
     Int64Conforms.i64plain_msg md = true /\ buildable Int64Facts.i64s FtInt64 md = false /\
     field_codec_plain Int64Facts.i64s md = false /\
     wt Int64Facts.i64s (KMessage (q "Opt")) (FM m) = true /\
     encode Ex Int64Facts.i64s (q "Opt") m = RUnm w /\ to_json Ex Int64Facts.i64s (q "Opt") m = ROk (JObj [(s "o", JNum 5)])).
Proof. split; [eexists|do 2 eexists]; (split; [reflexivity|]); vm_compute; repeat split; reflexivity. Qed.

(* C05: well-typedness (a populated implicit scalar is non-zero) and un-annotated children *)
Example conforms_field_codecs_needs_wt :
  let m := [(s "big", vint 0)] in
  exists md, lookup_message xs (q "Nums") = Some md /\ field_codec_plain xs md = true /\
    forallb (fun e => match find_field (m_fields md) (fst e) with
                      | Some f => plain_in xs (f_kind f) (snd e) | None => false end) m = true /\
    wt xs (KMessage (q "Nums")) (FM m) = false /\
    encode Ex xs (q "Nums") m = ROk (JObj []) /\ to_json Ex xs (q "Nums") m = ROk (JObj [(s "big", JNum 0)]).
Proof. eexists. split; [reflexivity|]. vm_compute. repeat split. Qed.
Example conforms_field_codecs_needs_plain_children :
  let m := [(s "inner", FM [(s "big", vint 5)])] in
  exists md, lookup_message xs (q "NumsHolder") = Some md /\ owner_of xs md = OwnNone /\ field_codec_plain xs md = true /\
    wt xs (KMessage (q "NumsHolder")) (FM m) = true /\
    forallb (fun e => match find_field (m_fields md) (fst e) with
                      | Some f => plain_in xs (f_kind f) (snd e) | None => false end) m = false /\
    encode Ex xs (q "NumsHolder") m = ROk (JObj [(s "inner", JObj [(s "big", JStr (s "5"))])]) /\
    to_json Ex xs (q "NumsHolder") m = ROk (JObj [(s "inner", JObj [(s "big", JNum 5)])]).
Proof. eexists. split; [reflexivity|]. vm_compute. repeat split. Qed.
Close Scope Z_scope.
