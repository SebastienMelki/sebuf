(* NullableFacts.v — the nullable codec (internal/httpgen/nullable.go) in general:
   MarshalJSON writes a null under the key of every unset nullable field, UnmarshalJSON deletes exactly
   those nulls again; hence the round trip (C04) for every message whose codec is the nullable one, for all
   well-typed values (CodecBase.field_codec_roundtrip, entry by entry).
   Also [nodup_str], the computable "distinct names" that the statements about codecs use. *)
From Sebuf Require Import CodecCases.
From SebufProofs Require Import ListFacts ProtoJsonFacts.
From SebufProofs Require Export CodecBase.

Open Scope Z_scope.

(* the statements of all the field codecs use it: their files import this one for it *)
Fixpoint nodup_str (l : list str) : bool :=
  match l with [] => true | x :: r => negb (existsb (str_eqb x) r) && nodup_str r end.

Lemma nodup_str_iff (l : list str) : nodup_str l = true <-> NoDup l.
Proof.
  induction l as [|x r IH]; cbn [nodup_str]; [split; [constructor|reflexivity]|].
  rewrite Bool.andb_true_iff, Bool.negb_true_iff, IH, NoDup_cons_iff.
  assert (Hx : existsb (str_eqb x) r = false <-> ~ In x r).
  { rewrite <- existsb_str_eqb_In. destruct (existsb (str_eqb x) r); split; congruence. }
  rewrite Hx. reflexivity.
Qed.

Lemma nodup_jn_inj fs a b :
  nodup_str (map jn fs) = true -> In a fs -> In b fs -> jn a = jn b -> a = b.
Proof. intros H. apply NoDup_map_inj. apply nodup_str_iff. exact H. Qed.
Lemma msg_ok_nodup_jn md : msg_ok md = true -> nodup_str (map jn (m_fields md)) = true.
Proof. intros H. apply nodup_str_iff. exact (msg_ok_jn_NoDup md H). Qed.


Section Codec.
Variable E : ExtLib.
Hypothesis EL : ExtLaws E.
Variable sc : schema.

(* C04 for the nullable codec, all values: a set field is left alone by both passes (protojson never writes
   null), an unset nullable field gets a null that UnmarshalJSON deletes ([absent_deleted]) *)
Theorem nullable_roundtrip : forall tn md m j,
  str_eqb tn ts_name = false -> is_wkt_other tn = false ->
  find_message (all_messages sc) tn = Some md -> owner_of sc md = Own FtNullable ->
  nodup_str (map jn (m_fields md)) = true ->
  wt sc (KMessage tn) (FM m) = true ->
  encode E sc tn m = ROk j -> decode E sc tn j = ROk (norm sc tn m).
Proof.
  intros tn md m j Hts _ Hfm Hown _ Hwt Henc.
  rewrite (norm_owned sc tn md FtNullable m (find_lookup sc tn md Hts Hfm) Hown).
  rewrite <- (nmap_id (fun _ x => Some x) md m (fun _ _ => eq_refl)).
  apply (field_codec_roundtrip E sc FtNullable _ tn md m j eq_refl Hts Hfm Hown Hwt); [| | |exact Henc].
  - intros _ x f jx _ Hm Hw Hj. apply (slot_ok_plain E EL sc); [|  |reflexivity|exact Hw|exact Hj].
    + cbn [act_of]. unfold act_nullable. rewrite Hm. destruct (is_nullable f); reflexivity.
    + cbn [gd_of]. unfold gd_nullable. destruct (is_nullable f); [|reflexivity].
      destruct jx; try reflexivity. exfalso. exact (pj_not_null E EL sc _ _ _ Hj eq_refl).
  - intros f v _. apply absent_deleted.
  - intros es _ _ _. apply dec_of_gstep; [reflexivity|discriminate].
Qed.
End Codec.
Close Scope Z_scope.
