(* TsTypesFacts.v — C07: the proto3-JSON form of every well-typed, fully populated value of the plain
   fragment (scalars, bytes, enums, nested messages, repeated fields, maps; any depth, recursive types
   included) inhabits the TypeScript interface the generators declare for its message. *)
From Sebuf Require Import Text Json Schema Value Num TsTypes.
From SebufProofs Require Import TextFacts ListFacts.

Definition no_annot (f : field) : bool :=
  negb (f_unwrap f) &&
  match f_int64 f with Some I64Number => false | _ => true end &&
  match f_enumenc f with Some EENumber => false | _ => true end &&
  match f_nullable f with Some true => false | _ => true end &&
  match f_flatten f with Some true => false | _ => true end &&
  match f_tsfmt f with Some TFUnixSeconds | Some TFUnixMillis => false | _ => true end.

Fixpoint nodup_str (l : list str) : bool :=
  match l with [] => true | x :: r => negb (existsb (str_eqb x) r) && nodup_str r end.

Definition plain_message (sc : schema) (M : message) : bool :=
  forallb no_annot (m_fields M) &&
  forallb (fun f => negb (is_timestamp (f_kind f))) (m_fields M) &&
  match disc_oneofs M with [] => true | _ => false end &&
  nodup_str (map (fun f => json_name (f_name f)) (m_fields M)) &&
  nodup_str (map f_name (m_fields M)) &&
  (* no map value collapses to an array (unwrap in the value message) *)
  forallb (fun f => match f_kind f with
                    | KMessage tn => match find_unwrap_list sc tn with Some _ => false | None => true end
                    | _ => true end) (m_fields M).

Definition enum_plain (sc : schema) (tn : str) : bool :=
  match find_enum (all_enums sc) tn with
  | Some e => forallb (fun v => match ev_custom v with Some (_ :: _) => false | _ => true end) (e_values e)
  | None => false
  end.

Definition sval_ok (sc : schema) (k : kind) (x : sval) : bool :=
  match x, k with
  | VInt _, (KInt32 | KSint32 | KSfixed32 | KUint32 | KFixed32 | KInt64 | KSint64 | KSfixed64 | KUint64 | KFixed64) => true
  | VBool _, KBool => true
  | VStr _, KString => true
  | VBytes _, KBytes => true
  | VEnum n, KEnum tn => enum_named sc tn n && enum_plain sc tn
  | _, _ => false
  end.

Definition is_elem (v : fval) : bool := match v with FL _ | FMap _ => false | _ => true end.
Definition card_fits (c : card) (v : fval) : bool :=
  match c, v with
  | Repeated, FL _ => true
  | MapOf _, FMap _ => true
  | (Singular | Optional), (FS _ | FM _) => true
  | _, _ => false
  end.

(* well-typed and fully populated, to the same fuel discipline as pj_val: every implicit-presence field of
   every reachable message holds a value (the region outside implicit-presence-omitted) *)
Fixpoint wt (fuel : nat) (sc : schema) (k : kind) (v : fval) {struct fuel} : bool :=
  match fuel with
  | O => false
  | S f =>
      match v with
      | FS x => sval_ok sc k x
      | FM m =>
          match k with
          | KMessage tn =>
              negb (str_eqb tn timestamp_name) &&
              match find_message (all_messages sc) tn with
              | None => false
              | Some M =>
                  plain_message sc M &&
                  forallb (fun fd => is_optional fd || populated m fd) (m_fields M) &&
                  nodup_str (map fst m) &&
                  forallb (fun e => match find_field (m_fields M) (fst e) with
                                    | Some fd => card_fits (f_card fd) (snd e) && wt f sc (f_kind fd) (snd e)
                                    | None => false end) m
              end
          | _ => false
          end
      | FL l => forallb (fun x => is_elem x && wt f sc k x) l
      | FMap kv => forallb (fun e => is_elem (snd e) && wt f sc k (snd e)) kv && nodup_str (map (fun e => map_key_str (fst e)) kv)
      end
  end.

(* the TS type of a value of kind k, by the value's shape *)
Definition ety (k : kind) : tsty :=
  match k with
  | KMessage tn => YRef (last_seg tn)
  | KEnum tn => YRef (last_seg tn)
  | KString | KBytes => YString
  | KBool => YBoolean
  | KInt32 | KSint32 | KSfixed32 | KUint32 | KFixed32 | KFloat | KDouble => YNumber
  | KInt64 | KSint64 | KSfixed64 | KUint64 | KFixed64 => YString
  end.
Definition vty (k : kind) (v : fval) : tsty :=
  match v with FL _ => YArray (ety k) | FMap _ => YRecord (ety k) | _ => ety k end.

(* the declaration environment holds, for every message and enum of the schema, the declaration the
   generators emit for it (under the name references use) *)
Definition enum_ty (e : enum) : tsty :=
  match e_values e with
  | [] => YString
  | vs => union_ty (map (fun v => YLit (match ev_custom v with Some (c :: r) => c :: r | _ => ev_name v end)) vs)
  end.
Definition env_ok (sc : schema) (e : env) : Prop :=
  (forall tn M, find_message (all_messages sc) tn = Some M ->
     lookup e (last_seg tn) = Some (YObject (map (field_prop sc []) (m_fields M)))) /\
  (forall tn E, find_enum (all_enums sc) tn = Some E -> lookup e (last_seg tn) = Some (enum_ty E)).

Lemma all_ok_map {A B} (g : A -> result B) (R : A -> B -> Prop) : (forall a b, g a = Ok b -> R a b) ->
  forall l out, all_ok (map g l) = Ok out -> Forall2 R l out.
Proof.
  intros HR. induction l as [|a l IH]; intros out H; cbn [map all_ok] in H.
  - inversion H. constructor.
  - destruct (g a) as [b|w] eqn:Ea; [|discriminate].
    destruct (all_ok (map g l)) as [t|w]; [|discriminate]. inversion H; subst. constructor; [now apply HR|now apply IH].
Qed.

Lemma has_key_in kv k v : In (k, v) kv -> has_key kv k = true.
Proof.
  intros H. unfold has_key. apply existsb_exists. exists (k, v). split; [exact H|apply str_eqb_refl].
Qed.

Lemma mget_some_In : forall (m : list (str * fval)) k v, mget m k = Some v -> In (k, v) m.
Proof.
  induction m as [|[k' v'] m IH]; intros k v H; [discriminate|]. cbn in H.
  destruct (str_eqb k k') eqn:E.
  - apply str_eqb_eq in E. inversion H; subst. now left.
  - right. now apply IH.
Qed.

Lemma find_field_name : forall fs n f, find_field fs n = Some f -> f_name f = n /\ In f fs.
Proof.
  induction fs as [|g fs IH]; intros n f H; [discriminate|]. cbn in H.
  destruct (str_eqb (f_name g) n) eqn:E.
  - inversion H; subst. apply str_eqb_eq in E. split; [exact E|now left].
  - destruct (IH n f H) as [A B]. split; [exact A|now right].
Qed.

Lemma nodup_str_filter {A} (key : A -> str) : forall (l : list A) (a : A),
  nodup_str (map key l) = true -> In a l ->
  filter (fun x => str_eqb (key x) (key a)) l = [a].
Proof.
  induction l as [|x l IH]; intros a Hnd Hin; [contradiction|].
  cbn [map nodup_str] in Hnd. apply andb_true_iff in Hnd as [Hx Hnd]. apply negb_true_iff in Hx.
  cbn [filter]. destruct Hin as [->|Hin].
  - rewrite str_eqb_refl. f_equal.
    clear IH Hnd. induction l as [|y l IH]; [reflexivity|]. cbn [map existsb] in Hx.
    apply orb_false_iff in Hx as [H1 H2]. cbn [filter].
    destruct (str_eqb (key y) (key a)) eqn:E.
    + apply str_eqb_eq in E. rewrite E, str_eqb_refl in H1. discriminate.
    + now apply IH.
  - destruct (str_eqb (key x) (key a)) eqn:E.
    + apply str_eqb_eq in E. exfalso.
      assert (T : existsb (str_eqb (key x)) (map key l) = true).
      { apply existsb_exists. exists (key a). split; [now apply in_map|]. rewrite E. apply str_eqb_refl. }
      congruence.
    + now apply IH.
Qed.

Lemma no_annot_inv f : no_annot f = true ->
  f_int64 f <> Some I64Number /\ f_enumenc f <> Some EENumber /\ f_nullable f <> Some true /\ f_flatten f <> Some true.
Proof.
  unfold no_annot. intros H. repeat (apply andb_true_iff in H as [H ?]).
  repeat split; intros E; rewrite E in *; discriminate.
Qed.

(* the element type follows from the kind unless the field is a Timestamp, a 64-bit integer under
   int64_encoding = NUMBER, or an enum under enum_encoding = NUMBER *)
Lemma elem_ty_ety f :
  is_timestamp (f_kind f) = false -> (is_64 (f_kind f) = true -> f_int64 f <> Some I64Number) ->
  f_enumenc f <> Some EENumber -> elem_ty f = ety (f_kind f).
Proof.
  intros Hts Hi He. unfold elem_ty, scalar_ty, ety. destruct (f_kind f) eqn:K; try reflexivity;
    try (destruct (f_int64 f) as [[| |]|]; try reflexivity; exfalso; apply Hi; reflexivity).
  - destruct (f_enumenc f) as [[| |]|]; try reflexivity. exfalso. apply He. reflexivity.
  - rewrite Hts. reflexivity.
Qed.

Lemma elem_ty_plain f : no_annot f = true -> is_timestamp (f_kind f) = false -> elem_ty f = ety (f_kind f).
Proof.
  intros H Hts. destruct (no_annot_inv f H) as [Hi [He _]]. apply elem_ty_ety; [exact Hts|intros _; exact Hi|exact He].
Qed.

(* a map's value type is that of the synthetic value field, which carries no annotation *)
Lemma field_ty_vty sc f v :
  match f_card f with MapOf _ => True | _ => elem_ty f = ety (f_kind f) end ->
  is_timestamp (f_kind f) = false -> card_fits (f_card f) v = true ->
  match f_card f, f_kind f with MapOf _, KMessage tn => find_unwrap_list sc tn = None | _, _ => True end ->
  field_ty sc f = vty (f_kind f) v.
Proof.
  intros Hel Hts Hc Hu. unfold field_ty, vty.
  destruct (f_card f); destruct v; try discriminate Hc; try (rewrite Hel; reflexivity).
  unfold map_value_ty. f_equal.
  assert (Hv : elem_ty (value_field f) = ety (f_kind f)).
  { change (ety (f_kind f)) with (ety (f_kind (value_field f))). apply elem_ty_plain; [reflexivity|exact Hts]. }
  destruct (f_kind f) eqn:K; try exact Hv. rewrite Hts, Hu. exact Hv.
Qed.

Lemma field_ty_plain sc f v :
  no_annot f = true -> is_timestamp (f_kind f) = false -> card_fits (f_card f) v = true ->
  match f_kind f with KMessage tn => find_unwrap_list sc tn = None | _ => True end ->
  field_ty sc f = vty (f_kind f) v.
Proof.
  intros Hn Hts Hc Hu. apply field_ty_vty; [|exact Hts|exact Hc|]; destruct (f_card f); try exact I; try exact Hu;
    exact (elem_ty_plain f Hn Hts).
Qed.

(* GenerateFieldDeclaration for a field of the message itself (no prefix) *)
Lemma field_prop_eq sc f :
  field_prop sc [] f = (json_name (f_name f), match f_nullable f with
                                              | Some true => (false, YUnion [field_ty sc f; YNull])
                                              | _ => (is_optional f, field_ty sc f) end).
Proof. unfold field_prop. destruct (f_nullable f) as [[|]|]; reflexivity. Qed.

Lemma p_name_prop sc f : p_name (field_prop sc [] f) = json_name (f_name f).
Proof. rewrite field_prop_eq. reflexivity. Qed.

Lemma field_prop_plain sc f : f_nullable f <> Some true ->
  field_prop sc [] f = (json_name (f_name f), (is_optional f, field_ty sc f)).
Proof. intros H. rewrite field_prop_eq. destruct (f_nullable f) as [[|]|]; try reflexivity. contradiction H. reflexivity. Qed.

Lemma filter_prop sc fs f :
  nodup_str (map (fun f => json_name (f_name f)) fs) = true -> In f fs ->
  filter (fun p => str_eqb (p_name p) (json_name (f_name f))) (map (field_prop sc []) fs) = [field_prop sc [] f].
Proof.
  intros Hnd Hin. rewrite filter_map_comm.
  rewrite (filter_ext _ (fun x => str_eqb (json_name (f_name x)) (json_name (f_name f))))
    by (intros x; rewrite p_name_prop; reflexivity).
  rewrite (nodup_str_filter (fun x => json_name (f_name x)) fs f Hnd Hin). reflexivity.
Qed.

Lemma plain_message_inv sc M : plain_message sc M = true ->
  (forall f, In f (m_fields M) -> no_annot f = true /\ is_timestamp (f_kind f) = false /\
     match f_kind f with KMessage tn => find_unwrap_list sc tn = None | _ => True end) /\
  disc_oneofs M = [] /\ nodup_str (map (fun f => json_name (f_name f)) (m_fields M)) = true.
Proof.
  unfold plain_message. intros H. repeat (apply andb_true_iff in H as [H ?]).
  rewrite forallb_forall in *. repeat split; try assumption; try (now apply H).
  - apply negb_true_iff. now apply H4.
  - specialize (H0 f H5). destruct (f_kind f); try exact I. destruct (find_unwrap_list sc tn); [discriminate|reflexivity].
  - destruct (disc_oneofs M); [reflexivity|discriminate].
Qed.

(* one object shape ps against the entries kv, as [inhabits] tests it one level down: every required property is
   present, every entry is declared and has the type of each declaration of its key *)
Definition shape_okF (fu : nat) (e : env) (ps : list prop) (kv : list (str * json)) : bool :=
  forallb (fun p => p_opt p || has_key kv (p_name p)) ps &&
  forallb (fun kvp => match filter (fun p => str_eqb (p_name p) (fst kvp)) ps with
                      | [] => false
                      | decls => forallb (fun p => inhabits fu e (p_ty p) (snd kvp)) decls
                      end) kv.

(* a reference, union or intersection is read through the object shapes it denotes, when it denotes any *)
Lemma inhabits_S fu e t j :
  match t with YRef _ | YUnion _ | YInter _ => True | _ => False end ->
  inhabits (S fu) e t j =
  match shapes (S fu) e t with
  | Some shs => match j with JObj kv => existsb (fun ps => shape_okF fu e ps kv) shs | _ => false end
  | None => match t with
            | YRef n => match lookup e n with Some d => inhabits fu e d j | None => false end
            | YUnion l => existsb (fun m => inhabits fu e m j) l
            | YInter l => forallb (fun m => inhabits fu e m j) l
            | _ => false
            end
  end.
Proof. destruct t; intros []; reflexivity. Qed.

Lemma inhabits_array fu e el l : inhabits (S fu) e (YArray el) (JArr l) = forallb (inhabits fu e el) l.
Proof. reflexivity. Qed.
Lemma inhabits_record fu e el kv :
  inhabits (S fu) e (YRecord el) (JObj kv) = forallb (fun kvp => inhabits fu e el (snd kvp)) kv.
Proof. reflexivity. Qed.

Lemma shapes_ref fu e n :
  shapes (S fu) e (YRef n) = match lookup e n with Some d => shapes fu e d | None => None end.
Proof. reflexivity. Qed.
Lemma shapes_lit fu e x : shapes fu e (YLit x) = None.
Proof. destruct fu; reflexivity. Qed.
Lemma shapes_null fu e : shapes fu e YNull = None.
Proof. destruct fu; reflexivity. Qed.
Lemma shapes_union_lit_none fu e x l : shapes fu e (YUnion (YLit x :: l)) = None.
Proof.
  destruct fu as [|fu]; [reflexivity|]. cbn [shapes fold_right]. destruct fu; reflexivity.
Qed.

Lemma inhabits_ref_obj fu e n ps kv : lookup e n = Some (YObject ps) ->
  inhabits (S (S fu)) e (YRef n) (JObj kv) = shape_okF (S fu) e ps kv.
Proof. intros H. rewrite inhabits_S by exact I. rewrite shapes_ref, H. cbn [shapes existsb]. apply orb_false_r. Qed.

Lemma inhabits_union_null fu e t j :
  inhabits (S fu) e (YUnion [t; YNull]) j = inhabits fu e t j || (inhabits fu e YNull j || false).
Proof.
  rewrite inhabits_S by exact I.
  assert (Hs : shapes (S fu) e (YUnion [t; YNull]) = None).
  { cbn [shapes fold_right]. rewrite shapes_null. destruct (shapes fu e t); reflexivity. }
  rewrite Hs. reflexivity.
Qed.

Lemma object_inhabits sc e fu fs kv :
  nodup_str (map (fun f => json_name (f_name f)) fs) = true ->
  (forall f, In f fs -> p_opt (field_prop sc [] f) = false -> has_key kv (json_name (f_name f)) = true) ->
  (forall k v, In (k, v) kv ->
     exists f, In f fs /\ k = json_name (f_name f) /\ inhabits fu e (p_ty (field_prop sc [] f)) v = true) ->
  shape_okF fu e (map (field_prop sc []) fs) kv = true.
Proof.
  intros Hnd Hreq Hval. unfold shape_okF. apply andb_true_iff. split; apply forallb_forall.
  - intros p Hp. apply in_map_iff in Hp as [f [<- Hf]].
    destruct (p_opt (field_prop sc [] f)) eqn:Ho; [reflexivity|]. rewrite p_name_prop. exact (Hreq f Hf Ho).
  - intros [k v] Hin. destruct (Hval k v Hin) as [f [Hf [-> Hv]]]. cbn [fst snd].
    rewrite (filter_prop sc fs f Hnd Hf). cbn [forallb]. rewrite Hv. reflexivity.
Qed.

Lemma enum_lit_inhabits : forall (vs : list enum_value) (n : Z) (fu : nat) (e : env),
  forallb (fun v => match ev_custom v with Some (_ :: _) => false | _ => true end) vs = true ->
  forall v, find (fun v => Z.eqb (ev_number v) n) vs = Some v ->
  existsb (fun t => inhabits (S fu) e t (JStr (ev_name v)))
          (map (fun v => YLit (match ev_custom v with Some (c :: r) => c :: r | _ => ev_name v end)) vs) = true.
Proof.
  induction vs as [|x vs IH]; intros n fu e Hp v Hf; [discriminate|].
  cbn [forallb] in Hp. apply andb_true_iff in Hp as [Hx Hp].
  cbn [find] in Hf. cbn [map existsb].
  destruct (Z.eqb (ev_number x) n).
  - inversion Hf; subst. destruct (ev_custom v) as [[|c r]|]; try discriminate; cbn; now rewrite str_eqb_refl.
  - rewrite (IH n fu e Hp v Hf). apply orb_true_r.
Qed.

(* what a protojson encoder writes for a scalar of its kind: an enum as the name of its value, anything else as a
   string, number or boolean according to the kind *)
Definition base_json (k : kind) (j : json) : bool :=
  match ety k, j with YString, JStr _ | YNumber, JNum _ | YBoolean, JBool _ => true | _, _ => false end.
Definition scalar_form (sc : schema) (k : kind) (x : sval) (j : json) : Prop :=
  match k, x with KEnum tn, VEnum n => j = enum_json sc tn n | _, _ => base_json k j = true end.

Lemma pj_scalar_form sc k x j : sval_ok sc k x = true -> pj_scalar sc k x = Ok j -> scalar_form sc k x j.
Proof. intros Hok H. destruct x; destruct k; try discriminate Hok; injection H as <-; reflexivity. Qed.

(* the JSON a renderer writes for a value: a scalar in the form of its kind (when it is one of the kind), a message as
   an object with one entry per entry of the value under the field's JSON name, lists and maps elementwise.  Both
   protojson models (TsTypes.pj_val, ProtoJson.pj_fval) render in this sense; what they write for a Timestamp is
   left open *)
Inductive renders (sc : schema) : kind -> fval -> json -> Prop :=
| RScalar k x j : (sval_ok sc k x = true -> scalar_form sc k x j) -> renders sc k (FS x) j
| RTs m j : renders sc (KMessage timestamp_name) (FM m) j
| RMsg tn M m kv : find_message (all_messages sc) tn = Some M ->
    Forall2 (fun en kj => exists fd, find_field (m_fields M) (fst en) = Some fd /\ fst kj = json_name (f_name fd) /\
                                     renders sc (f_kind fd) (snd en) (snd kj)) m kv ->
    renders sc (KMessage tn) (FM m) (JObj kv)
| RList k l js : Forall2 (renders sc k) l js -> renders sc k (FL l) (JArr js)
| RMap k kvs o : Forall2 (fun en kj => renders sc k (snd en) (snd kj)) kvs o -> renders sc k (FMap kvs) (JObj o).

Lemma pj_val_unfold f sc k v :
  pj_val (S f) sc k v =
  match v with
  | FS x => pj_scalar sc k x
  | FM m =>
      match k with
      | KMessage tn =>
          if str_eqb tn timestamp_name then Unmodelled (s "Timestamp value (RFC 3339 text not modelled)") else
          match find_message (all_messages sc) tn with
          | None => Unmodelled (s "message outside the schema")
          | Some md =>
              match all_ok (map (fun e => match find_field (m_fields md) (fst e) with
                                          | Some fd => match pj_val f sc (f_kind fd) (snd e) with
                                                       | Ok j => Ok (json_name (f_name fd), j)
                                                       | Unmodelled w => Unmodelled w end
                                          | None => Unmodelled (s "value names an undeclared field") end) m) with
              | Ok kv => Ok (JObj kv)
              | Unmodelled w => Unmodelled w
              end
          end
      | _ => Unmodelled (s "message value in a scalar field")
      end
  | FL l => match all_ok (map (pj_val f sc k) l) with Ok js => Ok (JArr js) | Unmodelled w => Unmodelled w end
  | FMap kv =>
      match all_ok (map (fun e => match pj_val f sc k (snd e) with
                                  | Ok j => Ok (map_key_str (fst e), j) | Unmodelled w => Unmodelled w end) kv) with
      | Ok o => Ok (JObj o)
      | Unmodelled w => Unmodelled w
      end
  end.
Proof. reflexivity. Qed.

Lemma pj_val_renders sc : forall f k v j, pj_val f sc k v = Ok j -> renders sc k v j.
Proof.
  induction f as [|f IH]; intros k v j H; [discriminate|]. rewrite pj_val_unfold in H. destruct v as [x|m|l|kvs].
  - apply RScalar. intros Hok. exact (pj_scalar_form sc k x j Hok H).
  - destruct k; try discriminate. destruct (str_eqb tn timestamp_name); [discriminate|].
    destruct (find_message (all_messages sc) tn) as [M|] eqn:HM; [|discriminate].
    destruct (all_ok _) as [kv|] eqn:Hall in H; [|discriminate]. inversion H; subst j.
    apply (RMsg sc tn M m kv HM). revert Hall. apply all_ok_map.
    intros en kj Hac. destruct (find_field (m_fields M) (fst en)) as [fd|] eqn:Hff; [|discriminate].
    destruct (pj_val f sc (f_kind fd) (snd en)) as [j0|] eqn:Hp; [|discriminate]. inversion Hac; subst kj.
    exists fd. repeat split. apply IH. exact Hp.
  - destruct (all_ok _) as [js|] eqn:Hall in H; [|discriminate]. inversion H; subst j.
    apply RList. revert Hall. apply all_ok_map. exact (IH k).
  - destruct (all_ok _) as [o|] eqn:Hall in H; [|discriminate]. inversion H; subst j.
    apply RMap. revert Hall. apply all_ok_map.
    intros en kj Hac. destruct (pj_val f sc k (snd en)) as [j0|] eqn:Hp; [|discriminate]. inversion Hac; subst kj.
    apply IH. exact Hp.
Qed.

Lemma vty_elem k v : is_elem v = true -> vty k v = ety k.
Proof. destruct v; try discriminate; reflexivity. Qed.

Section Plain.
Variable sc : schema.
Variable e : env.
(* the environment declares every plain message and every enum as the generators do *)
Hypothesis Hmsg : forall tn M, find_message (all_messages sc) tn = Some M -> plain_message sc M = true ->
  lookup e (last_seg tn) = Some (YObject (map (field_prop sc []) (m_fields M))).
Hypothesis Henum : forall tn En, find_enum (all_enums sc) tn = Some En -> lookup e (last_seg tn) = Some (enum_ty En).

Lemma base_inhabits fu k j : base_json k j = true -> inhabits (S fu) e (ety k) j = true.
Proof. unfold base_json. destruct (ety k); try discriminate; intros H; exact H. Qed.

(* the reference resolves to a literal or a union of literals, which is not object-like *)
Lemma enum_ref_inhabits tn n fu : enum_named sc tn n = true -> enum_plain sc tn = true ->
  inhabits (S (S (S fu))) e (YRef (last_seg tn)) (enum_json sc tn n) = true.
Proof.
  unfold enum_named, enum_plain, enum_json. intros Hnamed Hplain.
  destruct (find_enum (all_enums sc) tn) as [En|] eqn:HE; [|discriminate].
  destruct (find (fun v => Z.eqb (ev_number v) n) (e_values En)) as [v|] eqn:Hv.
  2: { exfalso. apply existsb_exists in Hnamed as [w [Hw1 Hw2]].
       pose proof (find_none _ _ Hv w Hw1) as F. cbv beta in F. congruence. }
  pose proof (enum_lit_inhabits (e_values En) n fu e Hplain v Hv) as Hall.
  rewrite inhabits_S by exact I. rewrite shapes_ref, (Henum tn En HE). unfold enum_ty in *.
  destruct (e_values En) as [|v0 [|v1 vs]]; [discriminate| |]; cbn [map union_ty] in *.
  - cbn [existsb] in Hall. rewrite orb_false_r in Hall. rewrite shapes_lit. exact Hall.
  - rewrite shapes_union_lit_none, inhabits_S by exact I. rewrite shapes_union_lit_none. exact Hall.
Qed.

Lemma scalar_inhabits k x j fu :
  sval_ok sc k x = true -> scalar_form sc k x j -> inhabits (S (S (S fu))) e (ety k) j = true.
Proof.
  intros Hok Hj. destruct k; try exact (base_inhabits _ _ j Hj).
  destruct x; try discriminate Hok. cbn [scalar_form] in Hj. subst j.
  apply andb_true_iff in Hok as [Hnamed Hplain]. now apply enum_ref_inhabits.
Qed.

(* a rendering of a well-typed, fully populated value of the plain fragment inhabits the TS type of its position;
   [d] is fuel to spare *)
Theorem renders_inhabits : forall f d k v j,
  wt f sc k v = true -> renders sc k v j -> inhabits (S (S (f + d))) e (vty k v) j = true.
Proof.
  induction f as [|f IH]; intros d k v j Hwt Hr; [discriminate|]. cbn [Nat.add].
  destruct Hr as [k x j Hs|m j|tn M m kv HM Hall|k l js Hall|k kvs o Hall]; cbn [wt] in Hwt; cbn [vty ety].
  - exact (scalar_inhabits k x j (f + d) Hwt (Hs Hwt)).
  - rewrite str_eqb_refl in Hwt. discriminate Hwt.
  - rewrite HM in Hwt. apply andb_true_iff in Hwt as [_ Hwt].
    apply andb_true_iff in Hwt as [Hwt Hent]. apply andb_true_iff in Hwt as [Hwt _].
    apply andb_true_iff in Hwt as [Hplain Hpop]. rewrite forallb_forall in Hpop, Hent.
    rewrite (inhabits_ref_obj (S (f + d)) e (last_seg tn) _ kv (Hmsg tn M HM Hplain)).
    destruct (plain_message_inv sc M Hplain) as [Hfs [_ Hjn]].
    assert (Hpp : forall fd, In fd (m_fields M) -> field_prop sc [] fd = (json_name (f_name fd), (is_optional fd, field_ty sc fd))).
    { intros fd Hfd. apply field_prop_plain. destruct (Hfs fd Hfd) as [Hn _]. apply (no_annot_inv fd Hn). }
    apply object_inhabits; [exact Hjn| |].
    + intros fd Hfd Ho. rewrite (Hpp fd Hfd) in Ho. cbn in Ho. specialize (Hpop fd Hfd). rewrite Ho in Hpop.
      unfold populated in Hpop. destruct (mget m (f_name fd)) as [x|] eqn:Hg; [|discriminate]. apply mget_some_In in Hg.
      destruct (Forall2_in_l _ _ _ _ Hall Hg) as [[k0 v0] [Hin [fd' [Hff [Hk _]]]]]. cbn [fst] in Hff, Hk.
      apply find_field_name in Hff as [Hn _]. rewrite <- Hn, <- Hk. exact (has_key_in kv k0 v0 Hin).
    + intros k0 v0 Hin. destruct (Forall2_in_r _ _ _ _ Hall Hin) as [[name x] [Hinm [fd [Hff [Hk Hr]]]]].
      cbn [fst snd] in Hff, Hk, Hr. specialize (Hent _ Hinm). cbn [fst snd] in Hent. rewrite Hff in Hent.
      apply andb_true_iff in Hent as [Hcard Hwt0]. apply find_field_name in Hff as [_ Hfd].
      exists fd. split; [exact Hfd|]. split; [exact Hk|]. rewrite (Hpp fd Hfd). cbn [p_ty snd].
      destruct (Hfs fd Hfd) as [Hn [Hts Hu]]. rewrite (field_ty_plain sc fd x Hn Hts Hcard Hu). exact (IH d _ _ _ Hwt0 Hr).
  - rewrite inhabits_array. rewrite forallb_forall in Hwt. apply forallb_forall. intros c Hc.
    destruct (Forall2_in_r _ _ _ _ Hall Hc) as [a [Ha Hac]]. specialize (Hwt a Ha).
    apply andb_true_iff in Hwt as [He Hw]. rewrite <- (vty_elem k a He). exact (IH d k a c Hw Hac).
  - rewrite inhabits_record. apply andb_true_iff in Hwt as [Hwt _]. rewrite forallb_forall in Hwt.
    apply forallb_forall. intros c Hc.
    destruct (Forall2_in_r _ _ _ _ Hall Hc) as [a [Ha Hac]]. specialize (Hwt a Ha).
    apply andb_true_iff in Hwt as [He Hw]. rewrite <- (vty_elem k (snd a) He). exact (IH d k _ _ Hw Hac).
Qed.
End Plain.

Theorem val_inhabits sc e : env_ok sc e -> forall f k v j,
  wt f sc k v = true -> pj_val f sc k v = Ok j -> inhabits (S (S f)) e (vty k v) j = true.
Proof.
  intros [Hm He] f k v j Hwt Hpj. rewrite (plus_n_O f).
  exact (renders_inhabits sc e (fun tn M H _ => Hm tn M H) He f 0 k v j Hwt (pj_val_renders sc f k v j Hpj)).
Qed.

Definition pj_fuel : nat := 32.

(* every message and enum of the schema under its short name, with the declaration the generators emit *)
Definition declared_env (sc : schema) : env :=
  map (fun M => (last_seg (m_name M), YObject (map (field_prop sc []) (m_fields M)))) (all_messages sc) ++
  map (fun E => (last_seg (e_name E), enum_ty E)) (all_enums sc).

Lemma lookup_unique : forall (l : env) k t, nodup_str (map fst l) = true -> In (k, t) l -> lookup l k = Some t.
Proof.
  induction l as [|[k' t'] l IH]; intros k t Hnd Hin; [contradiction|].
  cbn [map fst nodup_str] in Hnd. apply andb_true_iff in Hnd as [Hk Hnd]. apply negb_true_iff in Hk.
  cbn [lookup]. destruct Hin as [Heq|Hin].
  - inversion Heq; subst. now rewrite str_eqb_refl.
  - destruct (str_eqb k' k) eqn:E.
    + apply str_eqb_eq in E. subst. exfalso.
      assert (T : existsb (str_eqb k) (map fst l) = true).
      { apply existsb_exists. exists k. split; [|apply str_eqb_refl]. change k with (fst (k, t)). now apply in_map. }
      congruence.
    + now apply IH.
Qed.

Lemma find_message_in : forall ms tn M, find_message ms tn = Some M -> In M ms /\ m_name M = tn.
Proof.
  induction ms as [|x ms IH]; intros tn M H; [discriminate|]. cbn in H.
  destruct (str_eqb (m_name x) tn) eqn:E.
  - inversion H; subst. apply str_eqb_eq in E. split; [now left|exact E].
  - destruct (IH tn M H) as [A B]. split; [now right|exact B].
Qed.
Lemma find_enum_in : forall es tn E, find_enum es tn = Some E -> In E es /\ e_name E = tn.
Proof.
  induction es as [|x es IH]; intros tn E H; [discriminate|]. cbn in H.
  destruct (str_eqb (e_name x) tn) eqn:Eq.
  - inversion H; subst. apply str_eqb_eq in Eq. split; [now left|exact Eq].
  - destruct (IH tn E H) as [A B]. split; [now right|exact B].
Qed.

(* when no two messages/enums of the schema share a short name *)
Theorem declared_env_ok sc : nodup_str (map fst (declared_env sc)) = true -> env_ok sc (declared_env sc).
Proof.
  intros Hnd. split.
  - intros tn M H. apply find_message_in in H as [Hin <-]. apply lookup_unique; [exact Hnd|].
    unfold declared_env. apply in_or_app. left.
    apply in_map_iff. exists M. split; [reflexivity|exact Hin].
  - intros tn E H. apply find_enum_in in H as [Hin <-]. apply lookup_unique; [exact Hnd|].
    unfold declared_env. apply in_or_app. right.
    apply in_map_iff. exists E. split; [reflexivity|exact Hin].
Qed.
