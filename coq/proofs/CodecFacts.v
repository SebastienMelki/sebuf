(* CodecFacts.v — C04: the round trip for message types without a codec of their own (protojson both ways), one
   concrete refutation per defect class of CodecCases.defects_C04, and witnesses that the defect-free region is
   not empty. *)
From Sebuf Require Import CodecCases.
From SebufProofs Require Import ProtoJsonFacts CodecExamples.

Open Scope Z_scope.

Lemma norm_not_owned sc tn m : owns sc tn = false -> norm sc tn m = m.
Proof.
  unfold owns, norm. destruct (lookup_message sc tn) as [md|]; [|reflexivity].
  destruct (owner_of sc md) as [|ft|]; try discriminate; reflexivity.
Qed.

Theorem C04_roundtrip_plain : forall E, ExtLaws E -> forall sc tn m j,
  owns sc tn = false -> wt sc (KMessage tn) (FM m) = true ->
  encode E sc tn m = ROk j -> decode E sc tn j = ROk (norm sc tn m).
Proof.
  intros E EL sc tn m j Hown Hwt Henc.
  unfold encode, decode in *. rewrite Hown in *. rewrite (norm_not_owned sc tn m Hown).
  eapply pj_roundtrip; eauto.
Qed.

(* the round trip as a boolean, for the witnesses *)
Definition rt_holds (E : ExtLib) (sc : schema) (tn : str) (m : mval) : bool :=
  match encode E sc tn m with
  | ROk j => match decode E sc tn j with
             | ROk m' => json_eqb (json_of_mval m') (json_of_mval (norm sc tn m))
             | _ => false
             end
  | _ => false
  end.

Definition refuted4 (d : c04_defect) (tn : str) (m : mval) : Prop :=
  defects_C04 xs tn m = [d] /\
  exists j, encode Ex xs tn m = ROk j /\ decode Ex xs tn j <> ROk (norm xs tn m).

Ltac refute4 := split; [vm_compute; reflexivity | eexists; split; [vm_compute; reflexivity | vm_compute; discriminate]].

(* {"id":"1","street":"s"} decodes to id:"1" — the flattened child is lost *)
Theorem C04_refuted_flatten_reset :
  refuted4 D4FlattenReset (q "Person") [(s "id", vstr "1"); (s "home", FM [(s "street", vstr "s")])].
Proof. refute4. Qed.

(* the encoder writes "body_text", the decoder looks for "bodyText": unknown field *)
Theorem C04_refuted_flatten_child_keys :
  defects_C04 xs (q "Post") [(s "id", vstr "1"); (s "detail", FM [(s "body_text", vstr "b")])] = [D4FlattenReset; D4FlattenChildKeys] /\
  exists j, encode Ex xs (q "Post") [(s "id", vstr "1"); (s "detail", FM [(s "body_text", vstr "b")])] = ROk j /\
            exists e, decode Ex xs (q "Post") j = RErr e.
Proof. split; [vm_compute; reflexivity|]. eexists. split; [vm_compute; reflexivity|]. eexists. vm_compute. reflexivity. Qed.

Theorem C04_refuted_flat_oneof_child :
  refuted4 D4FlatOneofChild (q "FlatEvent") [(s "eid", vstr "e"); (s "wide", FM [(s "alt_text", vstr "a")])].
Proof. refute4. Qed.

Theorem C04_refuted_flat_oneof_remarshal :
  refuted4 D4FlatOneofRemarshal (q "FlatEvent") [(s "times", FM [(s "secs", tsv 5 0)])].
Proof. refute4. Qed.

Theorem C04_refuted_oneof_variant_reflect :
  refuted4 D4OneofVariantReflect (q "Event") [(s "image", FM [(s "size", vint 7)])].
Proof. refute4. Qed.

(* NaN beside an unwrap map: json.Marshal fails, the message cannot be encoded at all *)
Theorem C04_refuted_unwrap_sibling_nonfinite :
  defects_C04 xs (q "Series") [(s "ratio", FS (VFloat 9221120237041090561))] = [D4UnwrapSiblingNonFinite] /\
  exists e, encode Ex xs (q "Series") [(s "ratio", FS (VFloat 9221120237041090561))] = RErr e.
Proof. split; [vm_compute; reflexivity|]. eexists. vm_compute. reflexivity. Qed.

Theorem C04_refuted_unwrap_sibling_negzero :
  refuted4 D4UnwrapSiblingNegZero (q "Series") [(s "ratio", FS (VFloat 9223372036854775808))].
Proof. refute4. Qed.

(* an undefined enum number beside an unwrap map: written as "99", rejected on the way back *)
Theorem C04_refuted_enum_codec_unknown :
  defects_C04 xs (q "EnumSeries") [(s "st", FS (VEnum 99))] = [D4EnumCodecUnknown] /\
  exists j, encode Ex xs (q "EnumSeries") [(s "st", FS (VEnum 99))] = ROk j /\
            exists e, decode Ex xs (q "EnumSeries") j = RErr e.
Proof. split; [vm_compute; reflexivity|]. eexists. split; [vm_compute; reflexivity|]. eexists. vm_compute. reflexivity. Qed.

(* contract form of an annotated child below the top level: {"t":{"secs":5}} is rejected *)
Theorem C04_canonical_in_refuted :
  exists tn m j, to_json Ex xs tn m = ROk j /\ defects_C05 xs tn m <> [] /\ exists e, decode Ex xs tn j = RErr e.
Proof.
  exists (q "TimesHolder"), [(s "t", FM [(s "secs", tsv 5 0)])]. eexists.
  split; [vm_compute; reflexivity|]. split; [vm_compute; discriminate|]. eexists. vm_compute. reflexivity.
Qed.

(* non-vacuity: codec-owning messages on which no defect class fires and the round trip holds *)
Example C04_nonvacuous_int64 :
  let m := [(s "big", vint 9007199254740993); (s "name", vstr "n")] in
  owns xs (q "Nums") = true /\ defects_C04 xs (q "Nums") m = [] /\ rt_holds Ex xs (q "Nums") m = true.
Proof. vm_compute. auto. Qed.
Example C04_nonvacuous_ts_lossy :
  let m := [(s "secs", tsv 5 123456789); (s "day", tsv 90000 1); (s "id", vstr "x")] in
  defects_C04 xs (q "Times") m = [] /\ rt_holds Ex xs (q "Times") m = true /\
  norm xs (q "Times") m = [(s "secs", tsv 5 0); (s "day", tsv 86400 0); (s "id", vstr "x")].
Proof. vm_compute. auto. Qed.
Example C04_nonvacuous_plain :
  let m := [(s "id", vstr "i"); (s "big_num", vint (-5)); (s "tags", FL [vstr "a"; vstr "b"]);
            (s "by_key", FMap [(VStr (s "k"), FM [(s "a", vstr "x"); (s "n", vint 3)])]);
            (s "leaf", FM []); (s "at", tsv 1700000000 500000000); (s "raw", FS (VBytes [ch 251; ch 255]));
            (s "ratio", FS (VFloat 4609434218613702656)); (s "opt_n", vint 0)] in
  wt xs (KMessage (q "Plain")) (FM m) = true /\ owns xs (q "Plain") = false /\ rt_holds Ex xs (q "Plain") m = true.
Proof. vm_compute. auto. Qed.
Example C04_nonvacuous_unwrap :
  let m := [(s "by_sym", FMap [(VStr (s "A"), FM [(s "bars", FL [FM [(s "a", vstr "x")]; FM []])])]); (s "total_count", vint 4)] in
  defects_C04 xs (q "Series") m = [] /\ rt_holds Ex xs (q "Series") m = true.
Proof. vm_compute. auto. Qed.
Close Scope Z_scope.
