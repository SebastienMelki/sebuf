(* UnwrapRootFacts.v — the root-unwrap codec (internal/httpgen/unwrap.go:783-982) in general:
   a message whose only field carries (sebuf.http.unwrap) is written as the bare array / object of that
   field and read back from it.  Round trip (C04) for every shape the generator accepts:
     root list of messages, root map<string, message>, root map<string, Wrapper> whose wrapper has a
     repeated unwrap field (the "combined" form: only the unwrap field of a wrapper survives, [norm]),
     root list / map of scalars (these go through encoding/json: NaN / Inf make MarshalJSON fail, a nil
     slice or map is written as null and null is read back as "nothing set").
   The only schema side condition concerns enums that own a MarshalJSON (enum_value annotations). *)
From Sebuf Require Import CodecCases.
From SebufProofs Require Import TextFacts ListFacts CodecTextFacts ProtoJsonFacts CodecBase EmptyFacts GoJsonFacts.
From Coq Require Import Lia ZArith.

Open Scope Z_scope.

Lemma map_id_ext {A} (g : A -> A) (l : list A) : (forall a, In a l -> g a = a) -> map g l = l.
Proof.
  induction l as [|a r IH]; intros H; [reflexivity|]. cbn [map].
  rewrite (H a (or_introl eq_refl)), IH; [reflexivity|]. intros b Hb. apply H. right. exact Hb.
Qed.

Lemma owner_root_unwrap sc md : owner_of sc md = Own FtUnwrapRoot -> is_root_unwrap md = true.
Proof. exact (owner_test sc md FtUnwrapRoot). Qed.

Lemma root_unwrap_fields md : is_root_unwrap md = true ->
  exists f, m_fields md = [f] /\ f_unwrap f = true /\ (is_repeated f || is_map f) = true.
Proof.
  unfold is_root_unwrap, unwrap_field, unwrap_fields. intros H.
  destruct (m_fields md) as [|f [|g r]] eqn:Ef.
  - discriminate H.
  - exists f. split; [reflexivity|]. cbn [filter] in H. destruct (f_unwrap f); [|discriminate H].
    split; [reflexivity|]. destruct (is_repeated f || is_map f); [reflexivity|discriminate H].
  - destruct (filter (fun f0 => f_unwrap f0) (f :: g :: r)) as [|u [|u' t]]; try discriminate H;
      destruct (is_repeated u || is_map u); discriminate H.
Qed.

Lemma wt_root_single sc tn md f m :
  str_eqb tn ts_name = false -> find_message (all_messages sc) tn = Some md -> m_fields md = [f] ->
  wt sc (KMessage tn) (FM m) = true ->
  msg_ok md = true /\ (m = [] \/ exists x, m = [(f_name f, x)] /\ wt_entry sc f x = true).
Proof.
  intros Hts Hfm Hf Hwt.
  destruct (wt_message sc tn m Hts Hwt) as [_ [md' [Hfm' [_ [Hok [Hs Hwf]]]]]].
  assert (md' = md) by congruence. subst md'. split; [exact Hok|].
  destruct m as [|[n1 x1] r]; [left; reflexivity|right].
  cbn [wt_fields] in Hwf. rewrite Hf in Hwf. cbn [find_field] in Hwf.
  destruct (str_eqb (f_name f) n1) eqn:E1; [|discriminate].
  apply str_eqb_eq in E1. subst n1.
  apply andb_prop in Hwf. destruct Hwf as [Hw1 Hwr].
  exists x1. split; [|exact Hw1]. f_equal.
  destruct r as [|[n2 x2] r2]; [reflexivity|exfalso].
  (* a second entry would carry the same field number *)
  cbn [wt_fields] in Hwr. rewrite Hf in Hwr. cbn [find_field] in Hwr.
  destruct (str_eqb (f_name f) n2) eqn:E2; [|discriminate].
  apply str_eqb_eq in E2. subst n2.
  cbn [map fst sorted_Z lt_all_Z] in Hs. apply andb_prop in Hs. destruct Hs as [Hs _].
  apply andb_prop in Hs. destruct Hs as [Hs _]. apply Z.ltb_lt in Hs. lia.
Qed.

Lemma unwrap_field_in md uf : unwrap_field md = Some uf -> In uf (m_fields md).
Proof.
  unfold unwrap_field, unwrap_fields. intros H.
  destruct (filter (fun f => f_unwrap f) (m_fields md)) as [|f [|g r]] eqn:Ef; try discriminate H.
  destruct (is_repeated f || is_map f); [|discriminate H]. inversion H; subst f.
  assert (Hin : In uf (filter (fun f => f_unwrap f) (m_fields md))) by (rewrite Ef; left; reflexivity).
  apply filter_In in Hin. apply Hin.
Qed.

Lemma value_unwrap_inv sc f uf : value_unwrap sc f = Some uf ->
  is_map f = true /\
  exists vtn vmd, f_kind f = KMessage vtn /\ str_eqb vtn ts_name = false /\
                  find_message (all_messages sc) vtn = Some vmd /\ unwrap_field vmd = Some uf.
Proof.
  unfold value_unwrap. destruct (is_map f); [|discriminate].
  destruct (f_kind f) as [| | | | | | | | | | | | | | |etn|vtn]; try discriminate.
  unfold lookup_message. destruct (str_eqb vtn ts_name) eqn:Ets.
  - intros H. vm_compute in H. discriminate H.
  - destruct (find_message (all_messages sc) vtn) as [vmd|] eqn:Efm; [|discriminate].
    intros H. split; [reflexivity|]. exists vtn, vmd. repeat split; assumption.
Qed.

Lemma value_unwrap_nonmap sc f : is_map f = false -> value_unwrap sc f = None.
Proof. unfold value_unwrap. intros H. rewrite H. reflexivity. Qed.
Lemma value_unwrap_repeated sc f : f_card f = Repeated -> value_unwrap sc f = None.
Proof. intros H. apply value_unwrap_nonmap. unfold is_map. rewrite H. reflexivity. Qed.
Lemma value_unwrap_scalar sc f : is_msg_kind (f_kind f) = false -> value_unwrap sc f = None.
Proof.
  intros H. unfold value_unwrap. destruct (is_map f); [|reflexivity].
  destruct (f_kind f); try reflexivity. discriminate H.
Qed.

Lemma sw_value_fst uf kv : map fst (map (sw_value uf) kv) = map fst kv.
Proof. rewrite map_map. apply map_ext. intros p. unfold sw_value. destruct (snd p); reflexivity. Qed.

(* what UnmarshalJSON rebuilds for a field: the wrappers of an unwrap map keep their unwrap field only *)
Definition strip (sc : schema) (f : field) (v : fval) : fval :=
  match value_unwrap sc f, v with
  | Some uf, FMap kv => FMap (map (sw_value uf) kv)
  | _, _ => v
  end.

Lemma sw_entry_strip sc md name f v :
  find_field (m_fields md) name = Some f -> sw_entry sc md (name, v) = (name, strip sc f v).
Proof.
  intros Hf. unfold sw_entry, strip. cbn [fst snd]. rewrite Hf.
  destruct (value_unwrap sc f); [destruct v|]; reflexivity.
Qed.

Lemma populated_strip sc f v : wt_entry sc f v = true -> populated f (strip sc f v) = true.
Proof.
  intros H. destruct (wt_entry_inv sc f v H) as [Hp _]. unfold strip.
  destruct (value_unwrap sc f); [|exact Hp]. destruct v as [sx|cm|l|[|e kv]]; exact Hp.
Qed.

Lemma assemble_one f v : assemble [(f, v)] = if populated f v then [(f_name f, v)] else [].
Proof. unfold assemble. cbn [fold_right fst snd]. destruct (populated f v); reflexivity. Qed.

Lemma filter_name (wm : mval) name : NoDup (map fst wm) ->
  filter (fun we => str_eqb (fst we) name) wm = match mget wm name with Some y => [(name, y)] | None => [] end.
Proof.
  induction wm as [|[k v] r IH]; intros Hnd; [reflexivity|].
  cbn [map fst] in Hnd. inversion Hnd as [|? ? Hnotin Hnd']; subst.
  cbn [filter mget fst]. rewrite (str_eqb_sym name k).
  destruct (str_eqb k name) eqn:Ek.
  - apply str_eqb_eq in Ek. subst k. f_equal. apply filter_nil.
    intros [k' v'] Hin. cbn [fst]. destruct (str_eqb k' name) eqn:Ek'; [|reflexivity]. exfalso.
    apply str_eqb_eq in Ek'. subst k'. apply Hnotin. apply (in_map fst) in Hin. exact Hin.
  - apply IH. exact Hnd'.
Qed.

Section Unfold.
Variable E : ExtLib.
Variable sc : schema.

(* one entry of an object of messages, through protojson *)
Definition encB (kd : kind) (e : sval * fval) : res (str * json) :=
  key_text (fst e) >>= (fun k => pj_fval E sc kd (snd e) >>= (fun j => ROk (k, j))).
Definition decB (kk kd : kind) (e : str * json) : res (sval * fval) :=
  key_of_text kk (fst e) >>= (fun key => pj_elem E sc kd (snd e) >>= (fun v => ROk (key, v))).
(* one entry of an object of wrappers, each written as the array of its unwrap field *)
Definition encC (uf : field) (e : sval * fval) : res (str * json) :=
  key_text (fst e) >>= (fun k => unwrap_array E sc uf (snd e) >>= (fun a => ROk (k, a))).

(* what the FtUnwrapRoot branch of gj_un reads for the single field f *)
Definition root_val (n : nat) (f : field) (j : json) : res (option fval) :=
  match f_card f with
  | Repeated =>
      if is_msg_kind (f_kind f) then pj_elems E sc (f_kind f) j >>= (fun l => ROk (Some (FL l)))
      else list_un E sc n (f_kind f) j
  | MapOf kk =>
      match value_unwrap sc f with
      | Some uf => if is_repeated uf then unwrap_map_un E sc kk uf j >>= (fun v => ROk (Some v))
                   else RUnm (s "map value whose unwrap field is itself a map")
      | None =>
          if is_msg_kind (f_kind f) then
            match j with
            | JObj kv => rall (map (decB kk (f_kind f)) kv) >>= (fun es => ROk (Some (FMap (sort_entries es))))
            | JNull => ROk (Some (FMap []))
            | _ => RErr (s "json: cannot unmarshal into map")
            end
          else map_un E sc n kk (f_kind f) j
      end
  | _ => RUnm (s "unwrap on a singular field")
  end.

(* UnmarshalJSON is only ever handed an array or an object here *)
Definition is_container (j : json) : Prop := match j with JArr _ | JObj _ => True | _ => False end.

Lemma root_val_container n f j v : j <> JNull -> root_val n f j = ROk v -> is_container j.
Proof.
  unfold root_val. intros Hnn H.
  destruct j; try exact I; try (exfalso; apply Hnn; reflexivity); exfalso;
    destruct (f_card f); try discriminate H;
    try (destruct (value_unwrap sc f) as [uf|]; [destruct (is_repeated uf)|]; try discriminate H);
    destruct (is_msg_kind (f_kind f)); discriminate H.
Qed.

Lemma gj_un_unwrap_root n tn md f j :
  is_wkt_other tn = false -> lookup_message sc tn = Some md -> owner_of sc md = Own FtUnwrapRoot ->
  buildable sc FtUnwrapRoot md = true -> m_fields md = [f] -> is_container j ->
  gj_un E sc (S n) (KMessage tn) j =
  root_val n f j >>= (fun o => ROk (Some (FM (assemble (opt_list (option_map (fun v => (f, v)) o)))))).
Proof.
  intros H1 H2 H3 H4 H5 H6.
  (* j is taken apart first: with j a variable the decoder's dispatch on the owner stands once per constructor
     of json, and checking the unfolding alone costs several times what the whole proof does this way *)
  destruct j; try contradiction; cbn [gj_un]; apply (own_branch _ _ md _ FtUnwrapRoot _ _ _ _ _ _ H1 H2 H3);
    rewrite H4, H5; cbv beta iota zeta delta [negb]; unfold root_val; destruct (f_card f); reflexivity.
Qed.

Lemma decode_unwrap_root tn md f j :
  is_wkt_other tn = false -> lookup_message sc tn = Some md -> owner_of sc md = Own FtUnwrapRoot ->
  buildable sc FtUnwrapRoot md = true -> m_fields md = [f] -> is_container j ->
  decode E sc tn j =
  root_val (S (json_size j)) f j >>= (fun o => ROk (assemble (opt_list (option_map (fun v => (f, v)) o)))).
Proof.
  intros H1 H2 H3 H4 H5 H6.
  unfold decode. rewrite (owner_owns sc tn md _ H2 H3), H2. cbn [option_map]. rewrite H3.
  rewrite (gj_un_unwrap_root (S (json_size j)) tn md f j H1 H2 H3 H4 H5 H6).
  destruct (root_val (S (json_size j)) f j) as [o| |]; destruct j; try contradiction; reflexivity.
Qed.

Lemma decode_null_root tn md :
  lookup_message sc tn = Some md -> owner_of sc md = Own FtUnwrapRoot -> decode E sc tn JNull = ROk [].
Proof.
  intros H2 H3. unfold decode. rewrite (owner_owns sc tn md _ H2 H3), H2. cbn [option_map]. rewrite H3. reflexivity.
Qed.

Lemma kids_root_nil md : kids_loop E sc FtUnwrapRoot md [] = ROk [].
Proof. reflexivity. Qed.

Lemma kids_root_one md f x :
  m_fields md = [f] ->
  kids_loop E sc FtUnwrapRoot md [(f_name f, x)] =
  if negb (is_msg_kind (f_kind f))
  then match gj_fval E sc (f_kind f) x with
       | RUnm w => RUnm w
       | rj => ROk [(f_name f, rj)]
       end
  else ROk [].
Proof.
  intros Hf. cbn [kids_loop]. rewrite Hf. cbn [find_field]. rewrite str_eqb_refl.
  cbn [needs_gj]. destruct (negb (is_msg_kind (f_kind f))); [|reflexivity].
  destruct (gj_fval E sc (f_kind f) x); reflexivity.
Qed.

Lemma encode_root_body tn md m j :
  is_wkt_other tn = false -> lookup_message sc tn = Some md -> owner_of sc md = Own FtUnwrapRoot ->
  encode E sc tn m = ROk j ->
  buildable sc FtUnwrapRoot md = true /\
  exists ks, kids_loop E sc FtUnwrapRoot md m = ROk ks /\ enc_unwrap_root E sc md m ks = ROk j.
Proof.
  intros Hwk Hlk Hown Henc.
  destruct (encode_owned_inv E sc tn md _ m j Hwk Hlk Hown Henc) as [Hb [ks [Hks Hbody]]].
  split; [exact Hb|]. exists ks. split; [exact Hks|]. unfold codec_body in Hbody. rewrite Hb in Hbody. exact Hbody.
Qed.

Lemma kid_root_one md f x ks j :
  m_fields md = [f] -> is_msg_kind (f_kind f) = false ->
  kids_loop E sc FtUnwrapRoot md [(f_name f, x)] = ROk ks -> kid ks (f_name f) = ROk j ->
  gj_fval E sc (f_kind f) x = ROk j.
Proof.
  intros Hf Hk Hks Hj. rewrite <- Hj. symmetry.
  apply (kid_of_kids E sc FtUnwrapRoot md [(f_name f, x)] ks Hks (f_name f) x f).
  - cbn [mget]. rewrite str_eqb_refl. reflexivity.
  - rewrite Hf. cbn [find_field]. rewrite str_eqb_refl. reflexivity.
  - cbn [needs_gj]. rewrite Hk. reflexivity.
Qed.
End Unfold.

Section Scalars.
Variable E : ExtLib.
Hypothesis EL : ExtLaws E.
Variable sc : schema.

Lemma gj_scalar_not_null k x j : gj_scalar E sc k x = ROk j -> j <> JNull.
Proof. exact (GoJsonFacts.gj_scalar_not_null E EL sc k x j). Qed.
End Scalars.
Section RoundTrip.
Variable E : ExtLib.
Hypothesis EL : ExtLaws E.
Variable sc : schema.

Lemma elem_rt k y j : wt sc k y = true -> pj_fval E sc k y = ROk j -> pj_elem E sc k j = ROk y.
Proof. intros Hw Hj. exact (Q_of_PP E sc y (pj_roundtrip_fval E EL sc y) k j Hw Hj). Qed.

Lemma msg_list_rt k l j :
  (forall y, In y l -> wt sc k y = true) -> pj_list E sc k (Some (FL l)) = ROk j ->
  j <> JNull /\ pj_elems E sc k j = ROk l.
Proof.
  intros HF Hj. unfold pj_list in Hj. apply rbind_ok in Hj. destruct Hj as [js [Hjs Hj]]. inversion Hj; subst j.
  split; [discriminate|]. cbn [pj_elems]. rewrite (rall_map_rt _ _ (fun y => y) l js Hjs), map_id; [reflexivity|].
  intros y b Hy _ Hb. exact (elem_rt k y b (HF y Hy) Hb).
Qed.

Lemma msg_map_rt kk kd kv es :
  (forall key y, In (key, y) kv -> wt_key kk key = true /\ wt sc kd y = true) ->
  rall (map (encB E sc kd) kv) = ROk es -> rall (map (decB E sc kk kd) es) = ROk kv.
Proof.
  intros HF Hes. rewrite (rall_map_rt _ _ (fun e => e) kv es Hes), map_id; [reflexivity|].
  intros [key y] b Hy _ Hb. destruct (HF key y Hy) as [Hk Hv]. unfold encB in Hb. cbn [fst snd] in Hb.
  apply rbind_ok in Hb. destruct Hb as [kt [Hkt Hb]]. apply rbind_ok in Hb. destruct Hb as [j [Hj Hb]].
  inversion Hb; subst b. unfold decB. cbn [fst snd]. rewrite (key_rt kk key kt Hk Hkt). cbn [rbind].
  rewrite (elem_rt kd y j Hv Hj). reflexivity.
Qed.

Lemma scalar_list_rt k l j :
  is_msg_kind k = false -> (forall y, In y l -> wt sc k y = true) ->
  (forall z, In z (enum_nums (FL l)) -> enum_back sc k z = true) ->
  gj_scalar_list E sc k l = ROk j -> scalar_elems E sc k j = ROk l.
Proof.
  intros Hk HF HO Hj. unfold gj_scalar_list in Hj. apply rbind_ok in Hj. destruct Hj as [js [Hjs Hj]]. inversion Hj; subst j.
  cbn [scalar_elems]. rewrite (rall_map_rt _ _ (fun y => y) l js Hjs), map_id; [reflexivity|].
  intros y b Hy _ Hb. destruct (wt_nonmsg_scalar sc k y Hk (HF y Hy)) as [x [Hyx Hwx]]. subst y.
  rewrite (gj_scalar_rt E EL sc k x b Hwx); [reflexivity| |exact Hb].
  intros z Hz. subst x. apply HO. apply (enum_nums_FL_in l _ z Hy). left. reflexivity.
Qed.

(* the combined form: one wrapper, written as the array of its unwrap field; &T{F: items} keeps that field only *)
Lemma wrapper_rt uf vtn vmd wm a :
  find_message (all_messages sc) vtn = Some vmd -> str_eqb vtn ts_name = false ->
  In uf (m_fields vmd) -> is_repeated uf = true -> wt sc (KMessage vtn) (FM wm) = true ->
  (forall x z, mget wm (f_name uf) = Some x -> In z (enum_nums x) -> enum_back sc (f_kind uf) z = true) ->
  unwrap_array E sc uf (FM wm) = ROk a ->
  unwrap_items E sc uf a = ROk (FM (filter (fun we => str_eqb (fst we) (f_name uf)) wm)).
Proof.
  intros Hfm Hts Hin Hrep Hw Hen Ha.
  destruct (wt_message sc vtn wm Hts Hw) as [_ [md' [Hfm' [_ [Hmok [Hsorted Hwf]]]]]].
  assert (md' = vmd) by congruence. subst md'.
  rewrite (filter_name wm (f_name uf) (sorted_names_nodup vmd wm Hsorted)).
  unfold unwrap_array in Ha. unfold unwrap_items.
  destruct (mget wm (f_name uf)) as [y|] eqn:Eg.
  - (* the unwrap field is populated: a non-empty well-typed list *)
    destruct (wt_fields_in sc vmd wm (f_name uf) y Hwf (mget_pair wm _ y Eg)) as [g [Hg Hwe]].
    rewrite (find_field_complete vmd uf Hmok Hin) in Hg. inversion Hg; subst g.
    pose proof (proj1 (wt_entry_inv sc uf y Hwe)) as Hpop. pose proof (wt_entry_card sc uf y Hwe) as Hsh.
    rewrite (is_repeated_card uf Hrep) in Hsh. destruct Hsh as [l [-> HF]].
    destruct (is_msg_kind (f_kind uf)) eqn:Emk.
    + rewrite (proj2 (msg_list_rt (f_kind uf) l a HF Ha)). cbn [rbind]. unfold wrapper_of. rewrite assemble_one, Hpop. reflexivity.
    + rewrite (scalar_list_rt (f_kind uf) l a Emk HF (fun z => Hen (FL l) z eq_refl) Ha). cbn [rbind]. unfold wrapper_of.
      rewrite assemble_one, Hpop. reflexivity.
  - destruct (is_msg_kind (f_kind uf)); cbn [pj_list] in Ha; inversion Ha; subst a; reflexivity.
Qed.

Lemma combined_rt f kk uf kv j :
  value_unwrap sc f = Some uf -> is_repeated uf = true ->
  (forall key w, In (key, w) kv -> wt_key kk key = true /\ wt sc (f_kind f) w = true) ->
  (forall key wm x z, In (key, FM wm) kv -> mget wm (f_name uf) = Some x -> In z (enum_nums x) ->
                      enum_back sc (f_kind uf) z = true) ->
  sorted_key (map fst kv) = true ->
  unwrap_map_obj E sc uf kv = ROk j ->
  j <> JNull /\ unwrap_map_un E sc kk uf j = ROk (FMap (map (sw_value uf) kv)).
Proof.
  intros Hvu Hrep HF Hen Hs Hj. unfold unwrap_map_obj in Hj.
  destruct (value_unwrap_inv sc f uf Hvu) as [_ [vtn [vmd [Hk [Hts [Hfm Huf]]]]]].
  apply rbind_ok in Hj. destruct Hj as [es [Hes Hj]]. inversion Hj; subst j.
  split; [discriminate|]. cbn [unwrap_map_un].
  rewrite (rall_map_rt _ _ (sw_value uf) kv es Hes).
  - cbn [rbind]. rewrite sorted_key_sort; [reflexivity|]. rewrite sw_value_fst. exact Hs.
  - intros [key w] b Hy _ Hb. destruct (HF key w Hy) as [H1 H2]. rewrite Hk in H2.
    cbn [fst snd] in Hb.
    apply rbind_ok in Hb. destruct Hb as [kt [Hkt Hb]]. apply rbind_ok in Hb. destruct Hb as [a [Ha Hb]]. inversion Hb; subst b.
    cbn [fst snd]. rewrite (key_rt kk key kt H1 Hkt). cbn [rbind].
    destruct w as [sx|wm|l0|kv0]; try discriminate H2.
    rewrite (wrapper_rt uf vtn vmd wm a Hfm Hts (unwrap_field_in vmd uf Huf) Hrep H2 (fun x z => Hen key wm x z Hy) Ha). reflexivity.
Qed.

(* the combined form map<K, Wrapper>: a wrapper's elements are messages, or enums without a codec of their own *)
Definition uf_ok (uf : field) : bool := is_msg_kind (f_kind uf) || negb (enum_with_codec sc (f_kind uf)).

End RoundTrip.

(* an enum type with an emitted MarshalJSON is read back by its JSON texts: every declared value must be
   found again under its own text (false only when two values share one enum_value text) *)
Definition enum_gj_ok (e : enum) : bool :=
  forallb (fun v : enum_value => match ev_by_json (e_values e) (ev_json v) with
                    | Some v' => ev_number v' =? ev_number v
                    | None => false
                    end) (e_values e).

Lemma ev_by_number_in vs n v : ev_by_number vs n = Some v -> In v vs /\ ev_number v = n.
Proof.
  induction vs as [|a r IH]; cbn [ev_by_number]; [discriminate|].
  destruct (ev_number a =? n) eqn:En; intros H.
  - inversion H; subst a. split; [left; reflexivity|]. apply Z.eqb_eq. exact En.
  - destruct (IH H) as [H1 H2]. split; [right; exact H1|exact H2].
Qed.

Section Main.
Variable E : ExtLib.
Hypothesis EL : ExtLaws E.
Variable sc : schema.

Definition kind_gj_ok (k : kind) : bool :=
  match k with
  | KEnum tn => match find_enum (all_enums sc) tn with
                | Some e => negb (enum_codec e) || enum_gj_ok e
                | None => true
                end
  | _ => true
  end.

(* the domain: nothing is asked of message elements; a scalar element type that is an enum with an emitted
   MarshalJSON must have distinct JSON texts (root list / map) or is excluded (inside a wrapper, where the
   defect classifier does not look) *)
Definition unwrap_root_dom (md : message) : bool :=
  match m_fields md with
  | [f] => match value_unwrap sc f with
           | Some uf => uf_ok sc uf
           | None => is_msg_kind (f_kind f) || kind_gj_ok (f_kind f)
           end
  | _ => true
  end.

(* distinct texts and, by the defect classifier, declared numbers: every enum number of the value is read back *)
Lemma enum_back_of_defects k v z :
  kind_gj_ok k = true -> enum_codec_unknown sc k v = false -> In z (enum_nums v) -> enum_back sc k z = true.
Proof.
  intros Hk Hd Hz. destruct k as [| | | | | | | | | | | | | | | tn | tn0]; try reflexivity.
  cbn [kind_gj_ok] in Hk. cbn [enum_codec_unknown] in Hd. cbn [enum_back].
  destruct (find_enum (all_enums sc) tn) as [e|]; [|reflexivity].
  destruct (enum_codec e); [|reflexivity]. cbn [negb orb andb] in *.
  pose proof (proj1 (existsb_false _ _) Hd z Hz) as Hdef. cbv beta in Hdef.
  destruct (ev_by_number (e_values e) z) as [v0|] eqn:Ev; [|discriminate Hdef].
  destruct (ev_by_number_in _ _ _ Ev) as [Hin Hn].
  unfold enum_gj_ok in Hk. rewrite forallb_forall in Hk. specialize (Hk v0 Hin).
  destruct (ev_by_json (e_values e) (ev_json v0)) as [v'|]; [|discriminate Hk]. rewrite <- Hn. exact Hk.
Qed.

Lemma defects_enum_defined tn md f x :
  lookup_message sc tn = Some md -> owner_of sc md = Own FtUnwrapRoot -> m_fields md = [f] ->
  is_msg_kind (f_kind f) = false ->
  defects_C04 sc tn [(f_name f, x)] = [] -> enum_codec_unknown sc (f_kind f) x = false.
Proof.
  intros Hlk Hown Hf Hk Hd.
  unfold defects_C04 in Hd. rewrite (owner_owns sc tn md _ Hlk Hown) in Hd. apply dedup4_nil in Hd.
  cbn [gj_defects] in Hd. rewrite Hlk, Hown in Hd.
  apply app_eq_nil in Hd. destruct Hd as [_ Hd]. apply app_eq_nil in Hd. destruct Hd as [Hd _].
  rewrite Hf in Hd. cbn [existsb find_field fst snd] in Hd. rewrite str_eqb_refl in Hd.
  cbn [needs_gj] in Hd. rewrite Hk in Hd. cbn [negb andb orb] in Hd.
  destruct (enum_codec_unknown sc (f_kind f) x); [discriminate Hd|reflexivity].
Qed.

Definition fin (o : option fval) : res mval :=
  match o with Some (FM m) => ROk m | None => ROk [] | _ => RUnm (s "not a message") end.

(* MarshalJSON of a value that sets nothing: [] / {} where the elements are messages, null otherwise;
   UnmarshalJSON reads all three as nothing set *)
Lemma root_empty_rt tn md f ks j :
  is_wkt_other tn = false -> lookup_message sc tn = Some md -> owner_of sc md = Own FtUnwrapRoot ->
  buildable sc FtUnwrapRoot md = true -> m_fields md = [f] ->
  enc_unwrap_root E sc md [] ks = ROk j -> decode E sc tn j = ROk [].
Proof.
  intros Hwk Hlk Hown Hb Hf Hbody.
  assert (Hnull : j = JNull \/ (is_container j /\ root_val E sc (S (json_size j)) f j = ROk (Some (match j with JArr _ => FL [] | _ => FMap [] end)))).
  { unfold enc_unwrap_root in Hbody. rewrite Hf in Hbody. cbn [mget] in Hbody. unfold root_val.
    destruct (f_card f) as [| | |kk]; try discriminate Hbody.
    - destruct (is_msg_kind (f_kind f)); inversion Hbody; subst j; [right|left; reflexivity].
      split; [exact I|reflexivity].
    - destruct (value_unwrap sc f) as [uf|].
      + destruct (is_repeated uf); [|discriminate Hbody]. inversion Hbody; subst j. right. split; [exact I|reflexivity].
      + destruct (is_msg_kind (f_kind f)); inversion Hbody; subst j; [right|left; reflexivity].
        split; [exact I|reflexivity]. }
  destruct Hnull as [Hj|[Hnn Hv]].
  - subst j. exact (decode_null_root E sc tn md Hlk Hown).
  - rewrite (decode_unwrap_root E sc tn md f j Hwk Hlk Hown Hb Hf Hnn), Hv. destruct j; reflexivity.
Qed.

Lemma root_val_rt n md f x ks j :
  buildable sc FtUnwrapRoot md = true -> m_fields md = [f] -> unwrap_root_dom md = true ->
  wt_entry sc f x = true -> (is_msg_kind (f_kind f) = false -> enum_codec_unknown sc (f_kind f) x = false) ->
  kids_loop E sc FtUnwrapRoot md [(f_name f, x)] = ROk ks ->
  enc_unwrap_root E sc md [(f_name f, x)] ks = ROk j ->
  j <> JNull /\ root_val E sc (S n) f j = ROk (Some (strip sc f x)).
Proof.
  intros Hb Hf Hdom Hwe Hu Hks Hbody.
  unfold enc_unwrap_root in Hbody. rewrite Hf in Hbody. cbn [mget] in Hbody. rewrite str_eqb_refl in Hbody.
  unfold unwrap_root_dom in Hdom. rewrite Hf in Hdom. unfold strip, root_val.
  pose proof (wt_entry_card sc f x Hwe) as Hsh.
  (* the scalar shapes: the body is the child json.Marshal rendered, read back by json.Unmarshal *)
  assert (Hsc : is_msg_kind (f_kind f) = false -> value_unwrap sc f = None -> kid ks (f_name f) = ROk j ->
                un_value E sc (S n) f j = ROk (Some x) /\ j <> JNull).
  { intros Emk Evu Hkid. rewrite Evu, Emk in Hdom.
    apply (scalar_value_rt E EL sc n f x j Emk Hwe).
    - intros z Hz. exact (enum_back_of_defects (f_kind f) x z Hdom (Hu Emk) Hz).
    - exact (kid_root_one E sc md f x ks j Hf Emk Hks Hkid). }
  unfold un_value in Hsc.
  destruct (f_card f) as [| | |kk] eqn:Hc; try discriminate Hbody.
  - rewrite (value_unwrap_repeated sc f Hc) in *. destruct Hsh as [l [-> HF]].
    destruct (is_msg_kind (f_kind f)) eqn:Emk.
    + destruct (msg_list_rt E EL sc (f_kind f) l j HF Hbody) as [Hnn Hel]. rewrite Hel. split; [exact Hnn|reflexivity].
    + destruct (Hsc eq_refl eq_refl Hbody) as [Hun Hnn]. split; assumption.
  - assert (Hkk : kk = KString).
    { unfold buildable in Hb. rewrite Hf in Hb. cbn [forallb] in Hb. rewrite Hc in Hb.
      apply kind_eqb_string. destruct (kind_eqb kk KString); [reflexivity|discriminate Hb]. }
    subst kk. destruct Hsh as [kv [-> [Hs HF]]].
    destruct (value_unwrap sc f) as [uf|] eqn:Evu.
    + destruct (is_repeated uf) eqn:Erep; [|discriminate Hbody].
      destruct (combined_rt E EL sc f KString uf kv j Evu Erep HF) as [Hnn Hun]; try assumption.
      { intros key wm y z _ _ _. apply enum_back_no_codec. unfold uf_ok in Hdom.
        destruct (value_unwrap_inv sc f uf Evu) as [_ [vtn [vmd [Hk _]]]].
        destruct (is_msg_kind (f_kind uf)) eqn:Emk; [|apply Bool.negb_true_iff; exact Hdom].
        destruct (f_kind uf); try discriminate Emk; reflexivity. }
      rewrite Hun. split; [exact Hnn|reflexivity].
    + destruct (is_msg_kind (f_kind f)) eqn:Emk.
      * apply rbind_ok in Hbody. destruct Hbody as [es [Hes Hj]]. inversion Hj; subst j. split; [discriminate|].
        rewrite (msg_map_rt E EL sc KString (f_kind f) kv es HF Hes). cbn [rbind].
        rewrite (sorted_key_sort kv Hs). reflexivity.
      * destruct (Hsc eq_refl eq_refl Hbody) as [Hun Hnn]. split; assumption.
Qed.

Theorem unwrap_root_roundtrip : forall tn md m j,
  str_eqb tn ts_name = false -> is_wkt_other tn = false ->
  find_message (all_messages sc) tn = Some md -> owner_of sc md = Own FtUnwrapRoot ->
  unwrap_root_dom md = true ->
  wt sc (KMessage tn) (FM m) = true -> defects_C04 sc tn m = [] ->
  encode E sc tn m = ROk j -> decode E sc tn j = ROk (norm sc tn m).
Proof.
  intros tn md m j Hts Hwk Hfm Hown Hdom Hwt Hdef Henc.
  pose proof (find_lookup sc tn md Hts Hfm) as Hlk.
  unfold norm. rewrite Hlk, Hown, strip_wrappers_map.
  destruct (root_unwrap_fields md (owner_root_unwrap sc md Hown)) as [f [Hf _]].
  destruct (encode_root_body E sc tn md m j Hwk Hlk Hown Henc) as [Hb [ks [Hks Hbody]]].
  destruct (wt_root_single sc tn md f m Hts Hfm Hf Hwt) as [Hmok [Hm|[x [Hm Hwe]]]]; subst m.
  - exact (root_empty_rt tn md f ks j Hwk Hlk Hown Hb Hf Hbody).
  - destruct (root_val_rt (json_size j) md f x ks j Hb Hf Hdom Hwe) as [Hnn Hv]; try assumption.
    { intros Hk. exact (defects_enum_defined tn md f x Hlk Hown Hf Hk Hdef). }
    rewrite (decode_unwrap_root E sc tn md f j Hwk Hlk Hown Hb Hf (root_val_container E sc _ f j _ Hnn Hv)), Hv.
    cbn [rbind option_map opt_list map]. rewrite assemble_one, (populated_strip sc f x Hwe).
    rewrite (sw_entry_strip sc md (f_name f) f x); [reflexivity|].
    rewrite Hf. cbn [find_field]. rewrite str_eqb_refl. reflexivity.
Qed.
(* the shapes whose elements are messages (root list, root map, combined with message items): no side
   condition at all, and the defect classifier has nothing to say *)
Definition msg_elems (md : message) : bool :=
  match m_fields md with
  | [f] => is_msg_kind (f_kind f) &&
           match value_unwrap sc f with Some uf => is_msg_kind (f_kind uf) | None => true end
  | _ => false
  end.

Lemma defects_msg_shape tn md f m :
  lookup_message sc tn = Some md -> owner_of sc md = Own FtUnwrapRoot -> m_fields md = [f] ->
  is_msg_kind (f_kind f) = true -> (m = [] \/ exists x, m = [(f_name f, x)]) ->
  defects_C04 sc tn m = [].
Proof.
  intros Hlk Hown Hf Hk Hm.
  unfold defects_C04. rewrite (owner_owns sc tn md _ Hlk Hown).
  destruct Hm as [Hm|[x Hm]]; subst m; cbn [gj_defects]; rewrite Hlk, Hown; unfold local_defects; rewrite Hown.
  - reflexivity.
  - rewrite Hf. cbn [existsb find_field fst snd]. rewrite str_eqb_refl. cbn [needs_gj]. rewrite Hk. reflexivity.
Qed.

Theorem unwrap_root_roundtrip_messages : forall tn md m j,
  str_eqb tn ts_name = false -> is_wkt_other tn = false ->
  find_message (all_messages sc) tn = Some md -> owner_of sc md = Own FtUnwrapRoot ->
  msg_elems md = true ->
  wt sc (KMessage tn) (FM m) = true ->
  encode E sc tn m = ROk j -> decode E sc tn j = ROk (norm sc tn m).
Proof.
  intros tn md m j Hts Hwk Hfm Hown Hme Hwt Henc.
  pose proof (find_lookup sc tn md Hts Hfm) as Hlk.
  destruct (root_unwrap_fields md (owner_root_unwrap sc md Hown)) as [f [Hf _]].
  unfold msg_elems in Hme. rewrite Hf in Hme. apply andb_prop in Hme. destruct Hme as [Hk Hu].
  apply (unwrap_root_roundtrip tn md m j Hts Hwk Hfm Hown); try assumption.
  - unfold unwrap_root_dom. rewrite Hf. destruct (value_unwrap sc f) as [uf|].
    + unfold uf_ok. rewrite Hu. reflexivity.
    + rewrite Hk. reflexivity.
  - apply (defects_msg_shape tn md f m Hlk Hown Hf Hk).
    destruct (wt_root_single sc tn md f m Hts Hfm Hf Hwt) as [_ [Hm|[x [Hm _]]]]; [left; exact Hm|right; exists x; exact Hm].
Qed.
End Main.
Close Scope Z_scope.
