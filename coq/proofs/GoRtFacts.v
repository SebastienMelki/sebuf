(* GoRtFacts.v — the emitted Go client and the emitted Go server agree on one call:
   outside the known defect classes the handler sees the request the caller sent. *)
From Sebuf Require Import Text Route Schema Value Num Url GoRt.
From SebufProofs Require Import TextFacts ListFacts RouteFacts NumFacts UrlFacts.

Definition typed_scalar (k : kind) (v : sval) : Prop :=
  match k, v with
  | KString, VStr _ => True
  | KBool, VBool _ => True
  | KInt32, VInt z | KSint32, VInt z | KSfixed32, VInt z => (- 2 ^ 31 <= z < 2 ^ 31)%Z
  | KInt64, VInt z | KSint64, VInt z | KSfixed64, VInt z => (- 2 ^ 63 <= z < 2 ^ 63)%Z
  | KUint32, VInt z | KFixed32, VInt z => (0 <= z < 2 ^ 32)%Z
  | KUint64, VInt z | KFixed64, VInt z => (0 <= z < 2 ^ 64)%Z
  | _, _ => False
  end.

Definition in_range (lo hi z : Z) : bool := (lo <=? z)%Z && (z <? hi)%Z.

Definition typed_scalarb (k : kind) (v : sval) : bool :=
  match k, v with
  | KString, VStr _ => true
  | KBool, VBool _ => true
  | KInt32, VInt z | KSint32, VInt z | KSfixed32, VInt z => in_range (- 2 ^ 31) (2 ^ 31) z
  | KInt64, VInt z | KSint64, VInt z | KSfixed64, VInt z => in_range (- 2 ^ 63) (2 ^ 63) z
  | KUint32, VInt z | KFixed32, VInt z => in_range 0 (2 ^ 32) z
  | KUint64, VInt z | KFixed64, VInt z => in_range 0 (2 ^ 64) z
  | _, _ => false
  end.

Lemma in_range_spec lo hi z : in_range lo hi z = true -> (lo <= z < hi)%Z.
Proof.
  unfold in_range. intros H. apply andb_true_iff in H as [H1 H2].
  apply Z.leb_le in H1. apply Z.ltb_lt in H2. now split.
Qed.

(* The integer kinds that travel on a URL, by signedness and width; strconv.ParseInt / ParseUint
   are called with exactly these. *)
Definition int_kind (k : kind) : option (bool * N) :=
  match k with
  | KInt32 | KSint32 | KSfixed32 => Some (true, 32%N)
  | KInt64 | KSint64 | KSfixed64 => Some (true, 64%N)
  | KUint32 | KFixed32 => Some (false, 32%N)
  | KUint64 | KFixed64 => Some (false, 64%N)
  | _ => None
  end.

Definition int_range (signed : bool) (bits : N) (z : Z) : Prop :=
  if signed then (- 2 ^ Z.of_N (bits - 1) <= z < 2 ^ Z.of_N (bits - 1))%Z else (0 <= z < 2 ^ Z.of_N bits)%Z.

Definition parse_as (signed : bool) (bits : N) (x : str) : option Z :=
  if signed then parse_int bits x else parse_uint bits x.

(* what [int_kind] decides: the other definitions by cases on the kind agree with it *)
Lemma int_kind_url k sg bits : int_kind k = Some (sg, bits) -> url_kind_ok k = true.
Proof. destruct k; intros H; try discriminate H; reflexivity. Qed.

Lemma int_kind_zero k sg bits : int_kind k = Some (sg, bits) -> zero_of k = VInt 0.
Proof. destruct k; intros H; try discriminate H; reflexivity. Qed.

Lemma int_kind_bits k sg bits : int_kind k = Some (sg, bits) -> (0 < bits)%N.
Proof. destruct k; intros H; try discriminate H; inversion H; reflexivity. Qed.

Lemma int_kind_convert k sg bits x : int_kind k = Some (sg, bits) ->
  convert k x = option_map VInt (parse_as sg bits x).
Proof. destruct k; intros H; try discriminate H; inversion H; reflexivity. Qed.

Lemma int_kind_typed k sg bits v : int_kind k = Some (sg, bits) ->
  typed_scalar k v = match v with VInt z => int_range sg bits z | _ => False end.
Proof. destruct k; intros H; try discriminate H; inversion H; reflexivity. Qed.

Inductive typed_shape : kind -> sval -> Prop :=
  | ShStr x : typed_shape KString (VStr x)
  | ShBool b : typed_shape KBool (VBool b)
  | ShInt k sg bits z : int_kind k = Some (sg, bits) -> int_range sg bits z -> typed_shape k (VInt z).

Lemma typed_scalar_inv k v : typed_scalar k v -> typed_shape k v.
Proof.
  destruct (int_kind k) as [[sg bits]|] eqn:Ek.
  - rewrite (int_kind_typed k sg bits v Ek). destruct v as [z| | | | |]; try contradiction.
    exact (ShInt k sg bits z Ek).
  - destruct k; try discriminate Ek; destruct v; intros Ht; try contradiction Ht; constructor.
Qed.

Lemma int_val_sound lo hi v : match v with VInt z => in_range lo hi z | _ => false end = true ->
  match v with VInt z => (lo <= z < hi)%Z | _ => False end.
Proof. destruct v; try discriminate. apply in_range_spec. Qed.

Lemma typed_scalarb_sound k v : typed_scalarb k v = true -> typed_scalar k v.
Proof.
  destruct k; try exact (int_val_sound _ _ v); destruct v; intros H; try discriminate H; exact I.
Qed.

Lemma typed_url_kind k v : typed_scalar k v -> url_kind_ok k = true.
Proof.
  intros Ht. destruct (typed_scalar_inv k v Ht) as [x|b|k sg bits z Hk _]; try reflexivity.
  now apply (int_kind_url k sg bits).
Qed.

Lemma convert_sprint : forall k v, typed_scalar k v -> convert k (sprint v) = Some v.
Proof.
  intros k v Ht. destruct (typed_scalar_inv k v Ht) as [x|b|k sg bits z Hk Hr].
  - reflexivity.
  - cbn [convert sprint]. now rewrite parse_bool_show.
  - rewrite (int_kind_convert k sg bits _ Hk). cbn [sprint].
    destruct sg; cbn [parse_as int_range] in *.
    + now rewrite (parse_int_show bits z (int_kind_bits k true bits Hk) Hr).
    + now rewrite parse_uint_show.
Qed.

Lemma typed_zero k v : typed_scalar k v -> is_zero v = true -> v = zero_of k.
Proof.
  intros Ht Hz. destruct (typed_scalar_inv k v Ht) as [x|b|k sg bits z Hk _]; cbn [is_zero zero_of] in *.
  - apply str_eqb_eq in Hz. now subst.
  - now destruct b.
  - rewrite (int_kind_zero k sg bits Hk). apply Z.eqb_eq in Hz. now subst.
Qed.

Lemma is_zero_zero_of k : is_zero (zero_of k) = true.
Proof. destruct k; reflexivity. Qed.

Lemma typed_zero_of k : url_kind_ok k = true -> typed_scalar k (zero_of k).
Proof.
  destruct k; intros H; try discriminate H; cbv beta iota delta [typed_scalar zero_of];
    try exact I; lia.
Qed.

Lemma sprint_nonzero k v : typed_scalar k v -> is_zero v = false -> sprint v <> [].
Proof.
  intros Ht Hz. destruct (typed_scalar_inv k v Ht) as [x|b|k sg bits z _ _]; cbn [sprint].
  - now apply str_eqb_neq in Hz.
  - apply show_bool_nonempty.
  - apply show_int_nonempty.
Qed.

Lemma mget_mremove m k g : mget (mremove m k) g = if str_eqb g k then None else mget m g.
Proof.
  induction m as [|[k' v] m IH]; [now destruct (str_eqb g k)|]. cbn [mremove].
  destruct (str_eqb k k') eqn:E.
  - rewrite IH. cbn [mget]. apply str_eqb_eq in E. subst k'. now destruct (str_eqb g k).
  - cbn [mget]. rewrite IH. destruct (str_eqb g k') eqn:E2; [|reflexivity].
    apply str_eqb_eq in E2. subst k'. now rewrite str_eqb_sym, E.
Qed.

Lemma mget_minsert fs m k v g : mget m k = None ->
  mget (minsert fs m k v) g = if str_eqb g k then Some v else mget m g.
Proof.
  induction m as [|[k' v'] m IH]; intros H; cbn [minsert]; [reflexivity|].
  cbn [mget] in H. destruct (str_eqb k k') eqn:E; [discriminate|].
  destruct (field_num fs k <? field_num fs k')%Z; cbn [mget]; [reflexivity|].
  rewrite (IH H). destruct (str_eqb g k') eqn:E2; [|reflexivity].
  apply str_eqb_eq in E2. subst k'. now rewrite str_eqb_sym, E.
Qed.

(* [mset fs m k c] makes k hold c ([None]: k is absent afterwards); mget_mset is its one law.  The server's
   [mset_scalar] is the instance c = [entry_of v]: a zero scalar is stored as absence, as proto3 implicit
   presence has it.  Read this way a message value is a key-by-key store (ListFacts.set_keys), and what the
   server has bound after the path variables and the query parameters is computed key by key
   (set_vars_keys, set_query_keys) instead of by induction over both folds. *)
Definition mset (fs : list field) (m : mval) (k : str) (c : option fval) : mval :=
  match c with Some v => minsert fs (mremove m k) k v | None => mremove m k end.

Lemma mget_mset fs m k c g : mget (mset fs m k c) g = if str_eqb g k then c else mget m g.
Proof.
  destruct c as [v|]; cbn [mset]; [|apply mget_mremove].
  rewrite mget_minsert, mget_mremove; [now destruct (str_eqb g k)|].
  now rewrite mget_mremove, str_eqb_refl.
Qed.

Definition entry_of (v : sval) : option fval := if is_zero v then None else Some (FS v).

Lemma mset_scalar_mset fs m f v : mset_scalar fs m f v = mset fs m (f_name f) (entry_of v).
Proof. unfold mset_scalar, entry_of. now destruct (is_zero v). Qed.

Lemma mget_mset_scalar fs m f v g :
  mget (mset_scalar fs m f v) g = if str_eqb g (f_name f) then entry_of v else mget m g.
Proof. rewrite mset_scalar_mset. apply mget_mset. Qed.

Lemma scalar_of_entry m f v : typed_scalar (f_kind f) v -> mget m (f_name f) = entry_of v -> scalar_of m f = v.
Proof.
  intros Ht H. unfold scalar_of. rewrite H. unfold entry_of. destruct (is_zero v) eqn:Ez; [|reflexivity].
  symmetry. now apply typed_zero.
Qed.

Lemma scalar_of_mget m m' g : mget m' (f_name g) = mget m (f_name g) -> scalar_of m' g = scalar_of m g.
Proof. unfold scalar_of. now intros ->. Qed.

Lemma scalar_of_mset_same fs m f v :
  typed_scalar (f_kind f) v -> scalar_of (mset_scalar fs m f v) f = v.
Proof. intros Ht. apply (scalar_of_entry _ f v Ht). now rewrite mget_mset_scalar, str_eqb_refl. Qed.

Lemma mset_scalar_zero_nil fs f v : is_zero v = true -> mset_scalar fs [] f v = [].
Proof. intros H. unfold mset_scalar. now rewrite H. Qed.

Lemma find_field_some fs v f : find_field fs v = Some f -> In f fs /\ f_name f = v.
Proof.
  induction fs as [|g fs IH]; cbn [find_field]; intros H; [discriminate|].
  destruct (str_eqb (f_name g) v) eqn:E.
  - inversion H; subst. apply str_eqb_eq in E. split; [now left|exact E].
  - apply IH in H as [H1 H2]. split; [now right|exact H2].
Qed.

Lemma find_field_nodup fs f : NoDup (map f_name fs) -> In f fs -> find_field fs (f_name f) = Some f.
Proof.
  induction fs as [|g fs IH]; intros Hnd Hin; [contradiction|].
  cbn [map] in Hnd. inversion Hnd as [|? ? Hni Hnd']; subst. cbn [find_field].
  destruct Hin as [->|Hin].
  - now rewrite str_eqb_refl.
  - destruct (str_eqb (f_name g) (f_name f)) eqn:E.
    + apply str_eqb_eq in E. exfalso. apply Hni. rewrite E. now apply in_map.
    + now apply IH.
Qed.

Lemma all_ok_cons {A} (a : result A) l t : all_ok (a :: l) = Ok t ->
  exists x t', a = Ok x /\ all_ok l = Ok t' /\ t = x :: t'.
Proof.
  cbn [all_ok]. destruct a as [x|w]; [|discriminate].
  destruct (all_ok l) as [t'|w]; [|discriminate]. intros H. inversion H. now exists x, t'.
Qed.

Definition field_url_ok (f : field) : bool :=
  url_kind_ok (f_kind f) && match f_card f with Singular => true | _ => false end.

Definition var_val (fs : list field) (req : mval) (v : str) : str :=
  match find_field fs v with Some f => sprint (scalar_of req f) | None => [] end.

Lemma var_val_field fs req v f : find_field fs v = Some f -> var_val fs req v = sprint (scalar_of req f).
Proof. unfold var_val. now intros ->. Qed.

Definition fill_str (fs : list field) (req : mval) (E : str -> str) (g : seg) : str :=
  match g with SLit x => x | SVar v => E (var_val fs req v) end.

Definition bindings (fs : list field) (req : mval) (vars : list str) : list (str * str) :=
  map (fun v => (v, var_val fs req v)) vars.

Lemma seg_vars_cons_lit x segs : seg_vars (SLit x :: segs) = seg_vars segs.
Proof. reflexivity. Qed.
Lemma seg_vars_cons_var v segs : seg_vars (SVar v :: segs) = v :: seg_vars segs.
Proof. reflexivity. Qed.

Lemma seg_vars_in segs v : In v (seg_vars segs) <-> In (SVar v) segs.
Proof.
  unfold seg_vars. rewrite in_flat_map. split.
  - intros [[x|u] [Hg Hv]]; [contradiction|]. destruct Hv as [->|[]]. exact Hg.
  - intros H. exists (SVar v). split; [exact H|now left].
Qed.

(* what both clients' segment fillers do, up to the escaper and the two messages *)
Definition fills_with (E : str -> str) (fs : list field) (req : mval) (fill : seg -> result str) : Prop :=
  exists w1 w2, forall g, fill g =
    match g with
    | SLit x => Ok x
    | SVar v => match find_field fs v with
                | Some f => if field_url_ok f then Ok (E (var_val fs req v)) else Unmodelled w1
                | None => Unmodelled w2
                end
    end.

Lemma fill_seg_fills fs req : fills_with path_escape fs req (fill_seg fs req).
Proof.
  eexists. eexists. intros [x|v]; [reflexivity|]. unfold fill_seg, var_val, field_url_ok.
  destruct (find_field fs v); reflexivity.
Qed.

Lemma fills_all E fs req fill : fills_with E fs req fill -> forall segs filled,
  all_ok (map fill segs) = Ok filled <->
  filled = map (fill_str fs req E) segs /\
  (forall v, In v (seg_vars segs) -> exists f, find_field fs v = Some f /\ field_url_ok f = true).
Proof.
  intros [w1 [w2 HF]]. induction segs as [|g segs IH]; intros filled.
  - cbn. split; [intros H; inversion H; split; [reflexivity|intros v []]|intros [-> _]; reflexivity].
  - cbn [map all_ok]. rewrite (HF g). destruct g as [x|v].
    + rewrite seg_vars_cons_lit. cbn [fill_str]. split.
      * destruct (all_ok (map fill segs)) as [t|] eqn:Et; [|discriminate]. intros H. inversion H; subst filled.
        destruct (proj1 (IH t) eq_refl) as [-> Hv]. now split.
      * intros [-> Hv]. now rewrite (proj2 (IH _) (conj eq_refl Hv)).
    + rewrite seg_vars_cons_var. cbn [fill_str]. split.
      * destruct (find_field fs v) as [f|] eqn:Ef; [|discriminate].
        destruct (field_url_ok f) eqn:Eok; [|discriminate].
        destruct (all_ok (map fill segs)) as [t|] eqn:Et; [|discriminate]. intros H. inversion H; subst filled.
        destruct (proj1 (IH t) eq_refl) as [-> Hv]. split; [reflexivity|].
        intros u [<-|Hu]; [now exists f|now apply Hv].
      * intros [-> Hv]. destruct (Hv v (or_introl eq_refl)) as [f [-> ->]].
        now rewrite (proj2 (IH _) (conj eq_refl (fun u Hu => Hv u (or_intror Hu)))).
Qed.

Lemma fill_all fs req segs filled :
  all_ok (map (fill_seg fs req) segs) = Ok filled ->
  filled = map (fill_str fs req path_escape) segs /\
  (forall v, In v (seg_vars segs) -> exists f, find_field fs v = Some f /\ field_url_ok f = true).
Proof. apply (fills_all path_escape fs req _ (fill_seg_fills fs req)). Qed.

Lemma match_segs_lit x pr e sr : str_eqb (seg_unescape e) (seg_unescape x) = true ->
  (pr = [] -> sr = []) ->
  match_segs (SLit x :: pr) (e :: sr) = match_segs pr sr.
Proof.
  intros E Hlen. destruct x as [|c x].
  - destruct pr as [|g pr].
    + rewrite (Hlen eq_refl). reflexivity.
    + cbn [match_segs]. now rewrite E.
  - cbn [match_segs]. now rewrite E.
Qed.

Lemma unescape_no_pct b x : ~ In "%"%char x -> (b = false \/ ~ In "+"%char x) -> unescape b x = Some x.
Proof.
  induction x as [|c x IH]; intros Hp Hplus; [reflexivity|].
  assert (E : Ascii.eqb c "%"%char = false).
  { apply Ascii.eqb_neq. intros ->. apply Hp. now left. }
  rewrite unescape_plain by exact E. rewrite IH.
  - destruct Hplus as [->|Hplus]; [reflexivity|].
    assert (E2 : Ascii.eqb c "+"%char = false).
    { apply Ascii.eqb_neq. intros ->. apply Hplus. now left. }
    now rewrite E2, andb_false_r.
  - intros Hin. apply Hp. now right.
  - destruct Hplus as [->|Hplus]; [now left|right]. intros Hin. apply Hplus. now right.
Qed.

Lemma all_some_F2 {A B} (f : A -> option B) : forall l out, all_some (map f l) = Some out ->
  Forall2 (fun a b => f a = Some b) l out.
Proof.
  induction l as [|a l IH]; intros out H.
  - cbn in H. inversion H. constructor.
  - cbn [map all_some] in H. destruct (f a) as [b|] eqn:Ea; [|discriminate].
    destruct (all_some (map f l)) as [t|] eqn:Et; [|discriminate]. inversion H; subst out.
    constructor; [exact Ea|]. now apply IH.
Qed.

Lemma seg_of_lit x y : seg_of x = Some (SLit y) -> y = x /\ has_brace x = false.
Proof.
  unfold seg_of. destruct x as [|c r]; [intros H; now inversion H|].
  destruct (Ascii.eqb c lbrace).
  - destruct (rev r) as [|d m]; [discriminate|].
    destruct (Ascii.eqb d rbrace && negb (has_brace (rev m)) && negb (str_eqb (rev m) [])); discriminate.
  - destruct (has_brace (c :: r)); [discriminate|]. intros H. now inversion H.
Qed.

Lemma has_brace_false x : has_brace x = false -> ~ In lbrace x /\ ~ In rbrace x.
Proof.
  unfold has_brace. intros H. apply orb_false_iff in H as [H1 H2].
  now rewrite in_chars_false in H1, H2.
Qed.

Lemma seg_of_var x m : seg_of x = Some (SVar m) ->
  x = lbrace :: m ++ [rbrace] /\ ~ In rbrace m /\ m <> [].
Proof.
  unfold seg_of. destruct x as [|c rr]; [discriminate|].
  destruct (Ascii.eqb c lbrace) eqn:Ec.
  - apply Ascii.eqb_eq in Ec. subst c.
    destruct (rev rr) as [|d m'] eqn:Er; [discriminate|].
    destruct (Ascii.eqb d rbrace) eqn:Ed; [|discriminate]. cbn [andb].
    destruct (has_brace (rev m')) eqn:Eb; [discriminate|]. cbn [negb andb].
    destruct (str_eqb (rev m') []) eqn:En; [discriminate|]. cbn [negb].
    intros H. inversion H. apply Ascii.eqb_eq in Ed. subst d.
    repeat split.
    + f_equal. rewrite <- (rev_involutive rr), Er. reflexivity.
    + now apply has_brace_false in Eb as [_ Eb].
    + now apply str_eqb_neq in En.
  - destruct (has_brace (c :: rr)); discriminate.
Qed.

Lemma tsegs_template p segs : tsegs p = Some segs ->
  exists rest, p = slash :: rest /\ Forall2 (fun t g => seg_of t = Some g) (split_on slash rest) segs.
Proof.
  unfold tsegs. destruct p as [|c rest]; [discriminate|].
  destruct (Ascii.eqb c slash) eqn:Ec; [|discriminate]. apply Ascii.eqb_eq in Ec. subst c.
  intros H. exists rest. split; [reflexivity|now apply all_some_F2].
Qed.

Lemma lits_no_sep c tl segs : Forall2 (fun t g => seg_of t = Some g) tl segs ->
  (forall y, In y tl -> ~ In c y) -> forall x, In (SLit x) segs -> ~ In c x.
Proof.
  induction 1 as [|t g tl segs Hg _ IH]; intros Hno x Hin; [contradiction|].
  destruct Hin as [->|Hin]; [|exact (IH (fun y Hy => Hno y (or_intror Hy)) x Hin)].
  apply seg_of_lit in Hg as [-> _]. apply Hno. now left.
Qed.

Lemma tsegs_inv p segs : tsegs p = Some segs ->
  segs <> [] /\ forall x, In (SLit x) segs -> ~ In slash x.
Proof.
  intros H. destruct (tsegs_template p segs H) as [rest [_ HF]]. split.
  - intros ->. inversion HF as [E|]. symmetry in E. now apply split_on_nonempty in E.
  - exact (lits_no_sep slash _ segs HF (split_on_no_sep slash rest)).
Qed.

Lemma clean_segs_cons2 x y l :
  clean_segs (x :: y :: l) = negb (dirty_seg x) && negb (str_eqb x []) && clean_segs (y :: l).
Proof. reflexivity. Qed.

(* A template filled with escaped values.  What the routers use of the filled path: it splits back into the
   filled segments, each variable's segment unescapes to the value, and it is as clean as the pattern. *)
Section Fill.
Variables (fs : list field) (req : mval) (E : str -> str).
Hypothesis HE : seg_codec E.

Lemma seg_unescape_codec x : seg_unescape (E x) = x.
Proof. unfold seg_unescape. now rewrite (codec_unescape E HE). Qed.

Lemma seg_unescape_fill g :
  seg_unescape (fill_str fs req E g) = match g with SLit x => seg_unescape x | SVar v => var_val fs req v end.
Proof. destruct g; [reflexivity|apply seg_unescape_codec]. Qed.

Lemma codec_not_dirty x : dirty_seg x = false -> dirty_seg (E x) = false.
Proof.
  intros H. destruct (dirty_seg (E x)) eqn:D; [|reflexivity].
  pose proof (codec_unescape E HE x) as U. unfold dirty_seg in D.
  apply orb_true_iff in D as [D|D]; apply str_eqb_eq in D; rewrite D in U; vm_compute in U;
    inversion U; subst x; discriminate H.
Qed.

Lemma match_fill_map : forall segs,
  (forall v, In v (seg_vars segs) -> var_val fs req v <> [] /\ var_val fs req v <> [slash]) ->
  match_segs segs (map (fill_str fs req E) segs) = Some (bindings fs req (seg_vars segs)).
Proof.
  induction segs as [|g segs IH]; intros Hv; [reflexivity|].
  destruct g as [x|v].
  - cbn [map fill_str]. rewrite match_segs_lit.
    + rewrite seg_vars_cons_lit. apply IH. intros v Hin. now apply Hv.
    + apply str_eqb_refl.
    + intros ->. reflexivity.
  - cbn [map fill_str]. rewrite seg_vars_cons_var in *.
    destruct (Hv v (or_introl eq_refl)) as [Hne Hns].
    cbn [match_segs]. rewrite seg_unescape_codec.
    apply str_eqb_neq in Hne. apply str_eqb_neq in Hns. rewrite Hne, Hns. cbn [orb].
    rewrite IH; [reflexivity|]. intros v' Hin. apply Hv. now right.
Qed.

Lemma clean_fill : forall segs,
  clean_segs (map pat_seg_str segs) = true ->
  (forall v, In v (seg_vars segs) -> var_val fs req v <> [] /\ dirty_seg (var_val fs req v) = false) ->
  clean_segs (map (fill_str fs req E) segs) = true.
Proof.
  induction segs as [|g segs IH]; intros Hc Hv; [reflexivity|].
  assert (Hd : negb (dirty_seg (pat_seg_str g)) = true -> negb (dirty_seg (fill_str fs req E g)) = true).
  { destruct g as [x|v]; [trivial|]. intros _. cbn [fill_str].
    destruct (Hv v (or_introl eq_refl)) as [_ Hd]. now rewrite (codec_not_dirty _ Hd). }
  assert (Hn : negb (str_eqb (pat_seg_str g) []) = true -> negb (str_eqb (fill_str fs req E g) []) = true).
  { destruct g as [x|v]; [trivial|]. intros _. cbn [fill_str]. apply negb_true_iff, str_eqb_neq.
    intros Hnil. apply (codec_nil E HE) in Hnil. now destruct (Hv v (or_introl eq_refl)). }
  destruct segs as [|g2 segs].
  - cbn [map clean_segs] in *. now apply Hd.
  - cbn [map] in *. rewrite clean_segs_cons2 in *.
    apply andb_true_iff in Hc as [Hc Hc3]. apply andb_true_iff in Hc as [Hc1 Hc2].
    rewrite (Hd Hc1), (Hn Hc2). cbn [andb]. apply IH; [exact Hc3|].
    intros v Hin. apply Hv. destruct g as [x|u]; [exact Hin|now right].
Qed.

Lemma fill_no_slash segs : (forall x, In (SLit x) segs -> ~ In slash x) ->
  forall y, In y (map (fill_str fs req E) segs) -> ~ In slash y.
Proof.
  intros Hl y Hy. apply in_map_iff in Hy as [g [<- Hg]]. destruct g as [x|v]; cbn [fill_str].
  - now apply Hl.
  - apply (codec_no_slash E HE).
Qed.

Lemma split_fill p segs : tsegs p = Some segs ->
  split_on slash (join_with [slash] (map (fill_str fs req E) segs)) = map (fill_str fs req E) segs.
Proof.
  intros Ht. destruct (tsegs_inv p segs Ht) as [Hne Hlit]. apply split_on_join.
  - destruct segs; [congruence|discriminate].
  - now apply fill_no_slash.
Qed.
End Fill.

Lemma filter_nil_app {A} (P : A -> bool) l1 l2 : filter P (l1 ++ l2) = [] -> filter P l1 = [] /\ filter P l2 = [].
Proof. rewrite filter_app. apply app_eq_nil. Qed.

Lemma route_agree r : filter route_defect (defects_C03 r) = [] -> go_server_path r = client_path r.
Proof.
  unfold defects_C03. intros H.
  apply filter_nil_app in H as [H1 H]. apply filter_nil_app in H as [H2 H]. apply filter_nil_app in H as [H3 _].
  unfold go_server_path, client_path.
  destruct (cfg_path r) as [|c cs] eqn:Ec; [discriminate|].
  destruct (ri_base r) as [|b bs] eqn:Eb.
  - destruct (has_prefix [slash] (c :: cs)) eqn:Ep; [|discriminate].
    unfold build_http_path. now rewrite (ensure_leading_slash_id (c :: cs) Ep).
  - destruct (has_prefix [slash] (b :: bs)) eqn:Ep; [|discriminate].
    unfold build_http_path.
    rewrite (ensure_leading_slash_id (b :: bs) Ep).
    rewrite <- (slash_trim_prefix (c :: cs)). reflexivity.
Qed.

Definition sroute_of (sc : schema) (fl : file) (sv : service) (md : method) (p : list seg) : sroute :=
  {| sr_md := md; sr_fields := in_fields sc md;
     sr_route := go_server (info_of fl sv md (in_fields sc md)); sr_pat := p |}.

Definition md_pattern (sc : schema) (fl : file) (sv : service) (md : method) : spat :=
  server_pattern (go_server_path (info_of fl sv md (in_fields sc md))).

Lemma server_routes_inv sc fl sv rs : server_routes sc fl sv = Ok (Some rs) ->
  (forall md, In md (sv_methods sv) -> md_pattern sc fl sv md <> PatPanic) /\
  (forall r0, In r0 rs <-> exists md p, In md (sv_methods sv) /\ md_pattern sc fl sv md = PatOk p /\
                                        r0 = sroute_of sc fl sv md p).
Proof.
  unfold server_routes.
  (* the message of the unmodelled case gets a name, here and wherever such a function is unfolded: the
     steps that follow need not carry its text *)
  set (msg := s _). clearbody msg.
  set (item := fun md : method => (md, in_fields sc md, go_server (info_of fl sv md (in_fields sc md)),
                 server_pattern (rt_path (go_server (info_of fl sv md (in_fields sc md)))))).
  destruct (existsb (fun i : method * list field * route * spat =>
                       match snd i with PatUnmodelled => true | _ => false end)
                    (map item (sv_methods sv))) eqn:E1; [discriminate|].
  destruct (existsb (fun i : method * list field * route * spat =>
                       match snd i with PatPanic => true | _ => false end)
                    (map item (sv_methods sv))) eqn:E2; [discriminate|].
  intros H. inversion H as [Hrs]. clear H Hrs. split.
  - intros md0 Hin Hp.
    pose proof (proj1 (existsb_false _ _) E2 (item md0) (in_map item _ _ Hin)) as F.
    unfold item in F. cbn [snd] in F. unfold md_pattern in Hp. cbn [rt_path go_server] in F.
    rewrite Hp in F. discriminate.
  - intros r0. rewrite in_flat_map. split.
    + intros [i [Hi Hr0]]. apply in_map_iff in Hi as [md0 [<- Hmd0]].
      unfold item in Hr0. cbn [rt_path go_server] in Hr0.
      destruct (server_pattern (go_server_path (info_of fl sv md0 (in_fields sc md0)))) as [p| | |] eqn:Ep;
        try contradiction.
      destruct Hr0 as [<-|[]]. exists md0, p. repeat split; assumption.
    + intros [md0 [p [Hin [Hp ->]]]]. exists (item md0). split; [now apply in_map|].
      unfold item. cbn [rt_path go_server]. unfold md_pattern in Hp. rewrite Hp. now left.
Qed.

Lemma server_pattern_of_tsegs p segs : tsegs p = Some segs -> server_pattern p <> PatPanic ->
  server_pattern p = PatOk segs /\ clean_segs (map pat_seg_str segs) = true.
Proof.
  intros Ht Hp. destruct (tsegs_template p segs Ht) as [rest [-> _]].
  unfold server_pattern in *. rewrite Ascii.eqb_refl in *. rewrite Ht in *.
  unfold unclean_pattern in *. destruct (clean_segs (map pat_seg_str segs)); cbn [negb] in *.
  - now split.
  - congruence.
Qed.

Definition fr_cand (v : verb) (segs : list str) (r : sroute) : option (sroute * list (str * str)) :=
  if verb_eqb (rt_verb (sr_route r)) v
  then match match_segs (sr_pat r) segs with Some b => Some (r, b) | None => None end else None.
Definition fr_keep (c0 c : sroute * list (str * str)) : bool := more_specific (sr_pat (fst c0)) (sr_pat (fst c)).

Lemma find_route_fold rs v segs : find_route rs v segs = fold_left (best_step (fr_cand v segs) fr_keep) rs None.
Proof.
  apply fold_left_ext. intros best r. unfold best_step, fr_cand, fr_keep.
  destruct (verb_eqb (rt_verb (sr_route r)) v); [|reflexivity].
  destruct (match_segs (sr_pat r) segs); [|reflexivity]. now destruct best as [[r0 b0]|].
Qed.

Lemma fr_cand_some v segs r c : fr_cand v segs r = Some c ->
  fst c = r /\ verb_eqb (rt_verb (sr_route r)) v = true /\ match_segs (sr_pat r) segs = Some (snd c).
Proof.
  unfold fr_cand. destruct (verb_eqb (rt_verb (sr_route r)) v); [|discriminate].
  destruct (match_segs (sr_pat r) segs) as [b|]; [|discriminate]. intros H. inversion H. now repeat split.
Qed.

Lemma find_route_sound rs v segs r b : find_route rs v segs = Some (r, b) ->
  In r rs /\ verb_eqb (rt_verb (sr_route r)) v = true /\ match_segs (sr_pat r) segs = Some b.
Proof.
  rewrite find_route_fold. intros H. apply fold_best_sound in H as [H|[r' [Hin Hc]]]; [discriminate|].
  apply fr_cand_some in Hc as [E Hc]. cbn [fst snd] in *. now subst r'.
Qed.

Lemma find_route_complete rs v segs r b : In r rs -> verb_eqb (rt_verb (sr_route r)) v = true ->
  match_segs (sr_pat r) segs = Some b -> find_route rs v segs <> None.
Proof.
  intros Hin Hv Hm. rewrite find_route_fold. apply fold_best_complete. right. exists r. split; [exact Hin|].
  unfold fr_cand. rewrite Hv, Hm. discriminate.
Qed.

Lemma find_binding fs req v : forall vars, In v vars ->
  exists p, find (fun p : str * str => str_eqb (fst p) v) (bindings fs req vars) = Some p /\
            snd p = var_val fs req v.
Proof.
  induction vars as [|u vars IH]; intros Hin; [contradiction|].
  cbn [bindings map find fst]. destruct (str_eqb u v) eqn:E.
  - apply str_eqb_eq in E. subst u. eexists. split; [reflexivity|reflexivity].
  - destruct Hin as [->|Hin]; [now rewrite str_eqb_refl in E|]. now apply IH.
Qed.

(* What the server's bind_path / bind_query leave in m when the URL was built from req by the client: each
   path variable's field, resp. each query field the client sent (non-zero), set to req's value.  They are
   the right-hand sides of bind_path_ok / bind_query_ok; the handler's message is set_query (set_vars body). *)
Fixpoint set_vars (fs : list field) (req : mval) (vars : list str) (m : mval) : mval :=
  match vars with
  | [] => m
  | v :: r => match find_field fs v with
              | None => set_vars fs req r m
              | Some f => set_vars fs req r (mset_scalar fs m f (scalar_of req f))
              end
  end.

Fixpoint set_query (fs : list field) (req : mval) (qfs : list field) (m : mval) : mval :=
  match qfs with
  | [] => m
  | f :: r => if is_zero (scalar_of req f) then set_query fs req r m
              else set_query fs req r (mset_scalar fs m f (scalar_of req f))
  end.

Lemma bind_path_ok fs req allvars : forall vars m,
  incl vars allvars ->
  (forall v f, In v vars -> find_field fs v = Some f ->
     var_val fs req v <> [] /\ url_kind_ok (f_kind f) = true /\ typed_scalar (f_kind f) (scalar_of req f)) ->
  bind_path fs vars (bindings fs req allvars) m = inl (set_vars fs req vars m).
Proof.
  induction vars as [|v vars IH]; intros m Hincl Hv; [reflexivity|].
  cbn [bind_path set_vars].
  assert (Hrec : forall m', bind_path fs vars (bindings fs req allvars) m' = inl (set_vars fs req vars m')).
  { intros m'. apply IH; [intros x Hx; apply Hincl; now right|].
    intros v' f' Hin. apply Hv. now right. }
  destruct (find_field fs v) as [f|] eqn:Ef; [|apply Hrec].
  destruct (find_binding fs req v allvars (Hincl v (or_introl eq_refl))) as [p [Hp Hs]].
  rewrite Hp, Hs.
  destruct (Hv v f (or_introl eq_refl) Ef) as [Hne [Hk Ht]].
  apply str_eqb_neq in Hne. rewrite Hne.
  unfold var_val. rewrite Ef. rewrite (convert_sprint _ _ Ht). apply Hrec.
Qed.

Lemma bind_query_nil fs : forall qfs m, existsb qrequired qfs = false -> bind_query fs qfs [] m = inl m.
Proof.
  induction qfs as [|f qfs IH]; intros m H; [reflexivity|].
  cbn [existsb] in H. apply orb_false_iff in H as [H1 H2].
  cbn [bind_query query_values filter map]. rewrite H1. now apply IH.
Qed.

Lemma bind_query_ok fs req q : forall qfs m,
  (forall f, In f qfs ->
     query_values q (qname f) = (if is_zero (scalar_of req f) then [] else [sprint (scalar_of req f)]) /\
     (is_zero (scalar_of req f) = true -> qrequired f = false) /\
     url_kind_ok (f_kind f) = true /\ typed_scalar (f_kind f) (scalar_of req f)) ->
  bind_query fs qfs q m = inl (set_query fs req qfs m).
Proof.
  induction qfs as [|f qfs IH]; intros m H; [reflexivity|].
  cbn [bind_query set_query].
  destruct (H f (or_introl eq_refl)) as [Hq [Hreq [Hk Ht]]]. rewrite Hq.
  assert (Hrec : forall m', bind_query fs qfs q m' = inl (set_query fs req qfs m')).
  { intros m'. apply IH. intros g Hg. apply H. now right. }
  destruct (is_zero (scalar_of req f)) eqn:Ez.
  - rewrite (Hreq eq_refl). apply Hrec.
  - rewrite (convert_sprint _ _ Ht). apply Hrec.
Qed.

Lemma scalar_of_nil f : scalar_of [] f = zero_of (f_kind f).
Proof. reflexivity. Qed.

Lemma set_vars_nil fs : forall vars, set_vars fs [] vars [] = [].
Proof.
  induction vars as [|v vars IH]; [reflexivity|]. cbn [set_vars].
  destruct (find_field fs v) as [f|]; [|exact IH].
  rewrite mset_scalar_zero_nil; [exact IH|]. rewrite scalar_of_nil. apply is_zero_zero_of.
Qed.

(* A canonical value lists its populated fields in strictly increasing field-number order, every key is a
   field of the message, and a singular URL-capable scalar (string, bool, integer kinds) is stored only
   when it is not the zero value, as an [FS].  The harness's MsgCanon produces such values (implicit-
   presence scalars are listed only when non-default); the one exception is a oneof member of such a kind
   explicitly set to its zero value, for which [canonical] fails and go_call_body (the body verbs: the body is
   bound first and must come back unchanged when the URL's values are written over it) does not apply. *)
Definition key_ok (fs : list field) (k : str) (v : fval) : bool :=
  match find_field fs k with
  | None => false
  | Some g => if field_url_ok g then match v with FS x => negb (is_zero x) | _ => false end else true
  end.

Fixpoint canonicalb (fs : list field) (m : mval) : bool :=
  match m with
  | [] => true
  | (k, v) :: r =>
      key_ok fs k v && forallb (fun kv : str * fval => (field_num fs k <? field_num fs (fst kv))%Z) r &&
      canonicalb fs r
  end.

Definition canonical (fs : list field) (m : mval) : Prop := canonicalb fs m = true.

Lemma mget_In m k x : mget m k = Some x -> In (k, x) m.
Proof.
  induction m as [|[k' v] m IH]; cbn [mget]; [discriminate|].
  destruct (str_eqb k k') eqn:E.
  - intros H. inversion H. subst. apply str_eqb_eq in E. subst. now left.
  - intros H. right. now apply IH.
Qed.

Lemma mremove_absent m k : mget m k = None -> mremove m k = m.
Proof.
  induction m as [|[k' v] m IH]; [reflexivity|]. cbn [mget mremove].
  destruct (str_eqb k k'); [discriminate|]. intros H. now rewrite IH.
Qed.

Lemma mget_later fs k r :
  forallb (fun kv : str * fval => (field_num fs k <? field_num fs (fst kv))%Z) r = true -> mget r k = None.
Proof.
  induction r as [|[k2 v2] r IH]; [reflexivity|]. cbn [forallb fst mget]. intros H.
  apply andb_true_iff in H as [H1 H2]. destruct (str_eqb k k2) eqn:E; [|now apply IH].
  apply str_eqb_eq in E. subst k2. apply Z.ltb_lt in H1. lia.
Qed.

Lemma canonical_key_ok fs : forall m k v, canonical fs m -> In (k, v) m -> key_ok fs k v = true.
Proof.
  unfold canonical. induction m as [|[k' v'] m IH]; intros k v H Hin; [contradiction|].
  cbn [canonicalb] in H. apply andb_true_iff in H as [H H3]. apply andb_true_iff in H as [H1 H2].
  destruct Hin as [E|Hin]; [inversion E; now subst|now apply IH].
Qed.

Lemma minsert_mremove_canonical fs k v : forall m, canonical fs m -> mget m k = Some v ->
  minsert fs (mremove m k) k v = m.
Proof.
  unfold canonical. induction m as [|[k' v'] m IH]; intros H Hg; [discriminate|].
  cbn [canonicalb] in H. apply andb_true_iff in H as [H H3]. apply andb_true_iff in H as [H1 H2].
  cbn [mget] in Hg. cbn [mremove]. destruct (str_eqb k k') eqn:E.
  - apply str_eqb_eq in E. subst k'. inversion Hg. subst v'.
    rewrite (mremove_absent m k (mget_later fs k m H2)).
    destruct m as [|[k2 v2] m]; [reflexivity|]. cbn [minsert].
    cbn [forallb fst] in H2. apply andb_true_iff in H2 as [H2 _]. now rewrite H2.
  - cbn [minsert].
    assert (L : (field_num fs k <? field_num fs k')%Z = false).
    { apply Z.ltb_ge. rewrite forallb_forall in H2. specialize (H2 (k, v) (mget_In _ _ _ Hg)).
      cbn [fst] in H2. apply Z.ltb_lt in H2. lia. }
    rewrite L. f_equal. now apply IH.
Qed.

Lemma mset_scalar_same_canonical fs m f : canonical fs m ->
  find_field fs (f_name f) = Some f -> field_url_ok f = true ->
  mset_scalar fs m f (scalar_of m f) = m.
Proof.
  intros Hc Hf Hok. unfold mset_scalar, scalar_of.
  destruct (mget m (f_name f)) as [v|] eqn:Eg.
  - pose proof (canonical_key_ok fs m _ _ Hc (mget_In _ _ _ Eg)) as K. unfold key_ok in K.
    rewrite Hf, Hok in K. destruct v as [x| | |]; try discriminate K.
    apply negb_true_iff in K. rewrite K. now apply minsert_mremove_canonical.
  - rewrite is_zero_zero_of. now apply mremove_absent.
Qed.

Lemma set_vars_canonical fs m : canonical fs m -> forall vars,
  (forall v f, In v vars -> find_field fs v = Some f -> field_url_ok f = true) ->
  set_vars fs m vars m = m.
Proof.
  intros Hc. induction vars as [|v vars IH]; intros H; [reflexivity|]. cbn [set_vars].
  assert (H' : forall v0 f, In v0 vars -> find_field fs v0 = Some f -> field_url_ok f = true).
  { intros v0 f Hin. apply H. now right. }
  destruct (find_field fs v) as [f|] eqn:Ef; [|now apply IH].
  destruct (find_field_some fs v f Ef) as [_ Hname].
  rewrite mset_scalar_same_canonical; [now apply IH|exact Hc|now rewrite Hname|].
  now apply (H v f (or_introl eq_refl)).
Qed.

Fixpoint strs_eqb (a b : list str) : bool :=
  match a, b with
  | [], [] => true
  | x :: a', y :: b' => str_eqb x y && strs_eqb a' b'
  | _, _ => false
  end.

Lemma strs_eqb_eq a : forall b, strs_eqb a b = true -> a = b.
Proof.
  induction a as [|x a IH]; intros [|y b] H; cbn in H; try discriminate; [reflexivity|].
  apply andb_true_iff in H as [H1 H2]. apply str_eqb_eq in H1. subst. f_equal. now apply IH.
Qed.

Lemma strs_eqb_refl a : strs_eqb a a = true.
Proof. induction a as [|x a IH]; [reflexivity|]. cbn. now rewrite str_eqb_refl. Qed.

(* the variables of the client's template are exactly the variables of the method's own path
   (none come from the service base path) *)
Definition template_ok (r : rpc_info) : bool :=
  match tsegs (client_path r) with
  | Some segs => strs_eqb (seg_vars segs) (path_vars r)
  | None => false
  end.

Lemma template_ok_spec r : template_ok r = true <->
  exists segs, tsegs (client_path r) = Some segs /\ seg_vars segs = path_vars r.
Proof.
  unfold template_ok. destruct (tsegs (client_path r)) as [segs|]; split.
  - intros H. exists segs. split; [reflexivity|now apply strs_eqb_eq].
  - intros [segs' [E <-]]. inversion E. apply strs_eqb_refl.
  - discriminate.
  - intros [segs' [E _]]. discriminate.
Qed.

Definition path_vals_nonempty (fs : list field) (req : mval) (vars : list str) : bool :=
  forallb (fun v => negb (str_eqb (var_val fs req v) [])) vars.

Lemma path_vals_nonempty_spec fs req vars :
  path_vals_nonempty fs req vars = true <-> forall v, In v vars -> var_val fs req v <> [].
Proof.
  unfold path_vals_nonempty. rewrite forallb_forall.
  split; intros H v Hv; specialize (H v Hv); [apply negb_true_iff in H|apply negb_true_iff]; now apply str_eqb_neq.
Qed.

Definition req_typed (fs : list field) (req : mval) : Prop :=
  forall f, In f fs -> url_kind_ok (f_kind f) = true -> typed_scalar (f_kind f) (scalar_of req f).

Definition req_typedb (fs : list field) (req : mval) : bool :=
  forallb (fun f => negb (url_kind_ok (f_kind f)) || typed_scalarb (f_kind f) (scalar_of req f)) fs.

Lemma req_typedb_sound fs req : req_typedb fs req = true -> req_typed fs req.
Proof.
  unfold req_typedb, req_typed. intros H f Hin Hk. rewrite forallb_forall in H.
  specialize (H f Hin). rewrite Hk in H. cbn [negb orb] in H. now apply typed_scalarb_sound.
Qed.

Lemma verb_eqb_refl v : verb_eqb v v = true.
Proof. now destruct v. Qed.

Lemma field_url_ok_kind f : field_url_ok f = true -> url_kind_ok (f_kind f) = true.
Proof. unfold field_url_ok. intros H. now apply andb_true_iff in H as [H _]. Qed.

(* stated on the answer, so that the messages of the unmodelled cases stay out of the proofs *)
Lemma server_handle_routed rs w ct resp p r0 b x :
  w_path w = slash :: p -> clean_segs (split_on slash p) = true ->
  find_route rs (w_verb w) (split_on slash p) = Some (r0, b) ->
  server_handle rs w ct resp = Ok x ->
  x = match body_start (rt_body (sr_route r0)) ct (w_body w) with
      | inr f => inr (inl f)
      | inl m0 =>
          match bind_path (sr_fields r0) (rt_pathvars (sr_route r0)) b m0 with
          | inr f => inr (inl f)
          | inl m1 =>
              match bind_query (sr_fields r0) (query_fields (sr_fields r0)) (w_query w) m1 with
              | inr f => inr (inl f)
              | inl m2 => inl (Some (m2, (server_fmt ct, resp)))
              end
          end
      end.
Proof.
  intros Hp Hc Hf H. unfold server_handle in H.
  set (msg1 := s _) in H. set (msg2 := s _) in H. clearbody msg1 msg2.
  rewrite Hp, Hc in H. cbn [negb] in H. rewrite Hf in H.
  destruct (is_subtree (sr_pat r0) && slash_redirect rs (w_verb w) (split_on slash p)); [discriminate|].
  destruct (negb (all_singular_url (sr_fields r0) (rt_pathvars (sr_route r0)))); [discriminate|].
  destruct (body_start (rt_body (sr_route r0)) ct (w_body w)) as [m0|f]; [|now inversion H].
  destruct (bind_path (sr_fields r0) (rt_pathvars (sr_route r0)) b m0) as [m1|f]; [|now inversion H].
  destruct (bind_query (sr_fields r0) (query_fields (sr_fields r0)) (w_query w) m1); now inversion H.
Qed.

(* since 4c12f0f both sides use the same codec for every content type (application/octet-stream included) *)
Lemma fmt_agree ct :
  bfmt_eqb (client_fmt ct) (server_fmt ct) = true /\ bfmt_eqb (server_fmt ct) (client_fmt ct) = true.
Proof. destruct ct; split; reflexivity. Qed.

Lemma body_start_client b ct req :
  body_start b ct (if b then Some (client_fmt ct, req) else None) = inl (if b then req else []).
Proof. destruct b; [|reflexivity]. unfold body_start. now rewrite (proj1 (fmt_agree ct)). Qed.

Lemma split_on_aux_chars c x : forall acc y, In y (split_on_aux c acc x) ->
  forall d, In d y -> In d acc \/ In d x.
Proof.
  induction x as [|e x IH]; intros acc y Hy d Hd; cbn [split_on_aux] in Hy.
  - destruct Hy as [<-|[]]. left. now apply in_rev.
  - destruct (Ascii.eqb e c).
    + destruct Hy as [<-|Hy]; [left; now apply in_rev|].
      destruct (IH [] y Hy d Hd) as [[]|H]. right. now right.
    + destruct (IH (e :: acc) y Hy d Hd) as [[<-|H]|H]; [right; now left|now left|right; now right].
Qed.

Lemma split_on_chars c x y : In y (split_on c x) -> forall d, In d y -> In d x.
Proof. intros Hy d Hd. destruct (split_on_aux_chars c x [] y Hy d Hd) as [[]|H]. exact H. Qed.

Lemma extract_skip x rest : ~ In lbrace x ->
  extract_params_aux None (x ++ rest) = extract_params_aux None rest.
Proof.
  induction x as [|d x IH]; intros H; [reflexivity|]. cbn [app extract_params_aux].
  assert (E : Ascii.eqb d lbrace = false).
  { apply Ascii.eqb_neq. intros ->. apply H. now left. }
  rewrite E. apply IH. intros Hin. apply H. now right.
Qed.

Lemma extract_var m rest : forall acc, ~ In rbrace m -> rev acc ++ m <> [] ->
  extract_params_aux (Some acc) (m ++ rbrace :: rest) = (rev acc ++ m) :: extract_params_aux None rest.
Proof.
  induction m as [|d m IH]; intros acc Hm Hne.
  - cbn [app extract_params_aux]. rewrite Ascii.eqb_refl. rewrite app_nil_r in *.
    destruct acc as [|a acc]; [now contradiction Hne|reflexivity].
  - cbn [app extract_params_aux].
    assert (E : Ascii.eqb d rbrace = false).
    { apply Ascii.eqb_neq. intros ->. apply Hm. now left. }
    rewrite E, IH.
    + cbn [rev]. now rewrite <- app_assoc.
    + intros Hin. apply Hm. now right.
    + cbn [rev]. rewrite <- app_assoc. cbn [app]. intros Hn. now apply app_eq_nil in Hn as [_ Hn].
Qed.

Lemma extract_seg x g rest : seg_of x = Some g ->
  extract_params_aux None (x ++ rest) =
  match g with SVar v => [v] | SLit _ => [] end ++ extract_params_aux None rest.
Proof.
  destruct g as [y|m]; intros H.
  - apply seg_of_lit in H as [_ Hb]. cbn [app]. apply extract_skip. now apply has_brace_false in Hb.
  - apply seg_of_var in H as [-> [Hm Hne]].
    cbn [app extract_params_aux]. rewrite Ascii.eqb_refl, <- app_assoc. cbn [app].
    now rewrite extract_var.
Qed.

Lemma extract_join : forall l segs, all_some (map seg_of l) = Some segs ->
  extract_params_aux None (join_with [slash] l) = seg_vars segs.
Proof.
  induction l as [|x l IH]; intros segs H.
  - cbn in H. inversion H. reflexivity.
  - cbn [map all_some] in H. destruct (seg_of x) as [g|] eqn:Eg; [|discriminate].
    destruct (all_some (map seg_of l)) as [t|] eqn:Et; [|discriminate]. inversion H; subst segs.
    change (seg_vars (g :: t)) with (match g with SVar v => [v] | SLit _ => [] end ++ seg_vars t).
    destruct l as [|y l].
    + cbn in Et. inversion Et; subst t. cbn [join_with].
      rewrite <- (app_nil_r x) at 1. now rewrite (extract_seg x g [] Eg).
    + change (join_with [slash] (x :: y :: l)) with (x ++ slash :: join_with [slash] (y :: l)).
      rewrite (extract_seg x g _ Eg). f_equal.
      change (extract_params_aux None (slash :: join_with [slash] (y :: l)))
        with (extract_params_aux None (join_with [slash] (y :: l))).
      now apply IH.
Qed.

Lemma extract_tsegs p segs : tsegs p = Some segs -> extract_path_params p = seg_vars segs.
Proof.
  unfold tsegs. destruct p as [|c rest]; [discriminate|].
  destruct (Ascii.eqb c slash) eqn:E; [|discriminate]. apply Ascii.eqb_eq in E. subst c.
  intros H. apply extract_join in H. rewrite join_split in H. exact H.
Qed.

Lemma trim_suffix_In c p x : In c (trim_suffix p x) -> In c x.
Proof. unfold trim_suffix. destruct (has_suffix p x); [apply firstn_In|trivial]. Qed.

Lemma ensure_leading_slash_In c p : In c (ensure_leading_slash p) -> c = slash \/ In c p.
Proof.
  unfold ensure_leading_slash. destruct p as [|d p]; [intros [<-|[]]; now left|].
  destruct (has_prefix [slash] (d :: p)); [now right|]. intros [<-|H]; [now left|now right].
Qed.

Lemma extract_slash_tail x : extract_path_params (slash :: x) = extract_path_params x.
Proof. reflexivity. Qed.

Lemma extract_client_path r : cfg_path r <> [] -> ~ In lbrace (ri_base r) ->
  extract_path_params (client_path r) = path_vars r.
Proof.
  intros Hc Hb. unfold client_path, path_vars.
  destruct (cfg_path r) as [|c cs] eqn:Ec; [congruence|].
  unfold cfg_path in Ec. destruct (ri_has_cfg r); [|discriminate]. rewrite Ec.
  unfold build_http_path. destruct (ri_base r) as [|b bs] eqn:Eb.
  - unfold ensure_leading_slash. destruct (has_prefix [slash] (c :: cs)); reflexivity.
  - unfold extract_path_params. rewrite extract_skip.
    + cbn [app]. change (extract_params_aux None (slash :: trim_prefix [slash] (c :: cs)))
        with (extract_params_aux None (trim_prefix [slash] (c :: cs))).
      destruct (has_prefix [slash] (c :: cs)) eqn:Ep.
      * apply has_prefix_cons1 in Ep as [t Et]. rewrite Et, trim_prefix_cons1_hit. reflexivity.
      * now rewrite trim_prefix_miss.
    + intros Hin. apply trim_suffix_In in Hin. apply ensure_leading_slash_In in Hin as [Hin|Hin].
      * discriminate Hin.
      * now apply Hb.
Qed.

(* the template the server registers is the client's own, once the routes agree and the base path holds no variable *)
Lemma template_ok_of_tsegs r segs :
  filter route_defect (defects_C03 r) = [] -> ~ In lbrace (ri_base r) ->
  tsegs (client_path r) = Some segs -> template_ok r = true.
Proof.
  intros Hr Hbase Ht.
  assert (Hcfg : cfg_path r <> []).
  { unfold defects_C03 in Hr. apply filter_nil_app in Hr as [Hr _].
    intros E. rewrite E in Hr. discriminate. }
  unfold template_ok. rewrite Ht.
  rewrite <- (extract_client_path _ Hcfg Hbase), (extract_tsegs _ _ Ht). apply strs_eqb_refl.
Qed.

Section Call.
Variables (sc : schema) (fl : file) (sv : service) (md : method) (ct : ctype) (req : mval).
Notation fs := (in_fields sc md).
Notation r := (info_of fl sv md (in_fields sc md)).

(* what an empty defect list says, a field for each defect *)
Record c01_clean : Prop := {
  c01_route : filter route_defect (defects_C03 r) = [];
  c01_dot : forall v f, In v (path_vars r) -> find_field fs v = Some f -> dirty_seg (sprint (scalar_of req f)) = false;
  c01_slash : forall v f, In v (path_vars r) -> find_field fs v = Some f ->
                str_eqb (sprint (scalar_of req f)) [slash] = false;
  c01_body_query : verb_has_body (eff_verb r) = true -> existsb qrequired (query_fields fs) = false;
  c01_pattern : server_routes sc fl sv <> Ok None;
  c01_sibling : forall w rs, client_build fl sv md fs ct req = Ok w -> server_routes sc fl sv = Ok (Some rs) ->
                  forall n, dispatched_to rs w = Some n -> n = md_name md;
  c01_zero : verb_has_body (eff_verb r) = false ->
               forall f, In f (query_fields fs) -> qrequired f = true -> is_zero (scalar_of req f) = false;
  c01_base : ~ In lbrace (ri_base r);
  c01_dup : verb_has_body (eff_verb r) = false -> NoDup (map qname (query_fields fs))
}.

Lemma defects_nil_inv : defects_C01 sc fl sv md ct req = [] -> c01_clean.
Proof.
  unfold defects_C01. cbv zeta. intros H.
  apply app_eq_nil in H as [H1 H].
  apply app_eq_nil in H as [H3 H]. apply app_eq_nil in H as [H4 H].
  apply app_eq_nil in H as [H5 H]. apply app_eq_nil in H as [H6 H].
  apply app_eq_nil in H as [H7 H]. apply app_eq_nil in H as [H8 H].
  apply app_eq_nil in H as [H9 H10].
  apply map_eq_nil in H1. apply if_nil in H3, H4, H5, H8, H9, H10.
  split.
  - exact H1.
  - intros v f Hv Hf. pose proof (proj1 (existsb_false _ _) H3 v Hv) as F. cbv beta in F. now rewrite Hf in F.
  - intros v f Hv Hf. pose proof (proj1 (existsb_false _ _) H4 v Hv) as F. cbv beta in F. now rewrite Hf in F.
  - intros Hb. now rewrite Hb in H5.
  - intros E. rewrite E in H6. discriminate.
  - intros w rs Hw Hrs n Hn. rewrite Hw, Hrs, Hn in H7.
    destruct (str_eqb n (md_name md)) eqn:E; [now apply str_eqb_eq in E|discriminate].
  - intros Hb f Hf Hr. rewrite Hb in H8. cbn [negb andb] in H8.
    pose proof (proj1 (existsb_false _ _) H8 f Hf) as F. cbv beta in F. now rewrite Hr in F.
  - now apply in_chars_false.
  - intros Hb. rewrite Hb in H10. cbn [negb andb] in H10. now apply dupb_false_NoDup.
Qed.

Lemma defects_nil_inv2 : defects_C01 sc fl sv md ct req = [] ->
  (verb_has_body (eff_verb r) = false ->
     forall f, In f (query_fields fs) -> qrequired f = true -> is_zero (scalar_of req f) = false) /\
  ~ In lbrace (ri_base r) /\
  (verb_has_body (eff_verb r) = false -> NoDup (map qname (query_fields fs))).
Proof. intros H. pose proof (defects_nil_inv H) as C. exact (conj (c01_zero C) (conj (c01_base C) (c01_dup C))). Qed.

Lemma client_build_inv w : client_build fl sv md fs ct req = Ok w ->
  exists segs filled q,
    tsegs (client_path r) = Some segs /\
    client_template_plain (path_vars r) segs = true /\
    all_ok (map (fill_seg fs req) segs) = Ok filled /\
    (if verb_has_body (eff_verb r) then Ok [] else client_query fs req) = Ok q /\
    w_verb w = eff_verb r /\ w_path w = slash :: join_with [slash] filled /\
    w_query w = sort_kv q /\
    w_body w = (if verb_has_body (eff_verb r) then Some (client_fmt ct, req) else None).
Proof.
  unfold client_build. set (msg1 := s _). set (msg2 := s _). clearbody msg1 msg2.
  cbv zeta. cbn [rt_path rt_body rt_verb rt_pathvars go_client client_route].
  destruct (tsegs (client_path r)) as [segs|] eqn:E1; [|discriminate].
  destruct (client_template_plain (path_vars r) segs) eqn:E0; cbn [negb]; [|discriminate].
  destruct (all_ok (map (fill_seg fs req) segs)) as [filled|] eqn:E2; [|discriminate].
  destruct (if verb_has_body (eff_verb r) then Ok [] else client_query fs req) as [q|] eqn:E3; [|discriminate].
  intros H. inversion H. exists segs, filled, q.
  repeat split; try reflexivity; try assumption.
Qed.

Lemma call_core w rs :
  client_build fl sv md fs ct req = Ok w ->
  server_routes sc fl sv = Ok (Some rs) ->
  defects_C01 sc fl sv md ct req = [] ->
  In md (sv_methods sv) -> NoDup (map md_name (sv_methods sv)) ->
  path_vals_nonempty fs req (path_vars r) = true ->
  exists p r0,
    w_path w = slash :: p /\ clean_segs (split_on slash p) = true /\
    find_route rs (w_verb w) (split_on slash p) = Some (r0, bindings fs req (path_vars r)) /\
    sr_fields r0 = fs /\ sr_route r0 = go_server r /\
    (forall v, In v (path_vars r) -> exists f, find_field fs v = Some f /\ field_url_ok f = true).
Proof.
  intros Hcb Hsr Hdef Hmd Hnd Hne. pose proof (defects_nil_inv Hdef) as C.
  destruct (client_build_inv w Hcb) as [segs [filled [q [Hts [_ [Hfill [_ [Hverb [Hpath _]]]]]]]]].
  destruct (proj1 (template_ok_spec r) (template_ok_of_tsegs r segs (c01_route C) (c01_base C) Hts)) as [segs' [Hts' Hvars]].
  rewrite Hts in Hts'. inversion Hts'; subst segs'.
  apply fill_all in Hfill as [-> Hfields]. rewrite Hvars in Hfields.
  rewrite path_vals_nonempty_spec in Hne.
  pose proof (c01_dot C) as Hdirty. pose proof (c01_slash C) as Hslash.
  pose proof (c01_sibling C) as Hdisp. pose proof (route_agree _ (c01_route C)) as Hroute.
  destruct (server_routes_inv sc fl sv rs Hsr) as [Hnopanic Hin_rs].
  assert (Hpat : md_pattern sc fl sv md = PatOk segs /\ clean_segs (map pat_seg_str segs) = true).
  { unfold md_pattern. rewrite Hroute. apply server_pattern_of_tsegs; [exact Hts|].
    rewrite <- Hroute. apply (Hnopanic md Hmd). }
  destruct Hpat as [Hpat Hclean_pat].
  assert (Hvv : forall v, In v (seg_vars segs) ->
            var_val fs req v <> [] /\ var_val fs req v <> [slash] /\ dirty_seg (var_val fs req v) = false).
  { rewrite Hvars. intros v Hv. destruct (Hfields v Hv) as [f [Hf _]].
    split; [now apply Hne|]. rewrite (var_val_field fs req v f Hf). split.
    - apply str_eqb_neq. now apply (Hslash v f).
    - now apply (Hdirty v f). }
  set (filled := map (fill_str fs req path_escape) segs) in *.
  assert (Hmatch : match_segs segs filled = Some (bindings fs req (path_vars r))).
  { rewrite <- Hvars. apply (match_fill_map fs req path_escape path_escape_codec). intros v Hv.
    destruct (Hvv v Hv) as [A [B _]]. now split. }
  pose proof (split_fill fs req path_escape path_escape_codec _ segs Hts) as Hsplit. fold filled in Hsplit.
  assert (Hclean : clean_segs filled = true).
  { apply (clean_fill fs req path_escape path_escape_codec); [exact Hclean_pat|].
    intros v Hv. destruct (Hvv v Hv) as [A [_ D]]. now split. }
  assert (Hrmd : In (sroute_of sc fl sv md segs) rs).
  { apply Hin_rs. exists md, segs. repeat split; assumption. }
  exists (join_with [slash] filled). rewrite Hsplit, Hverb.
  destruct (find_route rs (eff_verb r) filled) as [[r0 b0]|] eqn:Efr.
  - (* the route found is md's own: its name is md's by the defect list, and names are distinct *)
    destruct (find_route_sound _ _ _ _ _ Efr) as [Hr0 [_ Hm0]].
    assert (Hn : md_name (sr_md r0) = md_name md).
    { apply (Hdisp w rs Hcb Hsr). unfold dispatched_to. now rewrite Hpath, Hsplit, Hverb, Efr. }
    apply Hin_rs in Hr0 as [md0 [p0 [Hmd0 [Hp0 ->]]]]. cbn [sr_md sroute_of] in Hn.
    assert (md0 = md) by (apply (NoDup_map_inj md_name (sv_methods sv)); assumption). subst md0.
    rewrite Hpat in Hp0. inversion Hp0; subst p0.
    cbn [sr_pat sroute_of] in Hm0. rewrite Hmatch in Hm0. inversion Hm0; subst b0.
    exists (sroute_of sc fl sv md segs). repeat split; try reflexivity; assumption.
  - exfalso. revert Efr. apply (find_route_complete rs _ _ _ _ Hrmd (verb_eqb_refl _) Hmatch).
Qed.

(* a call outside the defect classes reaches md's own route; there the server binds the path and query
   values on top of the body (or of the empty message), and the handler sees the result *)
Lemma go_call_bound resp w o :
  go_call sc fl sv md ct req resp = Ok (w, o) ->
  defects_C01 sc fl sv md ct req = [] ->
  In md (sv_methods sv) -> NoDup (map md_name (sv_methods sv)) ->
  path_vals_nonempty fs req (path_vars r) = true ->
  exists q,
    (if verb_has_body (eff_verb r) then Ok [] else client_query fs req) = Ok q /\
    (forall v, In v (path_vars r) -> exists f, find_field fs v = Some f /\ field_url_ok f = true) /\
    forall m1 saw,
      bind_path fs (path_vars r) (bindings fs req (path_vars r)) (if verb_has_body (eff_verb r) then req else [])
        = inl m1 ->
      bind_query fs (query_fields fs) (sort_kv q) m1 = inl saw -> o = Delivered saw resp.
Proof.
  intros Hcall Hdef Hmd Hnd Hne.
  unfold go_call in Hcall. cbv zeta in Hcall.
  destruct (client_build fl sv md fs ct req) as [w0|] eqn:Hcb; [|discriminate].
  pose proof (c01_pattern (defects_nil_inv Hdef)) as Hnopanic.
  destruct (server_routes sc fl sv) as [[rs|]|] eqn:Hsr; [|congruence|discriminate].
  destruct (call_core w0 rs Hcb Hsr Hdef Hmd Hnd Hne) as [p [r0 [Hpath [Hclean [Hfr [Hfs [Hrt Hfields]]]]]]].
  destruct (client_build_inv w0 Hcb) as [_ [_ [q [_ [_ [_ [Hq [_ [_ [Hwq Hwb]]]]]]]]]].
  exists q. split; [exact Hq|]. split; [exact Hfields|]. intros m1 saw H1 H2.
  destruct (server_handle rs w0 ct resp) as [x|] eqn:Hsh; [|discriminate].
  apply (server_handle_routed rs w0 ct resp p r0 _ x Hpath Hclean Hfr) in Hsh.
  rewrite Hfs, Hrt in Hsh. cbn [rt_pathvars rt_body go_server] in Hsh.
  rewrite Hwb, body_start_client, H1, Hwq, H2 in Hsh. subst x.
  rewrite (proj2 (fmt_agree ct)) in Hcall. now inversion Hcall.
Qed.

End Call.

Section Body.
Variables (sc : schema) (fl : file) (sv : service) (md : method) (ct : ctype) (req : mval).
Notation fs := (in_fields sc md).
Notation r := (info_of fl sv md (in_fields sc md)).

Theorem go_call_body : forall resp w o,
  go_call sc fl sv md ct req resp = Ok (w, o) ->
  defects_C01 sc fl sv md ct req = [] ->
  verb_has_body (eff_verb r) = true ->
  In md (sv_methods sv) -> NoDup (map md_name (sv_methods sv)) ->
  path_vals_nonempty fs req (path_vars r) = true ->
  req_typed fs req ->
  canonical fs req ->
  o = Delivered req resp.
Proof.
  intros resp w o Hcall Hdef Hbody Hmd Hnd Hne Hty Hcan.
  destruct (go_call_bound sc fl sv md ct req resp w o Hcall Hdef Hmd Hnd Hne) as [q [Hq [Hfields Hbound]]].
  pose proof (c01_body_query _ _ _ _ _ _ (defects_nil_inv _ _ _ _ _ _ Hdef)) as Hreq.
  rewrite Hbody in Hq, Hbound. inversion Hq; subst q.
  assert (Hok : forall v f, In v (path_vars r) -> find_field fs v = Some f -> field_url_ok f = true).
  { intros v f Hv Hf. destruct (Hfields v Hv) as [f' [Hf' Hok]]. congruence. }
  apply (Hbound req req).
  - rewrite (bind_path_ok fs req (path_vars r) (path_vars r) req).
    + (* re-binding the request's own path values on top of the request changes nothing *)
      now rewrite (set_vars_canonical fs req Hcan).
    + apply incl_refl.
    + intros v f Hv Hf. pose proof (field_url_ok_kind f (Hok v f Hv Hf)) as Hk. repeat split.
      * now apply (proj1 (path_vals_nonempty_spec _ _ _) Hne).
      * exact Hk.
      * apply Hty; [|exact Hk]. now apply (find_field_some fs v f).
  - apply bind_query_nil. now apply Hreq.
Qed.

End Body.

Definition qgen (req : mval) (f : field) : list (str * str) :=
  if is_zero (scalar_of req f) then [] else [(qname f, sprint (scalar_of req f))].

Lemma client_query_gen req msg : forall L q,
  all_ok (flat_map (fun f =>
            if url_kind_ok (f_kind f) && match f_card f with Singular => true | _ => false end
            then (let v := scalar_of req f in if is_zero v then [] else [Ok (qname f, sprint v)])
            else [Unmodelled msg]) L) = Ok q ->
  (forall f, In f L -> field_url_ok f = true) /\ q = flat_map (qgen req) L.
Proof.
  induction L as [|f L IH]; intros q H.
  - cbn in H. inversion H. split; [intros f []|reflexivity].
  - cbn [flat_map] in H. cbv zeta in H.
    destruct (url_kind_ok (f_kind f) && match f_card f with Singular => true | _ => false end) eqn:Eok.
    + destruct (is_zero (scalar_of req f)) eqn:Ez.
      * cbn [app] in H. destruct (IH q H) as [A B]. split.
        -- intros g [<-|Hg]; [exact Eok|now apply A].
        -- cbn [flat_map]. unfold qgen at 1. rewrite Ez. exact B.
      * cbn [app] in H. apply all_ok_cons in H as [x [t [Hx [Ht ->]]]]. inversion Hx; subst x.
        destruct (IH t Ht) as [A B]. split.
        -- intros g [<-|Hg]; [exact Eok|now apply A].
        -- cbn [flat_map]. unfold qgen at 1. rewrite Ez. cbn [app]. now f_equal.
    + cbn [app all_ok] in H. discriminate.
Qed.

Lemma qgen_keys req : forall L k, In k (map fst (flat_map (qgen req) L)) -> In k (map qname L).
Proof.
  induction L as [|h L IH]; intros k H; [contradiction|].
  cbn [flat_map] in H. rewrite map_app in H. apply in_app_or in H as [H|H].
  - unfold qgen in H. destruct (is_zero (scalar_of req h)); [contradiction|].
    destruct H as [<-|[]]. now left.
  - right. now apply IH.
Qed.

Lemma qgen_nodup req : forall L, NoDup (map qname L) -> NoDup (map fst (flat_map (qgen req) L)).
Proof.
  induction L as [|h L IH]; intros H; [constructor|].
  cbn [map] in H. inversion H as [|? ? Hni Hnd]; subst.
  cbn [flat_map]. rewrite map_app. unfold qgen at 1.
  destruct (is_zero (scalar_of req h)); cbn [map app fst].
  - now apply IH.
  - constructor; [|now apply IH]. intros Hin. apply Hni. now apply (qgen_keys req).
Qed.

Lemma qgen_values req : forall L, NoDup (map qname L) -> forall f, In f L ->
  query_values (flat_map (qgen req) L) (qname f) =
  if is_zero (scalar_of req f) then [] else [sprint (scalar_of req f)].
Proof.
  unfold query_values.
  induction L as [|h L IH]; intros Hnd f Hin; [contradiction|].
  cbn [map] in Hnd. inversion Hnd as [|? ? Hni Hnd']; subst.
  cbn [flat_map]. rewrite filter_app, map_app.
  destruct Hin as [->|Hin].
  - rewrite (proj2 (filter_nil _ (flat_map (qgen req) L))).
    2: { intros y Hy. apply str_eqb_neq. intros E. apply Hni. rewrite <- E.
         apply (qgen_keys req). now apply in_map. }
    rewrite app_nil_r. unfold qgen. destruct (is_zero (scalar_of req f)); [reflexivity|].
    cbn [filter fst]. rewrite str_eqb_refl. reflexivity.
  - assert (Hne : qname h <> qname f).
    { intros E. apply Hni. rewrite E. now apply in_map. }
    rewrite (proj2 (filter_nil _ (qgen req h))).
    2: { intros y Hy. unfold qgen in Hy. destruct (is_zero (scalar_of req h)); [contradiction|].
         destruct Hy as [<-|[]]. cbn [fst]. now apply str_eqb_neq. }
    cbn [app map]. now apply IH.
Qed.

Definition str_dec : forall a b : str, {a = b} + {a <> b} := list_eq_dec ascii_dec.

(* Binding the path variables and then the query fields writes, key by key, the entry the request gives
   the field of that name; a query field holding its zero value is not on the URL and is not written. *)
Definition req_entry (fs : list field) (req : mval) (k : str) : option fval :=
  match find_field fs k with Some f => entry_of (scalar_of req f) | None => None end.

Definition mset_keys (fs : list field) : (str -> option fval) -> list str -> mval -> mval :=
  set_keys mval fval (mset fs).

Lemma mget_set_keys fs X ks m k :
  mget (mset_keys fs X ks m) k = if existsb (str_eqb k) ks then X k else mget m k.
Proof. exact (get_set_keys mval fval mget (mset fs) (mget_mset fs) X ks m k). Qed.

Lemma req_entry_field fs req f : NoDup (map f_name fs) -> In f fs ->
  req_entry fs req (f_name f) = entry_of (scalar_of req f).
Proof. intros Hnd Hf. unfold req_entry. now rewrite (find_field_nodup fs f Hnd Hf). Qed.

Lemma set_vars_keys fs req : forall vars m,
  (forall v, In v vars -> find_field fs v <> None) ->
  set_vars fs req vars m = mset_keys fs (req_entry fs req) vars m.
Proof.
  induction vars as [|v vars IH]; intros m H; [reflexivity|].
  cbn [set_vars]. unfold mset_keys, set_keys. cbn [fold_left]. unfold req_entry at 2.
  destruct (find_field fs v) as [f|] eqn:Ef; [|now contradiction (H v (or_introl eq_refl))].
  destruct (find_field_some fs v f Ef) as [_ <-]. rewrite <- mset_scalar_mset.
  apply IH. intros u Hu. apply H. now right.
Qed.

Definition sent (req : mval) (f : field) : bool := negb (is_zero (scalar_of req f)).

Lemma set_query_keys fs req : NoDup (map f_name fs) -> forall qfs m, incl qfs fs ->
  set_query fs req qfs m = mset_keys fs (req_entry fs req) (map f_name (filter (sent req) qfs)) m.
Proof.
  intros Hnd. induction qfs as [|f qfs IH]; intros m Hincl; [reflexivity|].
  assert (Hrec : forall m', set_query fs req qfs m' =
            mset_keys fs (req_entry fs req) (map f_name (filter (sent req) qfs)) m').
  { intros m'. apply IH. intros x Hx. apply Hincl. now right. }
  cbn [set_query filter]. unfold sent at 1. destruct (is_zero (scalar_of req f)) eqn:Ez; cbn [negb map]; [apply Hrec|].
  unfold mset_keys, set_keys. cbn [fold_left].
  rewrite (req_entry_field fs req f Hnd (Hincl f (or_introl eq_refl))), <- mset_scalar_mset. apply Hrec.
Qed.

Lemma query_fields_In fs f : In f (query_fields fs) <-> In f fs /\ f_query f <> None.
Proof.
  unfold query_fields. rewrite filter_In. split; intros [H1 H2]; (split; [exact H1|]).
  - destruct (f_query f); [discriminate|discriminate].
  - destruct (f_query f); [reflexivity|congruence].
Qed.

(* Every key of what the server has bound holds the request's entry: a field is a path variable, a query field
   that was sent, or a query field at its zero value, which has no entry. *)
Lemma bound_scalars fs req vars :
  NoDup (map f_name fs) -> (forall v, In v vars -> find_field fs v <> None) ->
  (forall f, In f fs -> In (f_name f) vars \/ f_query f <> None) ->
  forall f, In f fs -> typed_scalar (f_kind f) (scalar_of req f) ->
  scalar_of (set_query fs req (query_fields fs) (set_vars fs req vars [])) f = scalar_of req f.
Proof.
  intros Hfnd Hvars Hcover f Hf Ht. apply (scalar_of_entry _ f _ Ht).
  rewrite set_query_keys, set_vars_keys, !mget_set_keys,
    (req_entry_field fs req f Hfnd Hf).
  2: { exact Hvars. }
  2: { exact Hfnd. }
  2: { intros x Hx. now apply query_fields_In in Hx as [Hx _]. }
  destruct (existsb (str_eqb (f_name f)) (map f_name (filter (sent req) (query_fields fs)))) eqn:E1; [reflexivity|].
  destruct (existsb (str_eqb (f_name f)) vars) eqn:E2; [reflexivity|].
  cbn [mget]. unfold entry_of. destruct (is_zero (scalar_of req f)) eqn:Ez; [reflexivity|]. exfalso.
  destruct (Hcover f Hf) as [Hp|Hquery].
  - apply existsb_str_eqb_In in Hp. congruence.
  - assert (Hin : In (f_name f) (map f_name (filter (sent req) (query_fields fs)))).
    { apply in_map, filter_In. split; [now apply query_fields_In|]. unfold sent. now rewrite Ez. }
    apply existsb_str_eqb_In in Hin. congruence.
Qed.

Section NoBody.
Variables (sc : schema) (fl : file) (sv : service) (md : method) (ct : ctype) (req : mval).
Notation fs := (in_fields sc md).
Notation r := (info_of fl sv md (in_fields sc md)).

Theorem go_call_nobody : forall resp w o,
  go_call sc fl sv md ct req resp = Ok (w, o) ->
  defects_C01 sc fl sv md ct req = [] ->
  verb_has_body (eff_verb r) = false ->
  In md (sv_methods sv) -> NoDup (map md_name (sv_methods sv)) ->
  path_vals_nonempty fs req (path_vars r) = true ->
  req_typed fs req ->
  NoDup (map f_name fs) ->
  (forall f, In f fs -> In (f_name f) (path_vars r) \/ f_query f <> None) ->
  exists saw, o = Delivered saw resp /\ forall f, In f fs -> scalar_of saw f = scalar_of req f.
Proof.
  intros resp w o Hcall Hdef Hbody Hmd Hnd Hne Hty Hfnd Hcover.
  pose proof (defects_nil_inv _ _ _ _ _ _ Hdef) as C.
  pose proof (c01_dup _ _ _ _ _ _ C Hbody) as Hqnd. pose proof (c01_zero _ _ _ _ _ _ C Hbody) as Hreqd.
  destruct (go_call_bound sc fl sv md ct req resp w o Hcall Hdef Hmd Hnd Hne) as [q [Hq [Hfields Hbound]]].
  rewrite Hbody in Hq, Hbound. unfold client_query in Hq. apply client_query_gen in Hq as [Hqok ->].
  assert (Hpv : forall v f, In v (path_vars r) -> find_field fs v = Some f ->
            url_kind_ok (f_kind f) = true /\ typed_scalar (f_kind f) (scalar_of req f)).
  { intros v f Hv Hf. destruct (Hfields v Hv) as [f' [Hf' Hok]]. rewrite Hf in Hf'. inversion Hf'; subst f'.
    apply field_url_ok_kind in Hok. split; [exact Hok|].
    apply Hty; [|exact Hok]. now apply (find_field_some fs v f). }
  assert (Hqf : forall f, In f (query_fields fs) ->
            url_kind_ok (f_kind f) = true /\ typed_scalar (f_kind f) (scalar_of req f)).
  { intros f Hf. pose proof (field_url_ok_kind f (Hqok f Hf)) as Hk. split; [exact Hk|].
    apply Hty; [|exact Hk]. now apply query_fields_In in Hf as [Hf _]. }
  exists (set_query fs req (query_fields fs) (set_vars fs req (path_vars r) [])).
  split.
  { apply (Hbound (set_vars fs req (path_vars r) [])).
    - apply bind_path_ok; [apply incl_refl|].
      intros v f Hv Hf. destruct (Hpv v f Hv Hf) as [Hk Ht]. repeat split; [|exact Hk|exact Ht].
      now apply (proj1 (path_vals_nonempty_spec _ _ _) Hne).
    - apply bind_query_ok.
      intros f Hf. destruct (Hqf f Hf) as [Hk Ht]. repeat split; [| |exact Hk|exact Ht].
      + rewrite query_values_sort_kv by now apply qgen_nodup.
        now apply qgen_values.
      + intros Hz. destruct (qrequired f) eqn:Er; [|reflexivity].
        rewrite (Hreqd f Hf Er) in Hz. discriminate. }
  intros f Hf. apply bound_scalars; [exact Hfnd| |exact Hcover|exact Hf|].
  - intros v Hv E. destruct (Hfields v Hv) as [f' [Hf' _]]. congruence.
  - destruct (Hcover f Hf) as [Hp|Hquery].
    + apply (Hpv (f_name f) f Hp). now apply find_field_nodup.
    + apply Hqf. apply query_fields_In. now split.
Qed.

End NoBody.

Lemma template_ok_of_defects sc fl sv md ct req resp w o :
  go_call sc fl sv md ct req resp = Ok (w, o) ->
  defects_C01 sc fl sv md ct req = [] ->
  template_ok (info_of fl sv md (in_fields sc md)) = true.
Proof.
  intros Hcall Hdef. unfold go_call in Hcall. cbv zeta in Hcall.
  destruct (client_build fl sv md (in_fields sc md) ct req) as [w0|] eqn:Hcb; [|discriminate].
  destruct (client_build_inv sc fl sv md ct req w0 Hcb) as [segs [_ [_ [Ht _]]]].
  pose proof (defects_nil_inv _ _ _ _ _ _ Hdef) as C.
  exact (template_ok_of_tsegs _ segs (c01_route _ _ _ _ _ _ C) (c01_base _ _ _ _ _ _ C) Ht).
Qed.

Fixpoint nodupb (l : list str) : bool :=
  match l with
  | [] => true
  | x :: t => negb (existsb (str_eqb x) t) && nodupb t
  end.

Lemma nodupb_sound l : nodupb l = true -> NoDup l.
Proof.
  induction l as [|x l IH]; intros H; [constructor|].
  cbn [nodupb] in H. apply andb_true_iff in H as [H1 H2].
  apply NoDup_cons_existsb; [now apply negb_true_iff|exact (IH H2)].
Qed.

Definition coverb (fs : list field) (vars : list str) : bool :=
  forallb (fun f => existsb (str_eqb (f_name f)) vars ||
                    match f_query f with Some _ => true | None => false end) fs.

Lemma coverb_sound fs vars : coverb fs vars = true ->
  forall f, In f fs -> In (f_name f) vars \/ f_query f <> None.
Proof.
  unfold coverb. intros H f Hf. rewrite forallb_forall in H. specialize (H f Hf).
  apply orb_true_iff in H as [H|H].
  - left. apply existsb_exists in H as [v [Hv E]]. apply str_eqb_eq in E. now rewrite E.
  - right. destruct (f_query f); [discriminate|discriminate].
Qed.

Definition required_sentb (fs : list field) (req : mval) : bool :=
  forallb (fun f => negb (qrequired f) || negb (is_zero (scalar_of req f))) (query_fields fs).

Lemma required_sentb_sound fs req : required_sentb fs req = true ->
  forall f, In f (query_fields fs) -> qrequired f = true -> is_zero (scalar_of req f) = false.
Proof.
  unfold required_sentb. intros H f Hf Hr. rewrite forallb_forall in H. specialize (H f Hf).
  rewrite Hr in H. cbn [negb orb] in H. now apply negb_true_iff in H.
Qed.

Definition wf_body (sc : schema) (fl : file) (sv : service) (md : method) (req : mval) : bool :=
  let fs := in_fields sc md in
  let r := info_of fl sv md fs in
  verb_has_body (eff_verb r) && nodupb (map md_name (sv_methods sv)) &&
  path_vals_nonempty fs req (path_vars r) && req_typedb fs req && canonicalb fs req.

Definition wf_nobody (sc : schema) (fl : file) (sv : service) (md : method) (req : mval) : bool :=
  let fs := in_fields sc md in
  let r := info_of fl sv md fs in
  negb (verb_has_body (eff_verb r)) && nodupb (map md_name (sv_methods sv)) &&
  path_vals_nonempty fs req (path_vars r) && req_typedb fs req &&
  nodupb (map f_name fs) && coverb fs (path_vars r).

Lemma wf_body_spec sc fl sv md req : wf_body sc fl sv md req = true ->
  verb_has_body (eff_verb (info_of fl sv md (in_fields sc md))) = true /\
  NoDup (map md_name (sv_methods sv)) /\
  path_vals_nonempty (in_fields sc md) req (path_vars (info_of fl sv md (in_fields sc md))) = true /\
  req_typed (in_fields sc md) req /\ canonical (in_fields sc md) req.
Proof.
  unfold wf_body. cbv zeta. intros H.
  apply andb_true_iff in H as [H H5]. apply andb_true_iff in H as [H H4].
  apply andb_true_iff in H as [H H3]. apply andb_true_iff in H as [H1 H2].
  repeat split; [exact H1|now apply nodupb_sound|exact H3|now apply req_typedb_sound|exact H5].
Qed.

Lemma wf_nobody_spec sc fl sv md req : wf_nobody sc fl sv md req = true ->
  verb_has_body (eff_verb (info_of fl sv md (in_fields sc md))) = false /\
  NoDup (map md_name (sv_methods sv)) /\
  path_vals_nonempty (in_fields sc md) req (path_vars (info_of fl sv md (in_fields sc md))) = true /\
  req_typed (in_fields sc md) req /\ NoDup (map f_name (in_fields sc md)) /\
  (forall f, In f (in_fields sc md) ->
     In (f_name f) (path_vars (info_of fl sv md (in_fields sc md))) \/ f_query f <> None).
Proof.
  unfold wf_nobody. cbv zeta. intros H.
  apply andb_true_iff in H as [H H6]. apply andb_true_iff in H as [H H5]. apply andb_true_iff in H as [H H4].
  apply andb_true_iff in H as [H H3]. apply andb_true_iff in H as [H1 H2].
  repeat split; [now apply negb_true_iff|now apply nodupb_sound|exact H3|now apply req_typedb_sound
                |now apply nodupb_sound|now apply coverb_sound].
Qed.

Theorem go_call_body_b : forall sc fl sv md ct req resp w o,
  go_call sc fl sv md ct req resp = Ok (w, o) ->
  defects_C01 sc fl sv md ct req = [] ->
  In md (sv_methods sv) ->
  wf_body sc fl sv md req = true ->
  o = Delivered req resp.
Proof.
  intros sc fl sv md ct req resp w o Hcall Hdef Hmd Hwf.
  destruct (wf_body_spec _ _ _ _ _ Hwf) as [Hb [Hnd [Hne [Hty Hcan]]]].
  exact (go_call_body sc fl sv md ct req resp w o Hcall Hdef Hb Hmd Hnd Hne Hty Hcan).
Qed.

Theorem go_call_nobody_b : forall sc fl sv md ct req resp w o,
  go_call sc fl sv md ct req resp = Ok (w, o) ->
  defects_C01 sc fl sv md ct req = [] ->
  In md (sv_methods sv) ->
  wf_nobody sc fl sv md req = true ->
  exists saw, o = Delivered saw resp /\
              forall f, In f (in_fields sc md) -> scalar_of saw f = scalar_of req f.
Proof.
  intros sc fl sv md ct req resp w o Hcall Hdef Hmd Hwf.
  destruct (wf_nobody_spec _ _ _ _ _ Hwf) as [Hb [Hnd [Hne [Hty [Hfnd Hcov]]]]].
  exact (go_call_nobody sc fl sv md ct req resp w o Hcall Hdef Hb Hmd Hnd Hne Hty Hfnd Hcov).
Qed.
