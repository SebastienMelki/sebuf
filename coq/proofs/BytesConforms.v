(* BytesConforms.v — C05 (Impl = Spec) for the bytes_encoding codec: a top-level message whose only annotations are
   bytes_encoding on (singular / optional, non-map) bytes fields, with un-annotated children: the server's
   JSON IS the documented mapping.  Side conditions that cannot be dropped are refuted at the end. *)
From Sebuf Require Import CodecCases.
From SebufProofs Require Import ProtoJsonFacts NullableFacts.
From SebufProofs Require Import MappingFacts ConformsBase BytesFacts CodecExamples.
From Coq Require Import ZArith.

Open Scope Z_scope.

(* no annotation other than bytes_encoding, and bytes_encoding only where the generator accepts it
   (annotations.ValidateBytesEncodingAnnotation: the descriptor kind must be bytes, which excludes
   map<_, bytes> whose descriptor kind is message) *)
Definition bytesplain_field (f : field) : bool :=
  negb (f_unwrap f) && is_none (f_int64 f) && is_none (f_enumenc f) && is_none (f_nullable f) && is_none (f_empty f) &&
  is_none (f_tsfmt f) && is_none (f_oneof_value f) && is_none (f_flatten f) && is_none (f_flatten_prefix f) &&
  (is_none (f_bytesenc f) || (kind_eqb (f_kind f) KBytes && negb (is_map f))).
Definition bytesplain_msg (md : message) : bool :=
  forallb bytesplain_field (m_fields md) && forallb (fun o => negb (o_has_cfg o)) (m_oneofs md).

(* the value: children of un-annotated fields are un-annotated; an annotated field holds a byte string *)
Definition bytes_value_ok (sc : schema) (md : message) (e : str * fval) : bool :=
  match find_field (m_fields md) (fst e) with
  | Some f => if is_none (f_bytesenc f) then plain_in sc (f_kind f) (snd e)
              else match snd e with FS (VBytes _) => true | _ => false end
  | None => false
  end.

Lemma bytesplain_facts f : bytesplain_field f = true ->
  f_int64 f = None /\ f_enumenc f = None /\ f_tsfmt f = None /\
  (f_bytesenc f = None \/ (f_kind f = KBytes /\ is_map f = false)).
Proof.
  unfold bytesplain_field.
  intros [[[[[[[[[_ Hi]%andb_prop He]%andb_prop _]%andb_prop _]%andb_prop Ht]%andb_prop _]%andb_prop _]%andb_prop
            _]%andb_prop Hlast]%andb_prop.
  repeat split; try (apply is_none_true; assumption).
  apply Bool.orb_true_iff in Hlast. destruct Hlast as [Hb|Hlast]; [left; apply is_none_true; exact Hb|right].
  apply andb_prop in Hlast. destruct Hlast as [Hk Hm]. apply Bool.negb_true_iff in Hm. split; [|exact Hm].
  destruct (f_kind f); try discriminate Hk. reflexivity.
Qed.

(* the option of a field changes nothing where the generator's bytesenc_of sees none: it is unset, names the
   default encoding, or the field does not hold bytes *)
Lemma bytesplain_inert f : bytesplain_field f = true -> bytesenc_of f = None -> inert_at f (f_kind f) = true.
Proof.
  intros H Hbo. destruct (bytesplain_facts f H) as [Hi [He [Ht Hby]]].
  unfold inert_at. rewrite Hi, He, Ht, Bool.andb_false_r.
  destruct Hby as [Hb|[Hk Hm]].
  - rewrite Hb. destruct (f_kind f); try reflexivity. apply Bool.orb_true_r.
  - unfold bytesenc_of in Hbo. rewrite Hk, Hm in Hbo. rewrite Hk.
    destruct (f_bytesenc f) as [[| | | | |]|]; try reflexivity; discriminate Hbo.
Qed.

Section Conforms.
Variable E : ExtLib.
Variable sc : schema.

(* Spec on an annotated bytes field = protojson's text re-written by the annotation *)
Lemma spec_bytes_scalar f b :
  f_kind f = KBytes -> is_map f = false ->
  mp_scalar E sc (Some f) KBytes (VBytes b) =
  ROk (match bytesenc_of f with Some e => JStr (bytes_enc_text e b) | None => JStr (b64_enc false true b) end).
Proof.
  intros Hk Hm. unfold bytesenc_of, mp_scalar. rewrite Hk, Hm.
  destruct (f_bytesenc f) as [[| | | | |]|]; reflexivity.
Qed.

(* what the value must be, field by field: a byte string where the codec re-encodes, un-annotated elsewhere *)
Definition bytes_entry_ok (f : field) (x : fval) : Prop :=
  match bytesenc_of f with
  | Some _ => exists b, x = FS (VBytes b)
  | None => plain_in sc (f_kind f) x = true
  end.

Theorem conforms_bytes_entries : forall tn md m,
  str_eqb tn ts_name = false -> is_wkt_other tn = false ->
  find_message (all_messages sc) tn = Some md -> owner_of sc md = Own FtBytes ->
  buildable sc FtBytes md = true ->
  nodup_str (map jn (m_fields md)) = true ->
  bytesplain_msg md = true ->
  nodup_str (map fst m) = true ->
  declared md m = true ->
  (forall n x f, In (n, x) m -> find_field (m_fields md) n = Some f -> bytes_entry_ok f x) ->
  encode E sc tn m = to_json E sc tn m.
Proof.
  intros tn md m Hts Hwk Hfm Hown Hb Hnd Hmd Hnames Hdecl Hch.
  unfold bytesplain_msg in Hmd. apply andb_prop in Hmd. destruct Hmd as [Hf _]. rewrite forallb_forall in Hf.
  apply (conforms_keylocal E sc FtBytes tn md m eq_refl Hts Hwk Hfm Hown Hb Hnd Hdecl).
  intros n x f Hin Hfd Hinf Hname Hfl Hoo Hem. specialize (Hem ltac:(discriminate)).
  pose proof (mget_nodup m n x (proj1 (nodup_str_iff _) Hnames) Hin) as Hm. rewrite <- Hname in Hm.
  specialize (Hch n x f Hin Hfd). unfold bytes_entry_ok in Hch.
  cbn [act_of]. unfold act_bytes. rewrite Hm.
  destruct (bytesenc_of f) as [e|] eqn:Ebo.
  - (* a re-encoded byte string; the codec leaves the empty one alone, every encoding of which is "" *)
    destruct Hch as [b ->].
    destruct (bytesplain_facts f (Hf f Hinf)) as [_ [_ [_ [Hnone|[Hk Hmap]]]]];
      [rewrite (bytesenc_of_none f Hnone) in Ebo; discriminate Ebo|].
    rewrite (mp_entry_default E sc md n f _ Hem Hfl Hoo), Hk, mp_fval_FS, pj_fval_FS, (spec_bytes_scalar f b Hk Hmap), Ebo.
    destruct b as [|c b]; [rewrite bytes_enc_text_nil|]; reflexivity.
  - exact (mp_entry_keep E sc md n f x Hem Hfl Hoo (bytesplain_inert f (Hf f Hinf) Ebo) Hch).
Qed.

Theorem conforms_bytes : forall tn md m,
  str_eqb tn ts_name = false -> is_wkt_other tn = false ->
  find_message (all_messages sc) tn = Some md -> owner_of sc md = Own FtBytes ->
  buildable sc FtBytes md = true ->
  nodup_str (map jn (m_fields md)) = true ->
  bytesplain_msg md = true ->
  nodup_str (map fst m) = true ->
  forallb (bytes_value_ok sc md) m = true ->
  encode E sc tn m = to_json E sc tn m.
Proof.
  intros tn md m Hts Hwk Hfm Hown Hb Hnd Hmd Hnames Hch. rewrite forallb_forall in Hch.
  apply (conforms_bytes_entries tn md m Hts Hwk Hfm Hown Hb Hnd Hmd Hnames).
  - apply declared_in. intros e He Hn. specialize (Hch e He). unfold bytes_value_ok in Hch. rewrite Hn in Hch. discriminate Hch.
  - intros n x f Hin Hfd. specialize (Hch _ Hin). unfold bytes_value_ok in Hch. cbn [fst snd] in Hch. rewrite Hfd in Hch.
    unfold bytes_entry_ok. destruct (f_bytesenc f) as [be|] eqn:Eb; cbn [is_none] in Hch.
    + destruct x as [[z|b0|y|b|b0|n0]|cm|l|kv]; try discriminate Hch.
      destruct (bytesenc_of f) as [e|]; [exists b; reflexivity|].
      unfold bytesplain_msg in Hmd. apply andb_prop in Hmd. destruct Hmd as [Hf _]. rewrite forallb_forall in Hf.
      destruct (bytesplain_facts f (Hf f (find_field_in _ _ _ Hfd))) as [_ [_ [_ [Hnone|[Hk _]]]]]; [congruence|].
      rewrite Hk. reflexivity.
    + rewrite (bytesenc_of_none f Eb). exact Hch.
Qed.
End Conforms.

(* all four encodings, singular and optional, empty and non-empty, beside un-annotated fields *)
Definition bxs : schema :=
  [ {| fl_path := s "b/b.proto"; fl_package := s "x.v1"; fl_gopkg := s "b"; fl_generate := true;
       fl_messages :=
         [ msg "B" [set_bytes BEHex (fld "h" 1 KBytes Singular);
                    set_bytes BEBase64Raw (fld "raw_b" 2 KBytes Optional);
                    set_bytes BEBase64Url (fld "url_b" 3 KBytes Singular);
                    set_bytes BEBase64UrlRaw (fld "url_raw" 4 KBytes Optional);
                    fld "id" 5 KString Singular; fld "plain_b" 6 KBytes Singular;
                    fld "leaf" 7 (T "Leaf") Singular; fld "blobs" 8 KBytes Repeated] [];
           msg "Leaf" [fld "a" 1 KString Singular; fld "n" 2 KInt64 Singular] [];
           msg "BRep" [set_bytes BEHex (fld "hs" 1 KBytes Repeated)] [];
           msg "BMap" [set_bytes BEHex (fld "h" 1 KBytes Singular); set_bytes BEHex (fld "by_k" 2 KBytes (MapOf KString))] [] ];
       fl_enums := []; fl_services := [] |} ].
Definition bval : mval :=
  [(s "h", FS (VBytes [ch 105; ch 183])); (s "raw_b", FS (VBytes []));
   (s "url_b", FS (VBytes [ch 251; ch 255; ch 254])); (s "url_raw", FS (VBytes [ch 251]));
   (s "id", vstr "line1"); (s "plain_b", FS (VBytes [ch 255]));
   (s "leaf", FM [(s "a", vstr "x"); (s "n", vint 7)]); (s "blobs", FL [FS (VBytes [ch 1])])].
Definition bjson : json :=
  JObj [(s "h", JStr (s "69b7")); (s "rawB", JStr []); (s "urlB", JStr (s "-__-")); (s "urlRaw", JStr (s "-w"));
        (s "id", JStr (s "line1")); (s "plainB", JStr (s "/w=="));
        (s "leaf", JObj [(s "a", JStr (s "x")); (s "n", JStr (s "7"))]); (s "blobs", JArr [JStr (s "AQ==")])].

Example bytes_nonvacuous :
  exists md,
    str_eqb (q "B") ts_name = false /\ is_wkt_other (q "B") = false /\
    find_message (all_messages bxs) (q "B") = Some md /\ owner_of bxs md = Own FtBytes /\
    buildable bxs FtBytes md = true /\ nodup_str (map jn (m_fields md)) = true /\ bytesplain_msg md = true /\
    wt bxs (KMessage (q "B")) (FM bval) = true /\
    nodup_str (map fst bval) = true /\ forallb (bytes_value_ok bxs md) bval = true /\
    encode Ex bxs (q "B") bval = ROk bjson /\ to_json Ex bxs (q "B") bval = ROk bjson /\
    decode Ex bxs (q "B") bjson = ROk bval.
Proof. eexists. do 3 (split; [reflexivity|]). vm_compute. repeat split. Qed.

(* the same on the shared witness schema [xs] (proofs/CodecExamples.v) *)
Example bytes_nonvacuous_xs :
  let m := [(s "h", FS (VBytes [ch 105; ch 183])); (s "id", vstr "x")] in
  let j := JObj [(s "h", JStr (s "69b7")); (s "id", JStr (s "x"))] in
  exists md,
    find_message (all_messages xs) (q "Blob") = Some md /\ owner_of xs md = Own FtBytes /\
    buildable xs FtBytes md = true /\ nodup_str (map jn (m_fields md)) = true /\ bytesplain_msg md = true /\
    wt xs (KMessage (q "Blob")) (FM m) = true /\
    nodup_str (map fst m) = true /\ forallb (bytes_value_ok xs md) m = true /\
    encode Ex xs (q "Blob") m = ROk j /\ to_json Ex xs (q "Blob") m = ROk j /\ decode Ex xs (q "Blob") j = ROk m.
Proof. eexists. split; [reflexivity|]. vm_compute. repeat split. Qed.

(* conforms_bytes needs [buildable]: bytes_encoding on a REPEATED bytes field passes the generator's
   validation, but the emitted MarshalJSON calls hex.EncodeToString on a [][]byte and does not compile
   (C13); the documented mapping encodes every element.  Every other hypothesis holds for the empty value. *)
Example conforms_bytes_needs_buildable :
  exists md,
    find_message (all_messages bxs) (q "BRep") = Some md /\ owner_of bxs md = Own FtBytes /\
    buildable bxs FtBytes md = false /\
    nodup_str (map jn (m_fields md)) = true /\ bytesplain_msg md = true /\
    nodup_str (map fst (@nil (str * fval))) = true /\ forallb (bytes_value_ok bxs md) [] = true /\
    encode Ex bxs (q "BRep") [] <> to_json Ex bxs (q "BRep") [] /\
    (let m := [(s "hs", FL [FS (VBytes [ch 1])])] in
     wt bxs (KMessage (q "BRep")) (FM m) = true /\
     to_json Ex bxs (q "BRep") m = ROk (JObj [(s "hs", JArr [JStr (s "01")])]) /\
     exists w, encode Ex bxs (q "BRep") m = RUnm w).
Proof.
  eexists. split; [reflexivity|]. vm_compute. repeat split; try discriminate. eexists. reflexivity.
Qed.

(* conforms_bytes needs "not a map" (inside bytesplain_msg): on map<string, bytes> the documented mapping
   encodes the values, the emitted codec leaves them in base64.  (The generator itself refuses this
   schema: the descriptor kind of a map field is message, not bytes.) *)
Example conforms_bytes_needs_nonmap :
  let m := [(s "h", FS (VBytes [ch 1])); (s "by_k", FMap [(VStr (s "k"), FS (VBytes [ch 1]))])] in
  exists md,
    find_message (all_messages bxs) (q "BMap") = Some md /\ owner_of bxs md = Own FtBytes /\
    buildable bxs FtBytes md = true /\ nodup_str (map jn (m_fields md)) = true /\
    bytesplain_msg md = false /\
    wt bxs (KMessage (q "BMap")) (FM m) = true /\ nodup_str (map fst m) = true /\
    encode Ex bxs (q "BMap") m = ROk (JObj [(s "h", JStr (s "01")); (s "byK", JObj [(s "k", JStr (s "AQ=="))])]) /\
    to_json Ex bxs (q "BMap") m = ROk (JObj [(s "h", JStr (s "01")); (s "byK", JObj [(s "k", JStr (s "01"))])]).
Proof. eexists. split; [reflexivity|]. vm_compute. repeat split. Qed.

(* conforms_bytes needs distinct field names in the value (a Go struct cannot repeat a field; the term
   language of values can): raw["h"] is written once, from the first entry *)
Example conforms_bytes_needs_distinct_names :
  let m := [(s "h", FS (VBytes [ch 1])); (s "h", FS (VBytes [ch 2]))] in
  exists md,
    find_message (all_messages xs) (q "Blob") = Some md /\ owner_of xs md = Own FtBytes /\
    buildable xs FtBytes md = true /\ nodup_str (map jn (m_fields md)) = true /\ bytesplain_msg md = true /\
    nodup_str (map fst m) = false /\ forallb (bytes_value_ok xs md) m = true /\
    encode Ex xs (q "Blob") m <> to_json Ex xs (q "Blob") m.
Proof. eexists. split; [reflexivity|]. vm_compute. repeat split. discriminate. Qed.

(* conforms_bytes needs the annotated field to hold a byte string (an ill-typed list is encoded element
   by element by the mapping and left alone by the codec) *)
Example conforms_bytes_needs_bytes_value :
  let m := [(s "h", FL [FS (VBytes [ch 1])])] in
  exists md,
    find_message (all_messages xs) (q "Blob") = Some md /\ owner_of xs md = Own FtBytes /\
    buildable xs FtBytes md = true /\ nodup_str (map jn (m_fields md)) = true /\ bytesplain_msg md = true /\
    nodup_str (map fst m) = true /\ forallb (bytes_value_ok xs md) m = false /\
    encode Ex xs (q "Blob") m <> to_json Ex xs (q "Blob") m.
Proof. eexists. split; [reflexivity|]. vm_compute. repeat split. discriminate. Qed.
Close Scope Z_scope.
