(* EmptyConforms.v — C05 (Impl = Spec) for the empty_behavior codec: a top-level message whose only
   annotations are empty_behavior fields, with un-annotated children: the server's JSON IS the
   documented mapping (PRESERVE: {}, NULL: null, OMIT: entry omitted), for all well-typed values.
   Then the witnesses: non-vacuity of EmptyFacts.empty_roundtrip / conforms_empty, and the refutations
   showing that the side conditions are needed. *)
From Coq Require Import ZArith.
From Sebuf Require Import CodecCases.
From SebufProofs Require Import ListFacts ProtoJsonFacts NullableFacts EmptyFacts.
From SebufProofs Require Import CodecExamples MappingFacts ConformsBase.

Open Scope Z_scope.

(* no annotation other than empty_behavior *)
Definition empplain_field (f : field) : bool :=
  negb (f_unwrap f) && is_none (f_int64 f) && is_none (f_enumenc f) && is_none (f_nullable f) &&
  is_none (f_tsfmt f) && is_none (f_bytesenc f) && is_none (f_oneof_value f) && is_none (f_flatten f) && is_none (f_flatten_prefix f).
Definition empplain_msg (md : message) : bool :=
  forallb empplain_field (m_fields md) && forallb (fun o => negb (o_has_cfg o)) (m_oneofs md).

Lemma empplain_ctx_ok f : empplain_field f = true -> ctx_field_ok f = true.
Proof. exact (plain_but_ctx_ok f (is_none (f_nullable f))). Qed.

Section Conforms.
Variable E : ExtLib.
Variable sc : schema.

Theorem conforms_empty : forall tn md m,
  str_eqb tn ts_name = false -> is_wkt_other tn = false ->
  find_message (all_messages sc) tn = Some md -> owner_of sc md = Own FtEmpty ->
  buildable sc FtEmpty md = true ->
  nodup_str (map jn (m_fields md)) = true ->
  empplain_msg md = true ->
  wt sc (KMessage tn) (FM m) = true ->
  forallb (fun e => match find_field (m_fields md) (fst e) with
                    | Some f => plain_in sc (f_kind f) (snd e)
                    | None => false end) m = true ->
  encode E sc tn m = to_json E sc tn m.
Proof.
  intros tn md m Hts Hwk Hfm Hown Hb Hnd Hmd Hwt Hch.
  destruct (wt_message sc tn m Hts Hwt) as [_ [md' [Hfm' [_ [_ [Hsorted Hwf]]]]]]. assert (md' = md) by congruence. subst md'.
  unfold empplain_msg in Hmd. apply andb_prop in Hmd. destruct Hmd as [Hf _]. rewrite forallb_forall in Hf.
  apply (conforms_keylocal E sc FtEmpty tn md m eq_refl Hts Hwk Hfm Hown Hb Hnd (wt_fields_declared sc md m Hwf)).
  intros n x f Hin Hfd Hinf Hname Hfl Hoo _.
  pose proof (sorted_mget md m n x Hsorted Hin) as Hm. rewrite <- Hname in Hm.
  destruct (wt_fields_in sc md m n x Hwf Hin) as [f' [Hfd' Hw]]. assert (f' = f) by congruence. subst f'.
  pose proof (mp_fval_keep E sc n f x (ctx_ok_inert f (f_kind f) (empplain_ctx_ok f (Hf f Hinf)))
                (plain_children_in sc md m n x f Hch Hin Hfd)) as Hkeep.
  rewrite (mp_entry_unspread E sc md n f x Hfl Hoo). cbn [act_of]. unfold act_empty. rewrite Hm.
  (* NULL and OMIT apply to the empty child only; Mapping does not render it, protojson does and succeeds *)
  destruct (empty_of f) as [[| | |]|]; try exact Hkeep;
    destruct x as [sx|[|e0 r0]|l|kv]; try exact Hkeep;
    destruct (pj_empty_child E sc f Hw) as [j [Hj _]]; rewrite Hj; reflexivity.
Qed.
End Conforms.


(* a schema with the three behaviours side by side, a Timestamp under NULL / OMIT, and an unwrap wrapper that
   has a second field *)
Definition emp3_md : message :=
  msg "Emp3" [set_empty EBPreserve (fld "keep_it" 1 (T "Leaf") Singular);
              set_empty EBNull (fld "nul_it" 2 (T "Leaf") Singular);
              set_empty EBOmit (fld "omit_it" 3 (T "Leaf") Singular);
              set_empty EBOmit (fld "omit_at" 4 TS Singular);
              fld "id" 5 KString Singular; fld "plain_leaf" 6 (T "Leaf") Singular] [].
Definition tsnull_md : message :=
  msg "TsNull" [set_empty EBNull (fld "at" 1 TS Singular); fld "id" 2 KString Singular] [].
Definition book_md : message := msg "Book" [fld "pages" 1 (T "Page") (MapOf KString)] [].
Definition ebs : schema :=
  [ {| fl_path := s "x/e.proto"; fl_package := s "x.v1"; fl_gopkg := s "x"; fl_generate := true;
       fl_messages :=
         [ msg "Leaf" [fld "a" 1 KString Singular; fld "n" 2 KInt64 Singular] [];
           emp3_md; tsnull_md;
           msg "Page" [set_unwrap (fld "items" 1 KString Repeated); fld "total" 2 KInt32 Singular] [];
           book_md ];
       fl_enums := []; fl_services := [] |} ].
Definition emp_md : message :=
  msg "Emp" [set_empty EBNull (fld "nul_it" 1 (T "Leaf") Singular); set_empty EBOmit (fld "omit" 2 (T "Leaf") Singular); fld "id" 3 KString Singular] [].

(* all hypotheses of empty_roundtrip and conforms_empty hold; children empty / non-empty / absent under
   PRESERVE, NULL and OMIT; the round trip loses exactly the presence of the empty OMIT children *)
Example empty_nonvacuous :
  let md := emp3_md in
    str_eqb (q "Emp3") ts_name = false /\ is_wkt_other (q "Emp3") = false /\
    find_message (all_messages ebs) (q "Emp3") = Some md /\ owner_of ebs md = Own FtEmpty /\
    buildable ebs FtEmpty md = true /\ nodup_str (map jn (m_fields md)) = true /\
    null_not_ts md = true /\ empplain_msg md = true /\
    (* every child empty *)
    (let m := [(s "keep_it", FM []); (s "nul_it", FM []); (s "omit_it", FM []); (s "omit_at", FM []); (s "id", vstr "x")] in
     wt ebs (KMessage (q "Emp3")) (FM m) = true /\ epoch_null_free md m = true /\
     forallb (fun e => match find_field (m_fields md) (fst e) with
                       | Some f => plain_in ebs (f_kind f) (snd e) | None => false end) m = true /\
     encode Ex ebs (q "Emp3") m = ROk (JObj [(s "keepIt", JObj []); (s "nulIt", JNull); (s "id", JStr (s "x"))]) /\
     to_json Ex ebs (q "Emp3") m = ROk (JObj [(s "keepIt", JObj []); (s "nulIt", JNull); (s "id", JStr (s "x"))]) /\
     decode Ex ebs (q "Emp3") (JObj [(s "keepIt", JObj []); (s "nulIt", JNull); (s "id", JStr (s "x"))])
       = ROk [(s "keep_it", FM []); (s "nul_it", FM []); (s "id", vstr "x")] /\
     norm ebs (q "Emp3") m = [(s "keep_it", FM []); (s "nul_it", FM []); (s "id", vstr "x")]) /\
    (* every annotated child absent *)
    (let m := [(s "id", vstr "x")] in
     wt ebs (KMessage (q "Emp3")) (FM m) = true /\
     encode Ex ebs (q "Emp3") m = ROk (JObj [(s "id", JStr (s "x"))]) /\
     decode Ex ebs (q "Emp3") (JObj [(s "id", JStr (s "x"))]) = ROk m).
Proof. vm_compute. repeat split; reflexivity. Qed.

(* every child non-empty: nothing is lost *)
Example empty_nonvacuous_nonempty :
  let md := emp3_md in
  let m := [(s "keep_it", FM [(s "a", vstr "k")]); (s "nul_it", FM [(s "n", vint 7)]); (s "omit_it", FM [(s "a", vstr "o")]);
            (s "omit_at", tsv 5 0); (s "plain_leaf", FM [])] in
  let j := JObj [(s "keepIt", JObj [(s "a", JStr (s "k"))]); (s "nulIt", JObj [(s "n", JStr (s "7"))]);
                 (s "omitIt", JObj [(s "a", JStr (s "o"))]); (s "omitAt", JStr (s "1970-01-01T00:00:05Z"));
                 (s "plainLeaf", JObj [])] in
  wt ebs (KMessage (q "Emp3")) (FM m) = true /\ epoch_null_free md m = true /\
  forallb (fun e => match find_field (m_fields md) (fst e) with
                    | Some f => plain_in ebs (f_kind f) (snd e) | None => false end) m = true /\
  norm ebs (q "Emp3") m = m /\
  encode Ex ebs (q "Emp3") m = ROk j /\ to_json Ex ebs (q "Emp3") m = ROk j /\ decode Ex ebs (q "Emp3") j = ROk m.
Proof. vm_compute. repeat split; reflexivity. Qed.

(* the same on the shared witness schema of CodecExamples.v *)
Example empty_nonvacuous_xs :
  let md := emp_md in
    find_message (all_messages xs) (q "Emp") = Some md /\ owner_of xs md = Own FtEmpty /\
    buildable xs FtEmpty md = true /\ nodup_str (map jn (m_fields md)) = true /\
    null_not_ts md = true /\ empplain_msg md = true /\
    (let m := [(s "nul_it", FM []); (s "omit", FM []); (s "id", vstr "x")] in
     wt xs (KMessage (q "Emp")) (FM m) = true /\
     encode Ex xs (q "Emp") m = ROk (JObj [(s "nulIt", JNull); (s "id", JStr (s "x"))]) /\
     decode Ex xs (q "Emp") (JObj [(s "nulIt", JNull); (s "id", JStr (s "x"))]) = ROk [(s "nul_it", FM []); (s "id", vstr "x")] /\
     norm xs (q "Emp") m = [(s "nul_it", FM []); (s "id", vstr "x")]).
Proof. vm_compute. repeat split; reflexivity. Qed.

(* the side condition [epoch_null_free] is needed: empty_behavior = NULL on a Timestamp field is accepted by the
   generator (annotations.ValidateEmptyBehaviorAnnotation only asks for a singular message field); the epoch
   has proto.Size 0, is written as null (as documented), read back as {} and rejected by protojson.  Every other
   hypothesis of empty_roundtrip holds. *)
Example empty_roundtrip_needs_epoch_null_free :
  let md := tsnull_md in
    let m := [(s "at", FM []); (s "id", vstr "x")] in
    str_eqb (q "TsNull") ts_name = false /\ is_wkt_other (q "TsNull") = false /\
    find_message (all_messages ebs) (q "TsNull") = Some md /\ owner_of ebs md = Own FtEmpty /\
    buildable ebs FtEmpty md = true /\ nodup_str (map jn (m_fields md)) = true /\
    wt ebs (KMessage (q "TsNull")) (FM m) = true /\
    epoch_null_free md m = false /\ null_not_ts md = false /\
    encode Ex ebs (q "TsNull") m = ROk (JObj [(s "at", JNull); (s "id", JStr (s "x"))]) /\
    to_json Ex ebs (q "TsNull") m = ROk (JObj [(s "at", JNull); (s "id", JStr (s "x"))]) /\
    decode Ex ebs (q "TsNull") (JObj [(s "at", JNull); (s "id", JStr (s "x"))]) = RErr (s "invalid timestamp").
Proof. vm_compute. repeat split; reflexivity. Qed.

(* ... and it is the epoch only: any other Timestamp under NULL round-trips (epoch_null_free holds although
   null_not_ts does not) *)
Example empty_roundtrip_null_ts_nonepoch :
  let md := tsnull_md in
    let m := [(s "at", tsv 5 0); (s "id", vstr "x")] in
    wt ebs (KMessage (q "TsNull")) (FM m) = true /\ epoch_null_free md m = true /\ null_not_ts md = false /\
    encode Ex ebs (q "TsNull") m = ROk (JObj [(s "at", JStr (s "1970-01-01T00:00:05Z")); (s "id", JStr (s "x"))]) /\
    decode Ex ebs (q "TsNull") (JObj [(s "at", JStr (s "1970-01-01T00:00:05Z")); (s "id", JStr (s "x"))]) = ROk m.
Proof. vm_compute. repeat split; reflexivity. Qed.

(* conforms_empty is about VALUES: a list that names a field twice is not a message value (wt excludes it);
   on it the map-based rewrite and the per-entry mapping differ *)
Example conforms_empty_needs_wt :
  let m := [(s "nul_it", FM []); (s "nul_it", FM [(s "a", vstr "z")])] in
  wt xs (KMessage (q "Emp")) (FM m) = false /\
  encode Ex xs (q "Emp") m = ROk (JObj [(s "nulIt", JNull); (s "nulIt", JNull)]) /\
  to_json Ex xs (q "Emp") m = ROk (JObj [(s "nulIt", JNull); (s "nulIt", JObj [(s "a", JStr (s "z"))])]).
Proof. vm_compute. repeat split; reflexivity. Qed.

(* norm_id_without_lossy needs its third clause: a map whose values are unwrap wrappers loses the wrappers'
   other fields (documented: "only the unwrap field is used"), with no timestamp_format / empty_behavior around *)
Example norm_id_needs_no_unwrap_values :
  let md := book_md in
    let m := [(s "pages", FMap [(VStr (s "k"), FM [(s "items", FL [vstr "a"]); (s "total", vint 3)])])] in
    lookup_message ebs (q "Book") = Some md /\
    forallb (fun f => match tsfmt_of f with None => negb (is_omitf f) | _ => false end) (m_fields md) = true /\
    lossy_free ebs md = false /\
    wt ebs (KMessage (q "Book")) (FM m) = true /\
    norm ebs (q "Book") m = [(s "pages", FMap [(VStr (s "k"), FM [(s "items", FL [vstr "a"])])])].
Proof. vm_compute. repeat split; reflexivity. Qed.

(* messages without lossy annotations: un-annotated, int64 NUMBER, and empty_behavior = NULL only *)
Example norm_id_nonvacuous :
  (forall md, lookup_message xs (q "Nums") = Some md -> lossy_free xs md = true) /\
  (forall md, lookup_message xs (q "Plain") = Some md -> lossy_free xs md = true) /\
  (forall md, lookup_message ebs (q "TsNull") = Some md -> lossy_free ebs md = true) /\
  owner_of ebs tsnull_md = Own FtEmpty.
Proof. repeat split; try (eapply forall_found; [reflexivity|]); vm_compute; reflexivity. Qed.
Close Scope Z_scope.
