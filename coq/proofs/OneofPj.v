(* OneofPj.v — protojson on messages WITH oneof members (ProtoJsonFacts.wt excludes them), and decoding an
   object whose entries come in another order than the field numbers:
     wt1          : well-typed top-level value of a message that may declare oneofs (members singular, at most one
                    member of each oneof populated); children are well-typed in the sense of ProtoJsonFacts.wt;
     pj_un_perm   : protojson.Unmarshal of an object given entry by entry, entries in any order;
     pj_un_tags   : hence (GoJsonFacts.assemble_perm) an object whose entries are those of a wt1 value, in any
                    order, decodes to that value;
   and protojson's object under a codec that post-processes it (pj_marshal_obj), shared by the flatten and
   discriminated-oneof codecs. *)
From Coq Require Import ZArith List Permutation.
From Sebuf Require Import CodecCases.
From SebufProofs Require Import TextFacts CodecTextFacts ProtoJsonFacts CodecBase GoJsonFacts.
From SebufProofs Require NullableFacts.
Import ListNotations.

Open Scope Z_scope.

Definition singular_card (f : field) : bool := match f_card f with Singular => true | _ => false end.

(* msg_ok without "no field is a oneof member": distinct numbers, every field found again by its JSON name,
   oneof members singular (protoc) *)
Definition msg_ok1 (md : message) : bool :=
  nodup_Z (map f_number (m_fields md)) &&
  forallb (fun f => match field_of_key md (json_name (f_name f)) with
                    | Some f' => f_number f' =? f_number f
                    | None => false
                    end && match f_oneof f with None => true | Some _ => singular_card f end) (m_fields md).

Definition set_oneofs (md : message) (m : mval) : list str :=
  flat_map (fun e => match find_field (m_fields md) (fst e) with Some f => opt_list (f_oneof f) | None => [] end) m.

(* a well-typed value of message type tn: as ProtoJsonFacts.wt (children included), but the type may declare
   oneofs and at most one member of each oneof is populated *)
Definition wt1 (sc : schema) (tn : str) (m : mval) : bool :=
  negb (str_eqb tn ts_name) && negb (is_wkt_other tn) &&
  match find_message (all_messages sc) tn with
  | None => false
  | Some md => msg_ok1 md && sorted_Z (map (fun e => num_of md (fst e)) m) && wt_fields sc md m
               && NullableFacts.nodup_str (set_oneofs md m)
  end.

Lemma msg_ok1_iff md : msg_ok1 md = true <->
  nodup_Z (map f_number (m_fields md)) = true /\
  forall f, In f (m_fields md) ->
    match field_of_key md (json_name (f_name f)) with Some f' => f_number f' =? f_number f | None => false end = true /\
    match f_oneof f with None => true | Some _ => singular_card f end = true.
Proof.
  unfold msg_ok1. rewrite Bool.andb_true_iff, forallb_forall.
  split; intros [H1 H2]; (split; [exact H1|]); intros f Hf; [apply andb_prop|apply andb_true_intro]; exact (H2 f Hf).
Qed.

Lemma msg_ok_ok1 md : msg_ok md = true -> msg_ok1 md = true.
Proof.
  unfold msg_ok. intros H. apply andb_prop in H. destruct H as [H1 H2]. rewrite forallb_forall in H2.
  apply msg_ok1_iff. split; [exact H1|]. intros f Hin. specialize (H2 f Hin).
  apply andb_prop in H2. destruct H2 as [Ha Hb]. split; [exact Ha|]. destruct (f_oneof f); [discriminate Hb|reflexivity].
Qed.

Lemma set_oneofs_msg_ok md m : msg_ok md = true -> set_oneofs md m = [].
Proof.
  intros Hok. unfold set_oneofs. induction m as [|[name x] r IH]; [reflexivity|]. cbn [flat_map fst].
  rewrite IH. destruct (find_field (m_fields md) name) as [f|] eqn:Ef; [|reflexivity].
  destruct (msg_ok_key md name f Hok Ef) as [_ Ho]. rewrite Ho. reflexivity.
Qed.

Lemma wt_wt1 sc tn m : str_eqb tn ts_name = false -> wt sc (KMessage tn) (FM m) = true -> wt1 sc tn m = true.
Proof.
  intros Hts Hwt. rewrite wt_FM, Hts in Hwt. unfold wt1. rewrite Hts. cbn [negb andb].
  apply andb_prop in Hwt. destruct Hwt as [Hwk Hwt]. rewrite Hwk. cbn [andb].
  destruct (find_message (all_messages sc) tn) as [md|]; [|discriminate Hwt].
  apply andb_prop in Hwt. destruct Hwt as [Hwt Hwf]. apply andb_prop in Hwt. destruct Hwt as [Hok Hs].
  rewrite (msg_ok_ok1 md Hok), Hs, Hwf, (set_oneofs_msg_ok md m Hok). reflexivity.
Qed.

Lemma wt1_inv sc tn m : wt1 sc tn m = true ->
  str_eqb tn ts_name = false /\ is_wkt_other tn = false /\
  exists md, find_message (all_messages sc) tn = Some md /\ lookup_message sc tn = Some md /\ msg_ok1 md = true /\
             sorted_Z (map (fun e => num_of md (fst e)) m) = true /\ wt_fields sc md m = true /\
             NullableFacts.nodup_str (set_oneofs md m) = true.
Proof.
  unfold wt1. intros H. apply andb_prop in H. destruct H as [H H3]. apply andb_prop in H. destruct H as [H1 H2].
  apply Bool.negb_true_iff in H1. apply Bool.negb_true_iff in H2. split; [exact H1|]. split; [exact H2|].
  destruct (find_message (all_messages sc) tn) as [md|] eqn:Hfm; [|discriminate H3].
  apply andb_prop in H3. destruct H3 as [H3 H7]. apply andb_prop in H3. destruct H3 as [H3 H6].
  apply andb_prop in H3. destruct H3 as [H4 H5].
  exists md. unfold lookup_message. rewrite H1. repeat split; assumption.
Qed.

Lemma msg_ok1_nodup_num md : msg_ok1 md = true -> nodup_Z (map f_number (m_fields md)) = true.
Proof. intros H. exact (proj1 (proj1 (msg_ok1_iff md) H)). Qed.

Lemma msg_ok1_key_in md f : msg_ok1 md = true -> In f (m_fields md) -> field_of_key md (jn f) = Some f.
Proof.
  intros Hok Hin. destruct (proj1 (msg_ok1_iff md) Hok) as [Hnd Hall]. destruct (Hall f Hin) as [Hk _].
  unfold jn. destruct (field_of_key md (json_name (f_name f))) as [f'|] eqn:Ek; [|discriminate Hk].
  f_equal. apply (nodup_num_inj (m_fields md) f' f Hnd (field_of_key_in md _ _ Ek) Hin). apply Z.eqb_eq. exact Hk.
Qed.

Lemma msg_ok1_key md name f :
  msg_ok1 md = true -> find_field (m_fields md) name = Some f -> field_of_key md (json_name name) = Some f.
Proof. intros Hok Hf. destruct (find_field_spec _ _ _ Hf) as [Hin Hn]. subst name. exact (msg_ok1_key_in md f Hok Hin). Qed.

Lemma msg_ok1_member_singular md f o :
  msg_ok1 md = true -> In f (m_fields md) -> f_oneof f = Some o -> f_card f = Singular.
Proof.
  intros Hok Hin Ho. destruct (proj2 (proj1 (msg_ok1_iff md) Hok) f Hin) as [_ Hs].
  rewrite Ho in Hs. unfold singular_card in Hs. destruct (f_card f); try discriminate Hs. reflexivity.
Qed.

Lemma msg_ok1_nodup_jn md : msg_ok1 md = true -> NullableFacts.nodup_str (map jn (m_fields md)) = true.
Proof.
  intros Hok. apply NullableFacts.nodup_str_iff. apply NoDup_jn_of_numbers; [exact (msg_ok1_nodup_num md Hok)|].
  intros a b Ha Hb Hab. pose proof (msg_ok1_key_in md a Hok Ha) as Hka. pose proof (msg_ok1_key_in md b Hok Hb) as Hkb.
  rewrite Hab in Hka. congruence.
Qed.

Lemma wt_cases sc tn m : wt sc (KMessage tn) (FM m) = true ->
  tn = ts_name \/ str_eqb tn ts_name = false /\ wt1 sc tn m = true.
Proof.
  intros Hwt. destruct (str_eqb tn ts_name) eqn:Hts; [left; apply str_eqb_eq; exact Hts|right].
  split; [reflexivity|exact (wt_wt1 sc tn m Hts Hwt)].
Qed.

Lemma dup_nums_NoDup l : NoDup l -> dup_nums l = false.
Proof.
  induction 1 as [|x r Hx _ IH]; [reflexivity|]. cbn [dup_nums]. rewrite IH, Bool.orb_false_r.
  destruct (existsb (Z.eqb x) r) eqn:Ex; [|reflexivity]. exfalso. apply Hx.
  apply existsb_exists in Ex. destruct Ex as [y [Hy Hxy]]. apply Z.eqb_eq in Hxy. subst y. exact Hy.
Qed.
Lemma dup_strs_NoDup l : NoDup l -> dup_strs l = false.
Proof.
  induction 1 as [|x r Hx _ IH]; [reflexivity|]. cbn [dup_strs]. rewrite IH, Bool.orb_false_r.
  destruct (existsb (str_eqb x) r) eqn:Ex; [|reflexivity]. exfalso. apply Hx.
  apply existsb_exists in Ex. destruct Ex as [y [Hy Hxy]]. apply str_eqb_eq in Hxy. subst y. exact Hy.
Qed.

(* a value's entries, each with its declared field in place of the field's name: the form [assemble] takes, so
   that "these decoded fields are this value" can be said up to a permutation ([pj_un_tags]) *)
Definition tags (md : message) (m : mval) : list (field * fval) :=
  flat_map (fun e => match find_field (m_fields md) (fst e) with Some f => [(f, snd e)] | None => [] end) m.

Lemma tags_names md m : declared md m = true -> map (fun fv => (f_name (fst fv), snd fv)) (tags md m) = m.
Proof.
  induction m as [|[name x] r IH]; intros Hd; [reflexivity|]. unfold declared in Hd. cbn [forallb fst] in Hd.
  unfold tags. cbn [flat_map fst snd]. destruct (find_field (m_fields md) name) as [f|] eqn:Ef; [|discriminate Hd].
  cbn [app map fst snd]. destruct (find_field_spec _ _ _ Ef) as [_ Hn]. rewrite Hn. f_equal. apply IH. exact Hd.
Qed.
Lemma tags_nums md m : declared md m = true ->
  map (fun fv => f_number (fst fv)) (tags md m) = map (fun e => num_of md (fst e)) m.
Proof.
  induction m as [|[name x] r IH]; intros Hd; [reflexivity|]. unfold declared in Hd. cbn [forallb fst] in Hd.
  unfold tags. cbn [flat_map fst snd map]. unfold num_of at 1. destruct (find_field (m_fields md) name) as [f|] eqn:Ef; [|discriminate Hd].
  cbn [app map fst]. f_equal. apply IH. exact Hd.
Qed.
Lemma tags_in md m f x : In (f, x) (tags md m) <-> exists name, In (name, x) m /\ find_field (m_fields md) name = Some f.
Proof.
  unfold tags. rewrite in_flat_map. split.
  - intros [[name y] [Hin H]]. cbn [fst snd] in H. destruct (find_field (m_fields md) name) as [g|] eqn:Eg; [|destruct H].
    destruct H as [H|[]]. inversion H; subst. exists name. split; assumption.
  - intros [name [Hin Hf]]. exists (name, x). split; [exact Hin|]. cbn [fst snd]. rewrite Hf. left. reflexivity.
Qed.
Lemma tags_app md a b : tags md (a ++ b) = tags md a ++ tags md b.
Proof. unfold tags. apply flat_map_app. Qed.
Lemma tags_filter_perm md (p : str * fval -> bool) (l : mval) :
  Permutation (tags md l) (tags md (filter p l) ++ tags md (filter (fun e => negb (p e)) l)).
Proof.
  induction l as [|e r IH]; [constructor|]. cbn [filter]. destruct (p e); cbn [negb].
  - change (e :: r) with ([e] ++ r). change (e :: filter p r) with ([e] ++ filter p r). rewrite !tags_app, <- app_assoc.
    apply Permutation_app_head. exact IH.
  - change (e :: r) with ([e] ++ r). change (e :: filter (fun e0 => negb (p e0)) r) with ([e] ++ filter (fun e0 => negb (p e0)) r).
    rewrite !tags_app. eapply perm_trans; [apply Permutation_app_head; exact IH|].
    rewrite !app_assoc. apply Permutation_app_tail. apply Permutation_app_comm.
Qed.
Lemma tags_oneofs md m : flat_map (fun fv : field * fval => opt_list (f_oneof (fst fv))) (tags md m) = set_oneofs md m.
Proof.
  unfold tags, set_oneofs. induction m as [|e r IH]; [reflexivity|]. cbn [flat_map]. rewrite flat_map_app, IH. f_equal.
  destruct (find_field (m_fields md) (fst e)); [cbn [flat_map fst]; apply app_nil_r|reflexivity].
Qed.

Lemma tags_populated sc md m : wt_fields sc md m = true -> Forall (fun fv => populated (fst fv) (snd fv) = true) (tags md m).
Proof.
  intros Hw. apply Forall_forall. intros [f x] Hin. apply tags_in in Hin. destruct Hin as [name [Hin Hf]].
  destruct (wt_fields_in sc md m name x Hw Hin) as [g [Hg Hwe]]. assert (g = f) by congruence. subst g.
  cbn [fst snd]. exact (proj1 (wt_entry_inv sc f x Hwe)).
Qed.

Section Entries.
Variable E : ExtLib.
Variable sc : schema.

(* the JSON entry e is one that protojson.Unmarshal turns into the field and value fv: the key is the field's JSON
   name, the value is read back as fv's (a populated one), and it is not null (a null entry sets nothing) *)
Definition ent1 (md : message) (fv : field * fval) (e : str * json) : Prop :=
  In (fst fv) (m_fields md) /\ fst e = jn (fst fv) /\ u_value E sc (fst fv) (snd e) = ROk (Some (snd fv)) /\
  populated (fst fv) (snd fv) = true /\ snd e <> JNull.

Lemma u_fields_ent1 md fvs es :
  msg_ok1 md = true -> Forall2 (ent1 md) fvs es ->
  u_fields E sc md es = ROk fvs /\
  let fs := flat_map (fun e => match field_of_key md (fst e) with Some f => [(f, snd e)] | None => [] end) es in
  map (fun p => f_number (fst p)) fs = map (fun fv => f_number (fst fv)) fvs /\
  flat_map (fun p : field * json => match snd p, f_oneof (fst p) with
                                    | JNull, _ => [] | _, Some o => [o] | _, None => [] end) fs
  = flat_map (fun fv => opt_list (f_oneof (fst fv))) fvs.
Proof.
  intros Hok HF. cbv zeta. induction HF as [|[g x] [k j] r r' Hhd _ IH]; [repeat split; reflexivity|].
  destruct Hhd as [Hin [Hk [Hu [_ Hnn]]]]. cbn [fst snd] in Hin, Hk, Hu, Hnn. subst k.
  destruct IH as [Hfs [Hnum Hone]]. pose proof (msg_ok1_key_in md g Hok Hin) as Hkey.
  cbn [u_fields flat_map fst snd]. rewrite Hkey, Hu. cbn [rbind app map flat_map fst snd]. rewrite Hfs, Hnum, Hone.
  repeat split. f_equal. destruct j; try reflexivity; [exfalso; apply Hnn; reflexivity|..]; destruct (f_oneof g); reflexivity.
Qed.

Lemma pj_un_perm tn md fvs es :
  str_eqb tn ts_name = false -> is_wkt_other tn = false ->
  find_message (all_messages sc) tn = Some md -> msg_ok1 md = true ->
  Forall2 (ent1 md) fvs es ->
  NoDup (map (fun fv => f_number (fst fv)) fvs) ->
  NoDup (flat_map (fun fv => opt_list (f_oneof (fst fv))) fvs) ->
  pj_un E sc (KMessage tn) (JObj es) = ROk (FM (assemble fvs)).
Proof.
  intros Hts Hwk Hfm Hok HF Hn Ho.
  rewrite (pj_un_msg E sc tn (JObj es) Hts Hwk), Hfm.
  destruct (u_fields_ent1 md fvs es Hok HF) as [Hu [Hnum Hone]]. cbv zeta in Hnum, Hone.
  unfold dup_check. cbv zeta. rewrite Hnum, Hone, (dup_nums_NoDup _ Hn), (dup_strs_NoDup _ Ho), Hu. reflexivity.
Qed.

Lemma pj_un_tags tn md m fvs es :
  str_eqb tn ts_name = false -> is_wkt_other tn = false ->
  find_message (all_messages sc) tn = Some md -> msg_ok1 md = true ->
  sorted_Z (map (fun e => num_of md (fst e)) m) = true -> wt_fields sc md m = true ->
  NullableFacts.nodup_str (set_oneofs md m) = true ->
  Forall2 (ent1 md) fvs es -> Permutation fvs (tags md m) ->
  pj_un E sc (KMessage tn) (JObj es) = ROk (FM m).
Proof.
  intros Hts Hwk Hfm Hok Hsorted Hwf Hex HF HP.
  pose proof (wt_fields_declared sc md m Hwf) as Hdecl. pose proof (Permutation_sym HP) as HP'.
  rewrite (pj_un_perm tn md fvs es Hts Hwk Hfm Hok HF).
  - rewrite (assemble_perm fvs (tags md m)).
    + rewrite (tags_names md m Hdecl). reflexivity.
    + exact (Permutation_Forall HP' (tags_populated sc md m Hwf)).
    + rewrite (tags_nums md m Hdecl). exact Hsorted.
    + exact HP.
  - apply (Permutation_NoDup (Permutation_map _ HP')). rewrite (tags_nums md m Hdecl). apply sorted_Z_NoDup. exact Hsorted.
  - apply (Permutation_NoDup (Permutation_flat_map _ HP')). rewrite tags_oneofs. apply NullableFacts.nodup_str_iff. exact Hex.
Qed.
End Entries.

Section Written.
Variable E : ExtLib.
Hypothesis EL : ExtLaws E.
Variable sc : schema.

Lemma ent_enc_ent1 md : forall (l : mval) (es : list (str * json)),
  Forall2 (ent_enc E sc md) l es ->
  (forall name x, In (name, x) l -> exists g, find_field (m_fields md) name = Some g /\ wt_entry sc g x = true) ->
  Forall2 (ent1 E sc md) (tags md l) es.
Proof.
  intros l es HF. induction HF as [|[name x] [k j] r r' Hab _ IH]; intros Hall; [constructor|].
  destruct Hab as [g [Hg [Hk Hj]]]. cbn [fst snd] in Hg, Hk, Hj. subst k.
  unfold tags. cbn [flat_map fst snd]. rewrite Hg. cbn [app].
  constructor; [|apply IH; intros n y Hin; apply (Hall n y); right; exact Hin].
  destruct (Hall name x (or_introl eq_refl)) as [g' [Hg' Hw]]. assert (g' = g) by congruence. subst g'.
  destruct (find_field_spec _ _ _ Hg) as [Hin Hname].
  destruct (entry_rt E EL sc g x j (pj_roundtrip_fval E EL sc x) Hw Hj) as [Hu Hpop].
  unfold ent1. cbn [fst snd].
  repeat split; [exact Hin|unfold jn; rewrite Hname; reflexivity|exact Hu|exact Hpop|exact (pj_not_null E EL sc _ _ _ Hj)].
Qed.

Lemma pj_un_wt1 tn md m es :
  str_eqb tn ts_name = false -> is_wkt_other tn = false -> find_message (all_messages sc) tn = Some md ->
  msg_ok1 md = true -> sorted_Z (map (fun e => num_of md (fst e)) m) = true -> wt_fields sc md m = true ->
  NullableFacts.nodup_str (set_oneofs md m) = true ->
  m_msg E sc md m = ROk es -> pj_un E sc (KMessage tn) (JObj es) = ROk (FM m).
Proof.
  intros Hts Hwk Hfm Hok1 Hsorted Hwf Hex Hes.
  apply (pj_un_tags E sc tn md m (tags md m) es Hts Hwk Hfm Hok1 Hsorted Hwf Hex); [|apply Permutation_refl].
  exact (ent_enc_ent1 md m es (m_msg_Forall2 E sc md m es Hes) (fun name x => wt_fields_in sc md m name x Hwf)).
Qed.
End Written.

Section Owned.
Variable E : ExtLib.
Variable sc : schema.

(* the codecs that post-process protojson's object *)
Lemma pj_marshal_obj tn md m (k : rawmap -> res json) j :
  str_eqb tn ts_name = false -> is_wkt_other tn = false -> find_message (all_messages sc) tn = Some md ->
  pj_marshal E sc tn m >>= as_obj >>= k = ROk j -> exists es, m_msg E sc md m = ROk es /\ k es = ROk j.
Proof.
  intros Hts Hwk Hfm H. apply rbind_ok in H. destruct H as [raw [Hraw Hk]].
  apply rbind_ok in Hraw. destruct Hraw as [j0 [Hpj Hobj]].
  unfold pj_marshal in Hpj. rewrite pj_fval_FM, Hts, Hwk, Hfm in Hpj.
  apply rbind_ok in Hpj. destruct Hpj as [es [Hes Hj0]]. inversion Hj0; subst j0.
  cbn [as_obj] in Hobj. inversion Hobj; subst raw. exists es. split; assumption.
Qed.

End Owned.
Close Scope Z_scope.
