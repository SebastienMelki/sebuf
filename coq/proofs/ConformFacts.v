(* ConformFacts.v — C06: the wire JSON of the Go server / Go client validates against the schema the
   OpenAPI document of the same service publishes.  The emitted tree is read back keyword by keyword (rd); the validator
   and the walk for undescribed properties are taken one level at a time; every scalar kind conforms (scalar_valid),
   then fields of each cardinality and whole messages of the plain fragment, by one induction on values that carries
   validity and "nothing undescribed" together; error bodies and URL values; the non-vacuity example. *)
From Sebuf Require Import Conform.
From SebufProofs Require Import JsonSchemaFacts RulesFacts OpenApiFacts TextFacts ListFacts CodecTextFacts ProtoJsonFacts CodecExamples MappingFacts.
From SebufProofs Require CodecBase.

(* the schema a node of the emitted YAML tree denotes, read with fuel S fu; [typed], the reader the property
   uses, is rd 7, and a nested schema (properties, items, additionalProperties) is read with one unit less *)
Definition rd (fu : nat) (n : ynode) : jschema := schema_of_jv (S fu) (denote reader12 n).

Lemma typed_rd n : typed n = rd 7 n.
Proof. reflexivity. Qed.

Lemma rd_ymap fu es : rd fu (YMap es) = SObj (map (kw12 fu) es).
Proof. apply schema_of_ymap. Qed.

Lemma denote_map_go (kv : list (str * ynode)) :
  (fix go (kv : list (str * ynode)) : list (str * jv) :=
     match kv with
     | [] => []
     | (k, x) :: r => (key_of_jv k (rd_str reader12 k), denote reader12 x) :: go r
     end) kv = map (fun e => (fst e, denote reader12 (snd e))) kv.
Proof. induction kv as [|[k x] r IH]; [reflexivity|]. cbn [map fst snd]. now rewrite IH. Qed.

Lemma kw_properties fu ps :
  kw12 (S fu) (s "properties", YMap ps) = KwProperties (map (fun e => (fst e, rd fu (snd e))) ps).
Proof.
  unfold kw12. cbn [fst snd denote]. rewrite denote_map_go.
  change (kw_of_entry (schema_of_jv (S fu)) (s "properties") (JVObj (map (fun e => (fst e, denote reader12 (snd e))) ps)))
    with (KwProperties (map (fun e => (fst e, schema_of_jv (S fu) (snd e))) (map (fun e => (fst e, denote reader12 (snd e))) ps))).
  now rewrite map_map.
Qed.

Lemma kw_type_object fu : kw12 fu (s "type", ystr "object") = KwType [TObject].
Proof. reflexivity. Qed.
Lemma kw_type_string fu : kw12 fu (s "type", ystr "string") = KwType [TString].
Proof. reflexivity. Qed.

Lemma rd_array fu n : rd (S fu) (array_of n) = SObj [KwType [TArray]; KwItems (rd fu n)].
Proof. reflexivity. Qed.
Lemma rd_map_of fu n :
  rd (S fu) (YMap [(s "type", ystr "object"); (s "additionalProperties", n)]) = SObj [KwType [TObject]; KwAdditional (rd fu n)].
Proof. reflexivity. Qed.

Lemma rd_ref fu short : rd fu (ref_to short) = SObj [KwRef short].
Proof.
  unfold ref_to. rewrite rd_ymap. cbn [map]. unfold kw12. cbn [fst snd denote rd_str reader12].
  change (kw_of_entry (schema_of_jv fu) (s "$ref") (JVStr (ref_prefix ++ short)))
    with (if has_prefix ref_prefix (ref_prefix ++ short)
          then KwRef (skipn (List.length ref_prefix) (ref_prefix ++ short)) else KwRefOther (ref_prefix ++ short)).
  now rewrite has_prefix_app, skipn_app_len.
Qed.

Lemma validates_S P cs n kws v :
  validates P cs (S n) (SObj kws) v =
  vall (map (fun kw => check_kw P cs (validates P cs n) (declared_props kws) kw v) kws).
Proof. reflexivity. Qed.

Lemma validates_array P cs n t l :
  (forall w, In w l -> validates P cs n t w = VOk true) ->
  validates P cs (S n) (SObj [KwType [TArray]; KwItems t]) (JVArr l) = VOk true.
Proof.
  intros H. rewrite validates_S. cbn [map check_kw has_type existsb orb].
  apply vall_cons_true; [reflexivity|]. apply vall_cons_true; [|reflexivity]. now apply vall_all_true.
Qed.

Lemma validates_addl P cs n t kv :
  (forall e, In e kv -> validates P cs n t (snd e) = VOk true) ->
  validates P cs (S n) (SObj [KwType [TObject]; KwAdditional t]) (JVObj kv) = VOk true.
Proof.
  intros H. rewrite validates_S. cbn [map check_kw declared_props flat_map app mem_str existsb has_type orb].
  apply vall_cons_true; [reflexivity|]. apply vall_cons_true; [|reflexivity]. now apply vall_all_true.
Qed.

Lemma validates_props P cs n ps kv :
  (forall p x, In p ps -> assoc_jv (fst p) kv = Some x -> validates P cs n (snd p) x = VOk true) ->
  validates P cs (S n) (SObj [KwType [TObject]; KwProperties ps]) (JVObj kv) = VOk true.
Proof.
  intros H. rewrite validates_S. cbn [map check_kw has_type existsb orb].
  apply vall_cons_true; [reflexivity|]. apply vall_cons_true; [|reflexivity].
  apply vall_all_true. intros p Hp. destruct (assoc_jv (fst p) kv) as [x|] eqn:Ea; [now apply (H p)|reflexivity].
Qed.

Lemma find_comp_map {A B} (g : A -> B) (cs : list (str * A)) name :
  find_comp (map (fun e => (fst e, g (snd e))) cs) name = option_map g (find_comp cs name).
Proof.
  unfold find_comp. induction cs as [|[k a] r IH]; [reflexivity|]. cbn [map find fst snd].
  destruct (str_eqb k name); [reflexivity|exact IH].
Qed.

Lemma find_comp_find {A} (cs : list (str * A)) name a :
  find_comp cs name = Some a -> exists e, find (fun e => str_eqb (fst e) name) cs = Some e /\ snd e = a.
Proof.
  unfold find_comp. destruct (find _ cs) as [e|]; [|discriminate]. intros H. injection H as <-. now exists e.
Qed.

Lemma validates_ref P cs n short t v :
  find_comp cs short = Some t ->
  validates P cs (S n) (SObj [KwRef short]) v = vand (validates P cs n t v) (VOk true).
Proof.
  intros H. destruct (find_comp_find _ _ _ H) as [e [He <-]].
  rewrite validates_S. cbn [map declared_props flat_map check_kw]. rewrite He. reflexivity.
Qed.

Lemma vand_true_r r : r = VOk true -> vand r (VOk true) = VOk true.
Proof. now intros ->. Qed.

Definition is_leaf (v : jv) : bool := match v with JVObj _ | JVArr _ => false | _ => true end.

Lemma und_leaf P cst uf vf sch v : is_leaf v = true -> und P cst uf vf sch v = 0.
Proof. destruct uf; [reflexivity|]. destruct v; try discriminate; reflexivity. Qed.

Lemma fold_sum_zero {A} (g : A -> nat) (l : list A) :
  (forall a, In a l -> g a = 0) -> fold_right (fun e acc => g e + acc) 0 l = 0.
Proof.
  induction l as [|a r IH]; intros H; [reflexivity|]. cbn [fold_right].
  rewrite (H a (or_introl eq_refl)), IH; [reflexivity|]. intros b Hb. apply H. now right.
Qed.

Lemma und_array P cs uf vf kws l :
  (forall w, In w l -> und P cs uf vf (SObj kws) w = 0) ->
  und P cs (S uf) vf (SObj [KwType [TArray]; KwItems (SObj kws)]) (JVArr l) = 0.
Proof.
  intros H. cbn [und resolve0 resolve_kws first_ref find branches kw_allof kw_oneof flat_map map app first_some Conform.kw_items].
  now apply fold_sum_zero.
Qed.

Lemma und_addl P cs uf vf kws kv :
  (forall e, In e kv -> und P cs uf vf (SObj kws) (snd e) = 0) ->
  und P cs (S uf) vf (SObj [KwType [TObject]; KwAdditional (SObj kws)]) (JVObj kv) = 0.
Proof.
  intros H. cbn [und resolve0 resolve_kws first_ref find branches kw_allof kw_oneof flat_map map app].
  apply fold_sum_zero. intros e He. unfold describe.
  cbn [first_some kw_props flat_map app find_comp find kw_addl]. now apply H.
Qed.

(* an object against a $ref to a component that lists properties: every key is looked up there *)
Lemma und_object P cs uf vf short ps kv :
  find_comp cs short = Some (SObj [KwType [TObject]; KwProperties ps]) ->
  (forall e, In e kv -> exists t, find_comp ps (fst e) = Some t /\ und P cs uf vf t (snd e) = 0) ->
  und P cs (S uf) vf (SObj [KwRef short]) (JVObj kv) = 0.
Proof.
  intros Hc H. cbn [und resolve0 resolve_kws first_ref find]. rewrite Hc.
  cbn [resolve_kws first_ref find].
  apply fold_sum_zero. intros e He. destruct (H e He) as [t [Ht Hu]].
  unfold describe. cbn [branches kw_allof kw_oneof map first_some kw_props flat_map app]. rewrite app_nil_r, Ht. exact Hu.
Qed.

Lemma wire_go (kv : list (str * json)) :
  (fix go (kv : list (str * json)) : list (str * jv) :=
     match kv with [] => [] | (k, x) :: r => (k, wire_jv x) :: go r end) kv
  = map (fun e => (fst e, wire_jv (snd e))) kv.
Proof. induction kv as [|[k x] r IH]; [reflexivity|]. cbn [map fst snd]. now rewrite IH. Qed.

(* an object is read entry by entry, unless it is the marker of a float *)
Lemma wire_jv_obj_cases es :
  (exists k z, es = [(k, JNum z)] /\ str_eqb k fmark = true /\ wire_jv (JObj es) = JVNum (f64_dec z)) \/
  wire_jv (JObj es) = JVObj (map (fun e => (fst e, wire_jv (snd e))) es).
Proof.
  rewrite <- wire_go.
  destruct es as [|[k x] [|e r]]; try (right; reflexivity); destruct x; try (right; reflexivity).
  change (wire_jv (JObj [(k, JNum z)])) with (if str_eqb k fmark then JVNum (f64_dec z) else JVObj [(k, wire_jv (JNum z))]).
  destruct (str_eqb k fmark) eqn:Ek; [left; now exists k, z|right; reflexivity].
Qed.

Lemma wire_jv_obj kv : is_jflt (JObj kv) = false ->
  wire_jv (JObj kv) = JVObj (map (fun e => (fst e, wire_jv (snd e))) kv).
Proof.
  intros H. destruct (wire_jv_obj_cases kv) as [[k [z [-> [Hk _]]]]|H']; [|exact H'].
  cbn [is_jflt] in H. unfold fmark in Hk. congruence.
Qed.

Lemma wire_jv_jflt b : wire_jv (jflt b) = JVNum (f64_dec b).
Proof. reflexivity. Qed.

Lemma assoc_jv_map_wire k (es : list (str * json)) x :
  assoc_jv k (map (fun e => (fst e, wire_jv (snd e))) es) = Some x ->
  exists j, In (k, j) es /\ x = wire_jv j.
Proof.
  induction es as [|[k' j] r IH]; [discriminate|]. cbn [map assoc_jv fst snd].
  destruct (str_eqb k k') eqn:E.
  - intros H. injection H as <-. apply str_eqb_eq in E. subst. exists j. split; [now left|reflexivity].
  - intros H. destruct (IH H) as [j' [Hin He]]. exists j'. split; [now right|exact He].
Qed.

(* formats that describe the wire encoding of a kind: a format checker must treat them as annotations
   (JSON Schema 2020-12: format is an annotation unless the format-assertion vocabulary is required) *)
Definition wire_formats : list str :=
  [s "int32"; s "int64"; s "uint64"; s "float"; s "double"; s "byte"; s "date-time"].
Definition wire_formats_are_annotations (P : vparams) : Prop :=
  forall name x, mem_str name wire_formats = true -> vp_format P name x = true.

(* the one library law the proofs use (Ext.law_fprint_num): a finite float prints as a JSON number *)
Definition fprint_is_number (E : ExtLib) : Prop :=
  forall w b j, x_fprint E w b = Some j -> (exists z, j = JNum z) \/ (exists f, j = jflt f).
Lemma ext_laws_fprint E : ExtLaws E -> fprint_is_number E.
Proof. intros EL w b j. apply (law_fprint_num E EL). Qed.

Definition is_scalar_kind (k : kind) : bool := match k with KEnum _ | KMessage _ => false | _ => true end.

(* the schema of one element of kind k: what convertScalarField gives for a field without annotations
   and without validation rules *)
Definition elem_node (sc : schema) (k : kind) : ynode :=
  convert_scalar sc no_side [] (OpenApi.plain_field [] 0 k Singular).

Definition scalar_kws (k : kind) : list keyword :=
  match k with
  | KBool => [KwType [TBoolean]]
  | KInt32 | KSint32 | KSfixed32 => [KwType [TInteger]; KwFormat (s "int32")]
  | KUint32 | KFixed32 => [KwType [TInteger]; KwFormat (s "int32"); KwMinimum (dec_of_Z 0)]
  | KInt64 | KSint64 | KSfixed64 => [KwType [TString]; KwFormat (s "int64")]
  | KUint64 | KFixed64 => [KwType [TString]; KwFormat (s "uint64")]
  | KFloat => [KwType [TNumber]; KwFormat (s "float")]
  | KDouble => [KwType [TNumber]; KwFormat (s "double")]
  | KString => [KwType [TString]]
  | KBytes => [KwType [TString]; KwFormat (s "byte")]
  | _ => []
  end.

Lemma rd_scalar_node sc fu k : is_scalar_kind k = true -> rd fu (elem_node sc k) = SObj (scalar_kws k).
Proof. destruct k; try discriminate; intros _; reflexivity. Qed.

Lemma constraint_entries_none k l m : constraint_entries k l m no_rules = [].
Proof. destruct k, l, m; reflexivity. Qed.

(* a field none of whose annotations touches the rendering of its own scalars / Timestamps publishes, for its
   elements, the schema of its kind *)
Lemma convert_scalar_elem sc mn f :
  (ProtoJson.is_int64_kind (f_kind f) && i64_number f) = false -> f_enumenc f = None -> f_bytesenc f = None -> f_tsfmt f = None ->
  convert_scalar sc no_side mn f = elem_node sc (f_kind f).
Proof.
  intros Hi He Hb Ht.
  unfold elem_node, convert_scalar, side_rules, side_examples. cbn [f_kind OpenApi.plain_field f_name sd_rules sd_examples no_side find].
  destruct (f_kind f) eqn:Ek; rewrite ?constraint_entries_none; cbn [example_entries app ProtoJson.is_int64_kind andb] in *;
    unfold bytes_entries; cbn [f_int64 f_bytesenc OpenApi.plain_field]; rewrite ?Hi, ?Hb; try reflexivity.
  - unfold enum_schema. cbn [f_enumenc OpenApi.plain_field]. now rewrite He.
  - unfold timestamp_schema. cbn [f_tsfmt OpenApi.plain_field f_kind]. rewrite Ht. reflexivity.
Qed.

Lemma convert_scalar_plain sc mn f :
  MappingFacts.plain_field f = true -> convert_scalar sc no_side mn f = elem_node sc (f_kind f).
Proof.
  intros Hp. destruct (plain_field_facts f Hp) as [_ [Hi [He [_ [_ [Ht [Hb _]]]]]]].
  apply convert_scalar_elem; auto. unfold i64_number. rewrite Hi. apply Bool.andb_false_r.
Qed.

Lemma dec_leb_0 z : (0 <= z)%Z -> dec_leb (dec_of_Z 0) (dec_of_Z z) = true.
Proof. intros H. unfold dec_of_Z. rewrite dec_leb_int. now apply Z.leb_le. Qed.

Section Scalars.
Variable E : ExtLib.
Hypothesis EL : fprint_is_number E.
Variable sc : schema.
Variable P : vparams.
Hypothesis Hfmt : wire_formats_are_annotations P.
Variable cst : list (str * jschema).

(* the JSON protojson writes for a typed scalar outside the defect classes, by shape *)
Lemma pj_scalar_shape k x j :
  is_scalar_kind k = true -> wt_scalar sc k x = true -> scalar_issues sc k x = [] ->
  pj_scalar E sc k x = ROk j ->
  match k with
  | KBool => exists b, wire_jv j = JVBool b
  | KString | KBytes => exists t, wire_jv j = JVStr t
  | KFloat | KDouble => exists d, wire_jv j = JVNum d
  | _ => if ProtoJson.is_int32_kind k
         then exists z, wire_jv j = JVNum (dec_of_Z z) /\ (ProtoJson.int_lo k <= z)%Z
         else exists t, wire_jv j = JVStr t
  end.
Proof.
  intros Hk Hwt Hiss Hj.
  destruct k; try discriminate Hk; destruct x; cbv [wt_scalar ProtoJson.is_int32_kind ProtoJson.is_int64_kind orb andb] in Hwt;
    try discriminate Hwt; cbv [pj_scalar ProtoJson.is_int32_kind ProtoJson.is_int64_kind] in Hj.
  (* floats *)
  1,2: unfold float_json in Hj; cbn [scalar_issues] in Hiss; unfold float_is_finite in Hiss;
       destruct (fclassify _ bits); try discriminate Hiss;
       destruct (x_fprint E _ bits) as [j0|] eqn:Ep; try discriminate Hj; injection Hj as <-;
       destruct (EL _ _ _ Ep) as [[z ->]|[f ->]]; eexists; reflexivity.
  (* integers *)
  all: try (injection Hj as <-; cbn [ProtoJson.is_int32_kind];
            first [ eexists; reflexivity
                  | exists z; split; [reflexivity|];
                    unfold in_int_range in Hwt; apply andb_prop in Hwt as [Hlo _]; now apply Z.leb_le in Hlo ]).
Qed.

Theorem scalar_valid k x j fu n :
  is_scalar_kind k = true -> wt_scalar sc k x = true -> scalar_issues sc k x = [] ->
  pj_scalar E sc k x = ROk j ->
  validates P cst (S n) (rd fu (elem_node sc k)) (wire_jv j) = VOk true.
Proof.
  intros Hk Hwt Hiss Hj. rewrite (rd_scalar_node sc fu k Hk).
  pose proof (pj_scalar_shape k x j Hk Hwt Hiss Hj) as Hs.
  rewrite validates_S.
  destruct k; try discriminate Hk; cbn [ProtoJson.is_int32_kind] in Hs;
    try (destruct Hs as [z [-> Hlo]]); try (destruct Hs as [t ->]);
    cbn [scalar_kws map check_kw declared_props flat_map app];
    rewrite ?Hfmt by reflexivity;
    try reflexivity.
  all: cbn in Hlo; unfold vall; cbn [fold_right has_type existsb orb]; rewrite (dec_leb_0 z Hlo); reflexivity.
Qed.

(* enums: the value's name is one of the listed names *)
Theorem enum_valid tn n0 j fu n :
  wt_scalar sc (KEnum tn) (VEnum n0) = true -> scalar_issues sc (KEnum tn) (VEnum n0) = [] ->
  plain_enum sc (KEnum tn) = true ->
  pj_scalar E sc (KEnum tn) (VEnum n0) = ROk j ->
  validates P cst (S n) (rd fu (elem_node sc (KEnum tn))) (wire_jv j) = VOk true.
Proof.
  intros Hwt Hiss Hpl Hj. cbn in Hwt, Hiss, Hpl, Hj. unfold enum_json in Hj.
  unfold elem_node, convert_scalar. cbn [f_kind OpenApi.plain_field]. unfold enum_schema. cbn [f_enumenc OpenApi.plain_field].
  destruct (find_enum (all_enums sc) tn) as [e|]; [|discriminate Hwt].
  destruct (ev_by_number (e_values e) n0) as [v|] eqn:Ev; [|discriminate Hiss].
  injection Hj as <-. cbn [wire_jv].
  destruct (reads_as_string reader12 (ev_name v)) eqn:Er; [|discriminate Hiss].
  assert (Hin : In v (e_values e)).
  { clear -Ev. induction (e_values e) as [|a r IH]; [discriminate|]. cbn in Ev.
    destruct (ev_number a =? n0)%Z; [injection Ev as <-; now left|right; now apply IH]. }
  assert (Hnames : map (fun v0 => YPlain (match ev_custom v0 with
                                          | Some c => match c with [] => ev_name v0 | _ :: _ => c end
                                          | None => ev_name v0 end)) (e_values e)
                   = map YPlain (map ev_name (e_values e))).
  { rewrite map_map. apply map_ext_in. intros a Ha. rewrite forallb_forall in Hpl. specialize (Hpl a Ha).
    destruct (ev_custom a); [discriminate|reflexivity]. }
  rewrite Hnames, rd_ymap. cbn [map]. rewrite kw_type_string, kw_enum. rewrite validates_S.
  cbn [map check_kw declared_props flat_map has_type existsb orb].
  apply vall_cons_true; [reflexivity|]. apply vall_cons_true; [|reflexivity]. f_equal.
  apply existsb_exists. exists (JVStr (ev_name v)). split.
  - rewrite <- (reads_as_string_eq _ Er). apply in_map. now apply in_map.
  - cbn [jv_eqb]. apply str_eqb_refl.
Qed.
End Scalars.

(* the same, against what convertScalarField publishes for any field of that kind without annotations *)
Theorem scalar_valid_field : forall (E : ExtLib) (sc : schema) (P : vparams) (cst : list (str * jschema)) (mn : str) (f : field) (x : sval) (j : json) (fu n : nat),
  fprint_is_number E -> wire_formats_are_annotations P ->
  MappingFacts.plain_field f = true -> is_msgk (f_kind f) = false ->
  wt_scalar sc (f_kind f) x = true -> scalar_issues sc (f_kind f) x = [] -> plain_enum sc (f_kind f) = true ->
  pj_scalar E sc (f_kind f) x = ROk j ->
  validates P cst (S n) (rd fu (convert_scalar sc no_side mn f)) (wire_jv j) = VOk true.
Proof.
  intros E sc P cst mn f x j fu n EL Hfmt Hpf Hk Hwt Hiss Hpe Hj.
  rewrite (convert_scalar_plain sc mn f Hpf).
  destruct (is_scalar_kind (f_kind f)) eqn:Es.
  - now apply (scalar_valid E EL sc P Hfmt cst (f_kind f) x j fu n).
  - destruct (f_kind f) eqn:Ek; try discriminate Es; [|discriminate Hk].
    destruct x; try discriminate Hwt. now apply (enum_valid E sc P cst tn n0 j fu n).
Qed.

Lemma ynode_eqb_eq a : forall b, ynode_eqb a b = true -> a = b.
Proof.
  induction a as [x|x|x|d|b0| |l IH|kv IH] using ynode_ind'; intros b H; destruct b; try discriminate H; cbn [ynode_eqb] in H.
  - apply str_eqb_eq in H. now subst.
  - apply str_eqb_eq in H. now subst.
  - apply str_eqb_eq in H. now subst.
  - apply andb_prop in H as [H1 H2]. apply Z.eqb_eq in H1, H2. destruct d, d0. cbn in *. now subst.
  - apply Bool.eqb_prop in H. now subst.
  - reflexivity.
  - f_equal. revert l0 H. induction l as [|a l IHl]; intros [|b l0] H; try discriminate H; [reflexivity|].
    inversion IH as [|? ? Ha Hl]; subst. apply andb_prop in H as [H1 H2]. f_equal; [now apply Ha|now apply IHl].
  - f_equal. revert kv0 H. induction kv as [|[k a] kv IHl]; intros [|[k' b] kv0] H; try discriminate H; [reflexivity|].
    inversion IH as [|? ? Ha Hl]; subst. cbn [snd] in Ha.
    apply andb_prop in H as [H1 H3]. apply andb_prop in H1 as [H1 H2]. apply str_eqb_eq in H1. subst.
    f_equal; [f_equal; now apply Ha|now apply IHl].
Qed.

Lemma find_message_name ms tn md : find_message ms tn = Some md -> m_name md = tn.
Proof.
  induction ms as [|a r IH]; [discriminate|]. cbn. destruct (str_eqb (m_name a) tn) eqn:Eq.
  - intros H. injection H as <-. now apply str_eqb_eq.
  - exact IH.
Qed.

Lemma find_comp_in {A} (l : list (str * A)) k v : find_comp l k = Some v -> In (k, v) l.
Proof.
  intros H. destruct (find_comp_find _ _ _ H) as [e [He <-]]. apply find_some in He as [Hin Hk].
  apply str_eqb_eq in Hk. subst. now destruct e.
Qed.
Lemma find_comp_some {A} (l : list (str * A)) k : In k (map fst l) -> exists v, find_comp l k = Some v.
Proof.
  unfold find_comp. induction l as [|[k' a] r IH]; [intros []|]. cbn [map fst find].
  destruct (str_eqb k' k) eqn:Eq; [intros _; now exists a|].
  intros [H|H]; [subst; now rewrite str_eqb_refl in Eq|now apply IH].
Qed.

Lemma convert_field_sing sc mn f :
  f_card f = Singular \/ f_card f = Optional -> is_nullable f = false ->
  (OpenApi.is_msg_kind (f_kind f) && match f_empty f with Some EBNull => true | _ => false end) = false ->
  convert_field sc no_side mn f = convert_scalar sc no_side mn f.
Proof.
  unfold convert_field, is_nullable. intros Hc Hn ->.
  destruct Hc as [-> | ->]; destruct (f_nullable f) as [[|]|]; try reflexivity; discriminate Hn.
Qed.
Lemma convert_field_rep sc mn f :
  f_card f = Repeated -> convert_field sc no_side mn f = array_of (convert_scalar sc no_side mn f).
Proof.
  unfold convert_field, side_rules. intros ->. cbn [sd_rules no_side find]. rewrite constraint_entries_none. reflexivity.
Qed.
Lemma convert_field_map sc mn f kk :
  f_card f = MapOf kk ->
  convert_field sc no_side mn f = YMap [(s "type", ystr "object"); (s "additionalProperties", map_value_schema sc no_side f)].
Proof.
  unfold convert_field, side_rules. intros ->. cbn [sd_rules no_side find]. rewrite constraint_entries_none. reflexivity.
Qed.

(* the inner loops of walk, plain_in and need under names of their own *)
Definition walk_fields (sc : schema) (sd : side) (cs : list (str * ynode)) (md : message) : list (str * fval) -> list c06_defect :=
  fix go (m0 : list (str * fval)) : list c06_defect :=
    match m0 with
    | [] => []
    | (name, x) :: r =>
        match find_field (m_fields md) name with
        | Some f => walk sc sd cs (f_kind f) x ++ go r
        | None => go r
        end
    end.
Definition walk_list (sc : schema) (sd : side) (cs : list (str * ynode)) (k : kind) : list fval -> list c06_defect :=
  fix go (l : list fval) : list c06_defect := match l with [] => [] | x :: r => walk sc sd cs k x ++ go r end.
Definition walk_map (sc : schema) (sd : side) (cs : list (str * ynode)) (k : kind) : list (sval * fval) -> list c06_defect :=
  fix go (kv : list (sval * fval)) : list c06_defect :=
    match kv with [] => [] | (key, x) :: r => key_issues key ++ walk sc sd cs k x ++ go r end.

Lemma walk_FM sc sd cs tn m :
  walk sc sd cs (KMessage tn) (FM m) =
  if str_eqb tn ts_name then [] else
  match find_message (all_messages sc) tn with
  | None => []
  | Some md => msg_issues sc sd cs md m ++ walk_fields sc sd cs md m
  end.
Proof. reflexivity. Qed.
Lemma walk_FL sc sd cs k l : walk sc sd cs k (FL l) = walk_list sc sd cs k l.
Proof. reflexivity. Qed.
Lemma walk_FMap sc sd cs k kv : walk sc sd cs k (FMap kv) = walk_map sc sd cs k kv.
Proof. reflexivity. Qed.

Definition plain_fields (sc : schema) (md : message) : list (str * fval) -> bool :=
  fix go (m : list (str * fval)) : bool :=
    match m with
    | [] => true
    | (name, x) :: r =>
        match find_field (m_fields md) name with
        | Some f => plain_in sc (f_kind f) x && go r
        | None => go r
        end
    end.
Definition plain_list (sc : schema) (k : kind) : list fval -> bool :=
  fix go (l : list fval) : bool := match l with [] => true | x :: r => plain_in sc k x && go r end.
Definition plain_map (sc : schema) (k : kind) : list (sval * fval) -> bool :=
  fix go (kv : list (sval * fval)) : bool := match kv with [] => true | (_, x) :: r => plain_in sc k x && go r end.

Lemma plain_in_FM sc tn m :
  plain_in sc (KMessage tn) (FM m) =
  if str_eqb tn ts_name then true else
  match find_message (all_messages sc) tn with
  | None => true
  | Some md => plain_msg md && plain_fields sc md m
  end.
Proof. reflexivity. Qed.
Lemma plain_in_FL sc k l : plain_in sc k (FL l) = plain_list sc k l.
Proof. reflexivity. Qed.
Lemma plain_in_FMap sc k kv : plain_in sc k (FMap kv) = plain_map sc k kv.
Proof. reflexivity. Qed.

(* validation fuel a value needs: three levels per message (the $ref, the component, the property) *)
Fixpoint need (v : fval) : nat :=
  match v with
  | FS _ => 1
  | FM m => 3 + (fix go (m : list (str * fval)) : nat := match m with [] => 0 | e :: r => Nat.max (need (snd e)) (go r) end) m
  | FL l => (fix go (l : list fval) : nat := match l with [] => 0 | x :: r => Nat.max (need x) (go r) end) l
  | FMap kv => (fix go (kv : list (sval * fval)) : nat := match kv with [] => 0 | e :: r => Nat.max (need (snd e)) (go r) end) kv
  end.
Definition need_fields : list (str * fval) -> nat :=
  fix go (m : list (str * fval)) : nat := match m with [] => 0 | e :: r => Nat.max (need (snd e)) (go r) end.
Definition need_list : list fval -> nat :=
  fix go (l : list fval) : nat := match l with [] => 0 | x :: r => Nat.max (need x) (go r) end.
Definition need_map : list (sval * fval) -> nat :=
  fix go (kv : list (sval * fval)) : nat := match kv with [] => 0 | e :: r => Nat.max (need (snd e)) (go r) end.
Lemma need_FM m : need (FM m) = 3 + need_fields m. Proof. reflexivity. Qed.
Lemma need_FL l : need (FL l) = need_list l. Proof. reflexivity. Qed.
Lemma need_FMap kv : need (FMap kv) = need_map kv. Proof. reflexivity. Qed.

Lemma wt_entry_cases sc f x : wt_entry sc f x = true ->
  match x with
  | FL l => f_card f = Repeated /\ l <> [] /\ forallb (wt sc (f_kind f)) l = true
  | FMap kv => exists kk, f_card f = MapOf kk /\ kv <> [] /\
                          forallb (fun e => wt_key kk (fst e) && wt sc (f_kind f) (snd e)) kv = true
  | _ => (f_card f = Singular \/ f_card f = Optional) /\ wt sc (f_kind f) x = true
  end.
Proof.
  intros H. destruct (CodecBase.wt_entry_inv sc f x H) as [Hp Hsh]. destruct x as [sx|cm|l|kv]; [exact Hsh|exact Hsh|..].
  - destruct Hsh as [Hc Hall]. split; [exact Hc|]. split; [intros ->; discriminate Hp|]. apply forallb_forall. exact Hall.
  - destruct Hsh as [kk [Hc [_ Hall]]]. exists kk. split; [exact Hc|]. split; [intros ->; discriminate Hp|].
    apply forallb_forall. intros [key y] Hin. apply andb_true_intro. exact (Hall key y Hin).
Qed.

Lemma fields_in sc sd cs md m name x f :
  wt_fields sc md m = true -> walk_fields sc sd cs md m = [] -> In (name, x) m -> find_field (m_fields md) name = Some f ->
  wt_entry sc f x = true /\ walk sc sd cs (f_kind f) x = [] /\ need x <= need_fields m.
Proof.
  induction m as [|[n0 x0] r IH]; [intros _ _ []|]. cbn [wt_fields walk_fields need_fields snd]. intros Hwt Hw Hin Hf.
  destruct (find_field (m_fields md) n0) as [f0|] eqn:E0; [|discriminate Hwt].
  apply andb_prop in Hwt as [H1 H2]. apply app_eq_nil in Hw as [H3 H4]. destruct Hin as [Hin|Hin].
  - injection Hin as -> ->. rewrite Hf in E0. injection E0 as <-. repeat split; auto. lia.
  - destruct (IH H2 H4 Hin Hf) as [H5 [H6 H7]]. repeat split; auto. lia.
Qed.
Lemma plain_fields_in sc md m name x f :
  plain_fields sc md m = true -> In (name, x) m -> find_field (m_fields md) name = Some f -> plain_in sc (f_kind f) x = true.
Proof.
  induction m as [|[n0 x0] r IH]; [intros _ []|]. cbn [plain_fields]. intros H Hin Hf.
  destruct Hin as [Hin|Hin].
  - injection Hin as -> ->. rewrite Hf in H. now apply andb_prop in H as [H1 _].
  - destruct (find_field (m_fields md) n0); [apply andb_prop in H as [_ H]|]; now apply IH.
Qed.

(* generator.go:175-220 buildObjectSchema, last branch: no root unwrap, no flatten field, no discriminated oneof *)
Lemma object_schema_plain sc sd md :
  is_root_unwrap md = false -> existsb is_flatten (m_fields md) = false -> existsb oneof_cfg (m_oneofs md) = false ->
  object_schema sc sd md = plain_object_schema sc sd md.
Proof.
  intros Hr Hf Ho. unfold object_schema, object_schema_sets.
  assert (H1 : root_unwrap_field md = None).
  { unfold root_unwrap_field. unfold is_root_unwrap, unwrap_field, unwrap_fields in Hr.
    destruct (m_fields md) as [|f [|g r]]; try reflexivity. cbn [filter] in Hr.
    destruct (f_unwrap f); [|reflexivity]. cbn [andb].
    unfold is_repeated, Codec.is_map in Hr. unfold OpenApi.is_map, is_list.
    destruct (f_card f); cbn in Hr |- *; try reflexivity; discriminate Hr. }
  assert (H3 : disc_oneofs md = []).
  { unfold disc_oneofs. induction (m_oneofs md) as [|o r IH]; [reflexivity|]. cbn [existsb] in Ho.
    apply Bool.orb_false_iff in Ho as [Ho1 Ho2]. cbn [filter]. change (discriminated o) with (oneof_cfg o). rewrite Ho1. now apply IH. }
  unfold has_disc_oneof. rewrite H1, H3. change (has_flatten_fields md) with (existsb is_flatten (m_fields md)). now rewrite Hf.
Qed.

Lemma plain_msg_no_unwrap md : plain_msg md = true -> forall f, In f (m_fields md) -> f_unwrap f = false.
Proof.
  unfold plain_msg. intros H f Hf. apply andb_prop in H as [H _]. rewrite forallb_forall in H.
  now destruct (plain_field_facts f (H f Hf)) as [Hu _].
Qed.

Lemma plain_msg_object sc sd md : plain_msg md = true -> object_schema sc sd md = plain_object_schema sc sd md.
Proof.
  intros Hp. pose proof (plain_msg_no_unwrap md Hp) as Hu.
  unfold plain_msg in Hp. apply andb_prop in Hp as [Hf Ho]. rewrite forallb_forall in Hf, Ho.
  apply object_schema_plain.
  - unfold is_root_unwrap, unwrap_field, unwrap_fields.
    replace (filter (fun f => f_unwrap f) (m_fields md)) with (@nil field); [reflexivity|].
    clear Hf. induction (m_fields md) as [|f r IH]; [reflexivity|]. cbn [filter]. rewrite (Hu f) by now left.
    apply IH. intros g Hg. apply Hu. now right.
  - apply existsb_none. intros f Hin.
    destruct (plain_field_facts f (Hf f Hin)) as [_ [_ [_ [_ [_ [_ [_ [_ [H _]]]]]]]]]. unfold is_flatten. now rewrite H.
  - apply existsb_none. intros o Hin. specialize (Ho o Hin). apply Bool.negb_true_iff in Ho. unfold oneof_cfg. now rewrite Ho.
Qed.

Lemma plain_object_no_side sc md :
  plain_object_schema sc no_side md =
  object_of (map (fun f => (jname f, convert_field sc no_side (m_name md) f)) (m_fields md)) [].
Proof.
  unfold plain_object_schema. f_equal.
  induction (m_fields md) as [|f r IH]; [reflexivity|]. cbn [filter map]. exact IH.
Qed.

(* the properties of the plain object component, and how it reads *)
Definition component_props (sc : schema) (md : message) : list (str * ynode) :=
  omap_of (map (fun f => (jname f, convert_field sc no_side (m_name md) f)) (m_fields md)).

Lemma rd_plain_object sc md :
  typed (plain_object_schema sc no_side md) =
  SObj (KwType [TObject] ::
        match m_fields md with [] => [] | _ => [KwProperties (map (fun p => (fst p, rd 6 (snd p))) (component_props sc md))] end).
Proof.
  rewrite plain_object_no_side, typed_rd. unfold object_of, component_props. rewrite rd_ymap.
  destruct (m_fields md) as [|f r]; [reflexivity|]. cbn [map app]. now rewrite kw_type_object, kw_properties.
Qed.

Lemma msg_issues_nil sc sd cs md m : msg_issues sc sd cs md m = [] ->
  comp_ok sc sd cs (m_name md) = true /\ existsb (fun f => is_marker (json_name (f_name f))) (m_fields md) = false.
Proof.
  unfold msg_issues. intros H. apply app_eq_nil in H as [H1 H2]. apply app_eq_nil in H2 as [H2 _].
  split.
  - destruct (comp_ok sc sd cs (m_name md)); [reflexivity|discriminate H1].
  - destruct (existsb _ (m_fields md)); [discriminate H2|reflexivity].
Qed.

(* the component the document registers under the short name of a message is the one built for it *)
Lemma component_of sc cs tn md :
  find_message (all_messages sc) tn = Some md -> comp_ok sc no_side cs tn = true ->
  find_comp (doc_components reader12 cs) (short_name tn) = Some (typed (object_schema sc no_side md)).
Proof.
  intros Hfm Hc. unfold comp_ok, OpenApi.lookup_message in Hc. rewrite Hfm in Hc.
  destruct (find_comp cs (short_name tn)) as [n0|] eqn:Efc; [|discriminate Hc].
  apply ynode_eqb_eq in Hc. subst n0.
  change (doc_components reader12 cs) with (map (fun e : str * ynode => (fst e, typed (snd e))) cs).
  now rewrite (find_comp_map typed cs (short_name tn)), Efc.
Qed.

Lemma msg_ok_jname_inj md f f' :
  msg_ok md = true -> In f (m_fields md) -> In f' (m_fields md) -> jname f = jname f' -> f = f'.
Proof.
  unfold jname. intros Hok Hf Hf' Heq. unfold msg_ok in Hok. apply andb_prop in Hok as [Hnd Hall]. rewrite forallb_forall in Hall.
  pose proof (Hall f Hf) as H1. pose proof (Hall f' Hf') as H2.
  apply andb_prop in H1 as [H1 _]. apply andb_prop in H2 as [H2 _]. rewrite Heq in H1.
  destruct (field_of_key md (json_name (f_name f'))) as [g|] eqn:Eg; [|discriminate H1].
  apply Z.eqb_eq in H1, H2. eapply nodup_num_inj; eauto. congruence.
Qed.

(* the property the component lists under the JSON name of a field is the schema of that field *)
Lemma component_prop_of sc md f :
  msg_ok md = true -> In f (m_fields md) ->
  find_comp (component_props sc md) (jname f) = Some (convert_field sc no_side (m_name md) f).
Proof.
  intros Hok Hf. unfold component_props.
  destruct (find_comp_some (omap_of (map (fun f => (jname f, convert_field sc no_side (m_name md) f)) (m_fields md))) (jname f)) as [n Hn].
  { apply omap_of_keys. rewrite map_map. now apply (in_map jname). }
  rewrite Hn. apply find_comp_in, omap_of_in, in_map_iff in Hn as [f' [Heq Hf']]. injection Heq as Hk <-.
  now rewrite (msg_ok_jname_inj md f' f Hok Hf' Hf Hk).
Qed.

Lemma is_jflt_not_marker kt j r : is_marker kt = false -> is_jflt (JObj ((kt, j) :: r)) = false.
Proof. intros H. destruct r; [|destruct j; reflexivity]. destruct j; try reflexivity. exact H. Qed.

(* an object whose entries each answer to the property of a field, against the body schema of the message *)
Section Body.
Variable sc : schema.
Variable P : vparams.
Variable cs : list (str * ynode).
Let cst := doc_components reader12 cs.
Variable tn : str.
Variable md : message.
Hypothesis Hfm : find_message (all_messages sc) tn = Some md.
Hypothesis Hcomp : comp_ok sc no_side cs tn = true.
Hypothesis Hobj : object_schema sc no_side md = plain_object_schema sc no_side md.
Hypothesis Hok : msg_ok md = true.
Hypothesis Hmark : existsb (fun f => is_marker (json_name (f_name f))) (m_fields md) = false.

Lemma body_wire es (R : field -> json -> Prop) :
  (forall key j, In (key, j) es -> exists f, In f (m_fields md) /\ key = jname f /\ R f j) ->
  wire_jv (JObj es) = JVObj (map (fun e => (fst e, wire_jv (snd e))) es).
Proof.
  intros Hes. apply wire_jv_obj. destruct es as [|[key j0] r]; [reflexivity|]. apply is_jflt_not_marker.
  destruct (Hes key j0 (or_introl eq_refl)) as [f [Hinf [-> _]]].
  destruct (is_marker (jname f)) eqn:Em; [|reflexivity].
  rewrite <- Hmark. symmetry. apply existsb_exists. now exists f.
Qed.

(* rd 6: the component is read by [typed] = rd 7, and its "properties" keyword takes one level *)
Lemma body_valid es n :
  (forall key j, In (key, j) es -> exists f, In f (m_fields md) /\ key = jname f /\
      validates P cst n (rd 6 (convert_field sc no_side (m_name md) f)) (wire_jv j) = VOk true) ->
  validates P cst (S (S n)) (body_schema tn) (wire_jv (JObj es)) = VOk true.
Proof.
  intros Hes. unfold body_schema. rewrite (validates_ref P cst _ _ _ _ (component_of sc cs tn md Hfm Hcomp)). apply vand_true_r.
  rewrite Hobj, rd_plain_object, (body_wire es _ Hes).
  destruct (m_fields md) as [|f0 fs] eqn:Efs; [rewrite validates_S; reflexivity|].
  apply validates_props. intros p x Hp Ha.
  apply in_map_iff in Hp as [[k nd] [<- Hp]]. cbn [fst snd] in *.
  apply omap_of_in, in_map_iff in Hp as [f [Heq Hf]]. injection Heq as <- <-.
  destruct (assoc_jv_map_wire _ _ _ Ha) as [j [Hin ->]].
  destruct (Hes _ _ Hin) as [f' [Hf' [Hk Hv]]]. rewrite <- Efs in Hf'.
  now rewrite (msg_ok_jname_inj md f f' Hok Hf Hf' Hk).
Qed.

Lemma body_und es uf vf :
  (forall key j, In (key, j) es -> exists f, In f (m_fields md) /\ key = jname f /\
      und P cst uf vf (rd 6 (convert_field sc no_side (m_name md) f)) (wire_jv j) = 0) ->
  und P cst (S uf) vf (body_schema tn) (wire_jv (JObj es)) = 0.
Proof.
  intros Hes. rewrite (body_wire es _ Hes).
  pose proof (component_of sc cs tn md Hfm Hcomp) as Hc. rewrite Hobj, rd_plain_object in Hc.
  destruct (m_fields md) as [|f0 fs] eqn:Efs.
  - destruct es as [|[k0 j0] r]; [reflexivity|].
    destruct (Hes k0 j0 (or_introl eq_refl)) as [f [[] _]].
  - apply (und_object P cst uf vf _ _ _ Hc). intros e He. apply in_map_iff in He as [[key j] [<- Hin]]. cbn [fst snd].
    destruct (Hes key j Hin) as [f [Hf [-> Hu]]]. exists (rd 6 (convert_field sc no_side (m_name md) f)). split; [|exact Hu].
    rewrite <- Efs in Hf. now rewrite find_comp_map, (component_prop_of sc md f Hok Hf).
Qed.
End Body.

Lemma elem_node_ymap sc k : exists es, elem_node sc k = YMap es.
Proof.
  unfold elem_node, convert_scalar. cbn [f_kind OpenApi.plain_field].
  destruct k; try (eexists; reflexivity).
  - unfold enum_schema. destruct (find_enum _ _); [destruct (f_enumenc _) as [[| |]|]|]; eexists; reflexivity.
  - destruct (is_timestamp _); [unfold timestamp_schema; destruct (f_tsfmt _) as [[| | | |]|]|unfold ref_to]; eexists; reflexivity.
Qed.
Lemma rd_elem_sobj sc fu k : exists kws, rd fu (elem_node sc k) = SObj kws.
Proof. destruct (elem_node_ymap sc k) as [es ->]. rewrite rd_ymap. eexists; reflexivity. Qed.

Lemma elem_node_message sc fu tn : str_eqb tn ts_name = false -> rd fu (elem_node sc (KMessage tn)) = body_schema tn.
Proof.
  intros H. unfold elem_node, convert_scalar. cbn [f_kind OpenApi.plain_field is_timestamp].
  change (s "google.protobuf.Timestamp") with ts_name. rewrite H. apply rd_ref.
Qed.
Lemma rd_elem_timestamp sc fu : rd fu (elem_node sc (KMessage ts_name)) = SObj [KwType [TString]; KwFormat (s "date-time")].
Proof. reflexivity. Qed.

Lemma find_unwrap_none md : plain_msg md = true -> find_unwrap_field md = None.
Proof.
  intros Hp. pose proof (plain_msg_no_unwrap md Hp) as Hu. unfold find_unwrap_field.
  induction (m_fields md) as [|f r IH]; [reflexivity|]. cbn [find]. rewrite (Hu f) by now left. cbn [andb].
  apply IH. intros g Hg. apply Hu. now right.
Qed.

Section Messages.
Variable E : ExtLib.
Hypothesis EL : fprint_is_number E.
Variable sc : schema.
Variable P : vparams.
Variable cs : list (str * ynode).
(* the request does not itself define google.protobuf.Timestamp *)
Hypothesis Hts : find_message (all_messages sc) ts_name = None.
Let cst := doc_components reader12 cs.

Lemma pj_scalar_leaf k x j : pj_scalar E sc k x = ROk j -> is_leaf (wire_jv j) = true.
Proof.
  intros Hj. destruct k, x; cbv [pj_scalar ProtoJson.is_int32_kind ProtoJson.is_int64_kind] in Hj;
    try discriminate Hj; try (injection Hj as <-; reflexivity).
  1,2: unfold float_json in Hj; destruct (fclassify _ bits); try (injection Hj as <-; reflexivity);
       destruct (x_fprint E _ bits) as [j0|] eqn:Ep; try discriminate Hj; injection Hj as <-;
       destruct (EL _ _ _ Ep) as [[z ->]|[f ->]]; reflexivity.
  unfold enum_json in Hj. destruct (find_enum _ _); [|discriminate Hj].
  destruct (ev_by_number _ _); injection Hj as <-; reflexivity.
Qed.

(* what C06 asks of a JSON instance w against the schema t published for it: w validates with every fuel from n on
   (for a validator that takes the wire formats as annotations), and no property of w is left undescribed (whatever
   the validator's parameters: the fragment has no oneOf for the walk to choose a branch of) *)
Definition conforms (n : nat) (t : jschema) (w : jv) : Prop :=
  (wire_formats_are_annotations P -> forall fuel, n <= fuel -> validates P cst fuel t w = VOk true) /\
  (forall uf vf, und P cst uf vf t w = 0).

Lemma conforms_le n n' t w : conforms n t w -> n <= n' -> conforms n' t w.
Proof. intros [H1 H2] Hle. split; [|exact H2]. intros Hf fuel Hfu. apply H1; [exact Hf|lia]. Qed.

Lemma conforms_array n kws l :
  (forall w, In w l -> conforms n (SObj kws) w) -> conforms (S n) (SObj [KwType [TArray]; KwItems (SObj kws)]) (JVArr l).
Proof.
  intros H. split.
  - intros Hf [|fuel] Hfu; [lia|]. apply validates_array. intros w Hw. apply (H w Hw); [exact Hf|lia].
  - intros [|uf] vf; [reflexivity|]. apply und_array. intros w Hw. apply (H w Hw).
Qed.
Lemma conforms_addl n kws kv :
  (forall e, In e kv -> conforms n (SObj kws) (snd e)) -> conforms (S n) (SObj [KwType [TObject]; KwAdditional (SObj kws)]) (JVObj kv).
Proof.
  intros H. split.
  - intros Hf [|fuel] Hfu; [lia|]. apply validates_addl. intros e He. apply (H e He); [exact Hf|lia].
  - intros [|uf] vf; [reflexivity|]. apply und_addl. intros e He. apply (H e He).
Qed.

(* Ce v: the proto3 JSON of v, as a value of any kind k it is typed for, conforms to the element schema of k.
   A list or map is not a value of a kind: CCe asks Ce of its elements, which is what a field needs *)
Definition Ce (v : fval) : Prop :=
  forall k j fu,
    wt sc k v = true -> plain_in sc k v = true -> walk sc no_side cs k v = [] ->
    pj_fval E sc k v = ROk j ->
    conforms (need v) (rd fu (elem_node sc k)) (wire_jv j).
Definition CCe (v : fval) : Prop :=
  match v with
  | FL l => Forall Ce l
  | FMap kv => Forall (fun e => Ce (snd e)) kv
  | _ => Ce v
  end.
Lemma Ce_of_CCe v : CCe v -> Ce v.
Proof. destruct v; cbn; auto; intros _ k j fu Hwt; cbn in Hwt; discriminate. Qed.

Lemma Ce_scalar x : Ce (FS x).
Proof.
  intros k j fu Hwt Hpl Hw Hj. cbn [wt] in Hwt. apply andb_prop in Hwt as [Hk Hwt]. rewrite pj_fval_FS in Hj.
  split; [|intros uf vf; apply und_leaf; now apply (pj_scalar_leaf k x)].
  intros Hfmt [|n] Hn; [cbn in Hn; lia|]. cbn [walk] in Hw. cbn [plain_in] in Hpl.
  destruct (is_scalar_kind k) eqn:Es.
  - now apply (scalar_valid E EL sc P Hfmt cst k x j fu n).
  - destruct k; try discriminate Es; [|discriminate Hk].
    destruct x; try discriminate Hwt. now apply (enum_valid E sc P cst tn n0 j fu n).
Qed.

Lemma list_conf k fu l : Forall Ce l -> forall js,
  forallb (wt sc k) l = true -> plain_list sc k l = true -> walk_list sc no_side cs k l = [] ->
  m_list E sc k l = ROk js ->
  forall w, In w (map wire_jv js) -> conforms (need_list l) (rd fu (elem_node sc k)) w.
Proof.
  induction 1 as [|x r Hx _ IH]; intros js Hwt Hpl Hw Hm w Hin.
  - cbn in Hm. injection Hm as <-. destruct Hin.
  - cbn [m_list] in Hm. apply rbind_ok in Hm as [j [Hj Hm]]. apply rbind_ok in Hm as [t [Ht Hm]]. injection Hm as <-.
    cbn [forallb] in Hwt. apply andb_prop in Hwt as [Hwx Hwr].
    cbn [plain_list] in Hpl. apply andb_prop in Hpl as [Hpx Hpr]. cbn [walk_list] in Hw. apply app_eq_nil in Hw as [Hwkx Hwkr].
    cbn [need_list]. destruct Hin as [<-|Hin].
    + apply (conforms_le (need x)); [now apply Hx|lia].
    + apply (conforms_le (need_list r)); [now apply (IH t)|lia].
Qed.

(* values of a map field; no key is spelled like the float marker *)
Lemma map_conf kk k fu kv : Forall (fun e => Ce (snd e)) kv -> forall es,
  forallb (fun e => wt_key kk (fst e) && wt sc k (snd e)) kv = true ->
  plain_map sc k kv = true -> walk_map sc no_side cs k kv = [] ->
  m_map E sc k kv = ROk es ->
  (forall e, In e (map (fun e => (fst e, wire_jv (snd e))) es) -> conforms (need_map kv) (rd fu (elem_node sc k)) (snd e)) /\
  is_jflt (JObj es) = false.
Proof.
  induction 1 as [|[key x] r Hx _ IH]; intros es Hwt Hpl Hw Hm.
  - cbn in Hm. injection Hm as <-. split; [intros e []|reflexivity].
  - cbn [m_map] in Hm. apply rbind_ok in Hm as [kt [Hkt Hm]]. apply rbind_ok in Hm as [j [Hj Hm]].
    apply rbind_ok in Hm as [t [Ht Hm]]. injection Hm as <-. cbn [snd] in Hx.
    cbn [forallb fst snd] in Hwt. apply andb_prop in Hwt as [Hwx Hwr]. apply andb_prop in Hwx as [Hwk Hwx].
    cbn [plain_map] in Hpl. apply andb_prop in Hpl as [Hpx Hpr].
    cbn [walk_map] in Hw. apply app_eq_nil in Hw as [Hki Hw]. apply app_eq_nil in Hw as [Hwkx Hwkr].
    destruct (IH t Hwr Hpr Hwkr Ht) as [IH1 _]. cbn [need_map snd].
    split.
    + intros e [<-|Hin]; [apply (conforms_le (need x)); [now apply Hx|lia]|apply (conforms_le (need_map r)); [now apply IH1|lia]].
    + apply is_jflt_not_marker. unfold key_issues in Hki. rewrite Hkt in Hki. destruct (is_marker kt); [discriminate Hki|reflexivity].
Qed.

Lemma map_value_schema_eq f x :
  wt sc (f_kind f) x = true -> plain_in sc (f_kind f) x = true ->
  map_value_schema sc no_side f = elem_node sc (f_kind f).
Proof.
  intros Hwt Hpl. unfold map_value_schema.
  change (convert_scalar sc no_side [] (bare_value_field f)) with (elem_node sc (f_kind f)).
  destruct (f_kind f) as [| | | | | | | | | | | | | | |tn|tn] eqn:Ek; try reflexivity.
  unfold OpenApi.lookup_message.
  destruct x as [sx|m|l|kv]; try discriminate Hwt.
  rewrite wt_FM in Hwt. rewrite plain_in_FM in Hpl.
  destruct (str_eqb tn ts_name) eqn:Ets.
  - apply str_eqb_eq in Ets. subst tn. rewrite Hts. change (str_eqb ts_name timestamp_fq) with (str_eqb ts_name ts_name).
    rewrite str_eqb_refl. reflexivity.
  - apply andb_prop in Hwt as [_ Hwt]. destruct (find_message (all_messages sc) tn) as [md|]; [|discriminate Hwt].
    apply andb_prop in Hpl as [Hpm _]. now rewrite (find_unwrap_none md Hpm).
Qed.

Lemma entry_conf mn f x j fu :
  MappingFacts.plain_field f = true -> CCe x ->
  wt_entry sc f x = true -> plain_in sc (f_kind f) x = true -> walk sc no_side cs (f_kind f) x = [] ->
  pj_fval E sc (f_kind f) x = ROk j ->
  conforms (S (need x)) (rd (S fu) (convert_field sc no_side mn f)) (wire_jv j).
Proof.
  intros Hpf HP Hwt Hpl Hw Hj. apply wt_entry_cases in Hwt.
  destruct (plain_field_facts f Hpf) as [_ [_ [_ [Hnul [Hemp _]]]]].
  assert (Hsing : f_card f = Singular \/ f_card f = Optional -> convert_field sc no_side mn f = elem_node sc (f_kind f)).
  { intros Hc. rewrite (convert_field_sing sc mn f Hc), (convert_scalar_plain sc mn f Hpf); [reflexivity| |].
    - unfold is_nullable. now rewrite Hnul.
    - rewrite Hemp. apply Bool.andb_false_r. }
  destruct (rd_elem_sobj sc fu (f_kind f)) as [kws Hk].
  destruct x as [sx|cm|l|kv].
  - destruct Hwt as [Hc Hwt]. rewrite (Hsing Hc). apply (conforms_le (need (FS sx))); [now apply HP|lia].
  - destruct Hwt as [Hc Hwt]. rewrite (Hsing Hc). apply (conforms_le (need (FM cm))); [now apply HP|lia].
  - destruct Hwt as [Hc [_ Hwt]]. rewrite (convert_field_rep sc mn f Hc), rd_array, (convert_scalar_plain sc mn f Hpf).
    rewrite pj_fval_FL in Hj. apply rbind_ok in Hj as [js [Hjs Hj]]. injection Hj as <-.
    change (wire_jv (JArr js)) with (JVArr (map wire_jv js)).
    rewrite need_FL. rewrite plain_in_FL in Hpl. rewrite walk_FL in Hw.
    rewrite Hk. apply conforms_array. intros w Hin. rewrite <- Hk. now apply (list_conf (f_kind f) fu l HP js).
  - destruct Hwt as [kk [Hc [Hne Hwt]]]. rewrite (convert_field_map sc mn f kk Hc), rd_map_of.
    assert (Hmv : map_value_schema sc no_side f = elem_node sc (f_kind f)).
    { destruct kv as [|[key0 x0] kv]; [now destruct Hne|]. rewrite plain_in_FMap in Hpl. cbn [plain_map] in Hpl.
      apply andb_prop in Hpl as [Hp0 _]. cbn [forallb fst snd] in Hwt. apply andb_prop in Hwt as [Hw0 _].
      apply andb_prop in Hw0 as [_ Hw0]. exact (map_value_schema_eq f x0 Hw0 Hp0). }
    rewrite Hmv. rewrite pj_fval_FMap in Hj. apply rbind_ok in Hj as [es [Hes Hj]]. injection Hj as <-.
    rewrite need_FMap. rewrite plain_in_FMap in Hpl. rewrite walk_FMap in Hw.
    destruct (map_conf kk (f_kind f) fu kv HP es Hwt Hpl Hw Hes) as [Hall Hnf].
    rewrite (wire_jv_obj es Hnf), Hk. apply conforms_addl. intros e He. rewrite <- Hk. now apply Hall.
Qed.

(* a message value: a Timestamp is RFC 3339 text against type string, format date-time; any other message is the object
   of its populated fields against the component its $ref names *)
Lemma Ce_message m : Forall (fun e => CCe (snd e)) m -> Ce (FM m).
Proof.
  intros HF k j fu Hwt Hpl Hw Hj.
  destruct k as [| | | | | | | | | | | | | | |tn|tn]; try discriminate Hwt.
  rewrite wt_FM in Hwt. rewrite plain_in_FM in Hpl. rewrite walk_FM in Hw. rewrite pj_fval_FM in Hj.
  destruct (str_eqb tn ts_name) eqn:Ets.
  - apply str_eqb_eq in Ets. subst tn. rewrite rd_elem_timestamp.
    unfold pj_timestamp in Hj. destruct (ts_in_range _ _); [|discriminate Hj]. injection Hj as <-.
    split; [|intros uf vf; now apply und_leaf].
    intros Hfmt [|n] Hn; [rewrite need_FM in Hn; lia|]. rewrite validates_S.
    cbn [map check_kw declared_props flat_map has_type existsb orb wire_jv]. now rewrite Hfmt.
  - rewrite (elem_node_message sc fu tn Ets), need_FM.
    apply andb_prop in Hwt as [Hwkt Hwt]. apply Bool.negb_true_iff in Hwkt. rewrite Hwkt in Hj.
    destruct (find_message (all_messages sc) tn) as [md|] eqn:Efm; [|discriminate Hwt].
    apply andb_prop in Hwt as [Hwt Hwf]. apply andb_prop in Hwt as [Hok _].
    apply andb_prop in Hpl as [Hpm Hpf]. apply app_eq_nil in Hw as [Hmi Hwf'].
    destruct (msg_issues_nil _ _ _ _ _ Hmi) as [Hcomp Hmark]. rewrite (find_message_name _ _ _ Efm) in Hcomp.
    apply rbind_ok in Hj as [es [Hes Hj]]. injection Hj as <-.
    assert (Hent : forall key j, In (key, j) es -> exists f, In f (m_fields md) /\ key = jname f /\
              conforms (S (need_fields m)) (rd 6 (convert_field sc no_side (m_name md) f)) (wire_jv j)).
    { intros key j Hin. destruct (CodecBase.m_msg_in E sc md m _ key j Hes Hin) as [name [x [f [Him [-> [Hf Hpj]]]]]].
      destruct (find_field_spec _ _ _ Hf) as [Hinf <-]. exists f. split; [exact Hinf|]. split; [reflexivity|].
      destruct (fields_in sc no_side cs md m _ x f Hwf Hwf' Him Hf) as [Hwe [Hwk Hnx]].
      apply (conforms_le (S (need x))); [|lia]. apply entry_conf; [|rewrite Forall_forall in HF; exact (HF _ Him)|exact Hwe| |exact Hwk|exact Hpj].
      - unfold plain_msg in Hpm. apply andb_prop in Hpm as [Hpm _]. rewrite forallb_forall in Hpm. now apply Hpm.
      - exact (plain_fields_in sc md m _ x f Hpf Him Hf). }
    pose proof (plain_msg_object sc no_side md Hpm) as Hobj.
    split.
    + intros Hfmt [|[|n]] Hn; [lia|lia|]. apply (body_valid sc P cs tn md Efm Hcomp Hobj Hok Hmark es n).
      intros key j Hin. destruct (Hent key j Hin) as [f [Hinf [Hkey [Hv _]]]]. exists f. repeat split; auto. apply Hv; [exact Hfmt|lia].
    + intros [|uf] vf; [reflexivity|]. apply (body_und sc P cs tn md Efm Hcomp Hobj Hok Hmark es uf vf).
      intros key j Hin. destruct (Hent key j Hin) as [f [Hinf [Hkey [_ Hu]]]]. exists f. repeat split; auto.
Qed.

Theorem value_conforms : forall v, CCe v.
Proof.
  apply fval_ind'.
  - exact Ce_scalar.
  - exact Ce_message.
  - intros l H. cbn [CCe]. rewrite Forall_forall in *. intros x Hx. apply Ce_of_CCe. now apply H.
  - intros kv H. cbn [CCe]. rewrite Forall_forall in *. intros x Hx. apply Ce_of_CCe. now apply H.
Qed.

(* one populated field (singular, optional, repeated, map) of an un-annotated message, against the schema convertField
   publishes for it *)
Lemma field_conforms mn f x j fu :
  MappingFacts.plain_field f = true ->
  wt_entry sc f x = true -> plain_in sc (f_kind f) x = true -> walk sc no_side cs (f_kind f) x = [] ->
  pj_fval E sc (f_kind f) x = ROk j ->
  conforms (S (need x)) (rd (S fu) (convert_field sc no_side mn f)) (wire_jv j).
Proof. intros Hpf. apply entry_conf; [exact Hpf|apply value_conforms]. Qed.
End Messages.

Lemma dedup6_nil l : dedup6 l = [] -> l = [].
Proof.
  destruct l as [|d r]; [reflexivity|]. unfold dedup6. cbn [fold_right].
  destruct (existsb _ (fold_right _ [] r)) eqn:Ee; [|discriminate].
  intros H. rewrite H in Ee. discriminate Ee.
Qed.

Lemma defects_C06_nil_walk sc sd cs tn m : defects_C06 sc sd cs tn m = [] -> walk sc sd cs (KMessage tn) (FM m) = [].
Proof. unfold defects_C06. intros H. apply dedup6_nil in H. now apply app_eq_nil in H as [H _]. Qed.

(* C06_message_valid and C06_no_undeclared_property (plain fragment): a body whose type and whose reachable value carry
   no sebuf annotation validates against the schema the operation refers to, for every fuel from need (FM m) on; and at
   every depth, every key of the wire JSON is described by a `properties` entry (message fields) or by
   `additionalProperties` (map entries) of the schema in force there: und is the walk of the reference harness
   (0 = nothing undescribed), for every walk depth and fuel *)
Theorem body_conforms : forall (E : ExtLib) (sc : schema) (P : vparams) (cs : list (str * ynode)) (tn : str) (m : mval) (j : json),
  fprint_is_number E ->
  find_message (all_messages sc) ts_name = None -> str_eqb tn ts_name = false ->
  plain_top sc tn = true -> plain_in sc (KMessage tn) (FM m) = true ->
  wt sc (KMessage tn) (FM m) = true ->
  defects_C06 sc no_side cs tn m = [] ->
  (encode E sc tn m = ROk j \/ Mapping.to_json E sc tn m = ROk j) ->
  conforms P cs (need (FM m)) (body_schema tn) (wire_jv j).
Proof.
  intros E sc P cs tn m j EL Hts Htn Htop Hpl Hwt Hd Hj.
  destruct (MappingFacts.C05_unannotated_is_proto3 E sc tn m Htop Hpl) as [He Ht].
  assert (Hpj : pj_fval E sc (KMessage tn) (FM m) = ROk j) by (destruct Hj as [Hj|Hj]; [rewrite He in Hj|rewrite Ht in Hj]; exact Hj).
  rewrite <- (elem_node_message sc 0 tn Htn).
  pose proof (value_conforms E EL sc P cs Hts (FM m)) as HQ. cbn [CCe] in HQ.
  apply HQ; auto. now apply defects_C06_nil_walk.
Qed.

(* C06_satisfiable, default value: the component of every un-annotated message accepts {} *)
Theorem default_valid : forall (E : ExtLib) (sc : schema) (P : vparams) (cs : list (str * ynode)) (tn : str) (md : message),
  str_eqb tn ts_name = false -> is_wkt_other tn = false ->
  find_message (all_messages sc) tn = Some md -> msg_ok md = true ->
  plain_top sc tn = true ->
  defects_C06 sc no_side cs tn [] = [] ->
  encode E sc tn [] = ROk (JObj []) /\
  forall fuel, 3 <= fuel -> validates P (doc_components reader12 cs) fuel (body_schema tn) (wire_jv (JObj [])) = VOk true.
Proof.
  intros E sc P cs tn md Htn Hwk Hfm Hok Htop Hd.
  pose proof Htop as Hpm. unfold plain_top, ProtoJson.lookup_message in Hpm. rewrite Htn, Hfm in Hpm. apply andb_prop in Hpm as [Hpm _].
  split.
  - assert (Hpl : plain_in sc (KMessage tn) (FM []) = true) by now rewrite plain_in_FM, Htn, Hfm, Hpm.
    destruct (MappingFacts.C05_unannotated_is_proto3 E sc tn [] Htop Hpl) as [-> _].
    unfold pj_marshal. now rewrite pj_fval_FM, Htn, Hwk, Hfm.
  - intros [|[|fuel]] Hfuel; try lia.
    pose proof (defects_C06_nil_walk _ _ _ _ _ Hd) as Hw. rewrite walk_FM, Htn, Hfm in Hw.
    apply app_eq_nil in Hw as [Hmi _]. destruct (msg_issues_nil _ _ _ _ _ Hmi) as [Hcomp Hmark].
    rewrite (find_message_name _ _ _ Hfm) in Hcomp.
    apply (body_valid sc P cs tn md Hfm Hcomp (plain_msg_object sc no_side md Hpm) Hok Hmark [] fuel). intros key j [].
Qed.

(* the top-level keys, directly: every key of the wire object is a key of the component's `properties` *)
Definition component_property_names (sc : schema) (md : message) : list str :=
  map fst (omap_of (map (fun f => (jname f, convert_field sc no_side (m_name md) f)) (m_fields md))).
Theorem message_keys_declared : forall (E : ExtLib) (sc : schema) (tn : str) (md : message) (m : mval) (es : list (str * json)),
  str_eqb tn ts_name = false -> is_wkt_other tn = false ->
  find_message (all_messages sc) tn = Some md ->
  plain_top sc tn = true -> plain_in sc (KMessage tn) (FM m) = true ->
  encode E sc tn m = ROk (JObj es) ->
  forall key, In key (map fst es) -> In key (component_property_names sc md).
Proof.
  intros E sc tn md m es Htn Hwk Hfm Htop Hpl Hj key Hkey.
  destruct (MappingFacts.C05_unannotated_is_proto3 E sc tn m Htop Hpl) as [He _]. rewrite He in Hj.
  unfold pj_marshal in Hj. rewrite pj_fval_FM, Htn, Hwk, Hfm in Hj.
  apply rbind_ok in Hj as [es' [Hes Hj]]. injection Hj as <-.
  apply in_map_iff in Hkey as [[k j0] [<- Hin]]. cbn [fst].
  destruct (CodecBase.m_msg_in E sc md m _ k j0 Hes Hin) as [name [x [f [_ [-> [Hf _]]]]]].
  destruct (find_field_spec _ _ _ Hf) as [Hinf Hfn]. subst name.
  unfold component_property_names. apply omap_of_keys. rewrite map_map. cbn [fst]. now apply (in_map jname).
Qed.

Definition builtin_ok (cst : list (str * jschema)) : Prop :=
  forall name n, In (name, n) builtin_sets -> find_comp cst name = Some (typed n).

Lemma find_comp_omap_set_other {A} k k' (v : A) acc : str_eqb k' k = false -> find_comp (omap_set k' v acc) k = find_comp acc k.
Proof.
  intros Hne. unfold find_comp. induction acc as [|[k0 v0] r IH]; cbn [omap_set find fst].
  - now rewrite Hne.
  - destruct (str_eqb k' k0) eqn:E0; cbn [find fst].
    + apply str_eqb_eq in E0. subst k0. now rewrite Hne.
    + destruct (str_eqb k0 k); [reflexivity|exact IH].
Qed.

Lemma find_comp_fold_other {A} k (l : list (str * A)) : forall acc,
  (forall e, In e l -> str_eqb (fst e) k = false) ->
  find_comp (fold_left (fun acc e => omap_set (fst e) (snd e) acc) l acc) k = find_comp acc k.
Proof.
  induction l as [|e r IH]; intros acc H; [reflexivity|]. cbn [fold_left].
  rewrite IH by (intros e' He'; apply H; now right).
  apply find_comp_omap_set_other. apply H. now left.
Qed.

(* the three built-in components are what generator.go:907-961 registers unless a collected schema takes
   one of their names (C18: builtin-schema-name-collision) *)
Theorem builtin_ok_no_collision (sets : list (str * ynode)) :
  (forall e, In e sets -> mem_str (fst e) builtin_names = false) ->
  builtin_ok (doc_components reader12 (components_of_sets sets)).
Proof.
  intros H name n Hin. unfold doc_components. fold typed.
  change (map (fun e : str * ynode => (fst e, schema_of_jv schema_fuel (denote reader12 (snd e)))) (components_of_sets sets))
    with (map (fun e : str * ynode => (fst e, typed (snd e))) (components_of_sets sets)).
  rewrite (find_comp_map typed). unfold components_of_sets, omap_of. rewrite fold_left_app.
  assert (Hname : mem_str name builtin_names = true).
  { destruct Hin as [Hin|[Hin|[Hin|[]]]]; injection Hin as <- _; reflexivity. }
  rewrite find_comp_fold_other.
  - destruct Hin as [Hin|[Hin|[Hin|[]]]]; injection Hin as <- <-; reflexivity.
  - intros e He. specialize (H e He). destruct (str_eqb (fst e) name) eqn:Eq; [|reflexivity].
    apply str_eqb_eq in Eq. congruence.
Qed.

Lemma error_body_shape msg :
  wire_jv (error_body msg) = match msg with [] => JVObj [] | _ => JVObj [(s "message", JVStr msg)] end.
Proof. destruct msg; reflexivity. Qed.

Definition violation_jv (fd : str * str) : jv := JVObj [(s "field", JVStr (fst fd)); (s "description", JVStr (snd fd))].

Lemma violation_wire fd : str_null (fst fd) = false -> str_null (snd fd) = false ->
  wire_jv (violation_json fd) = violation_jv fd.
Proof. destruct fd as [[|a f] [|b d]]; cbn; try discriminate; reflexivity. Qed.

(* the default response: sebuf.http.Error with any text; the 400 response: sebuf.http.ValidationError with at least one
   violation, every violation naming a field and carrying a description *)
Theorem error_bodies_valid : forall (P : vparams) (cst : list (str * jschema)), builtin_ok cst ->
  (forall msg fuel, 3 <= fuel ->
     validates P cst fuel (SObj [KwRef (s "Error")]) (wire_jv (error_body msg)) = VOk true) /\
  (forall vs fuel, defects_C06_verr vs = [] -> 6 <= fuel ->
     validates P cst fuel (SObj [KwRef (s "ValidationError")]) (wire_jv (validation_body vs)) = VOk true).
Proof.
  intros P cst Hb. split.
  - intros msg [|[|[|n]]] Hfuel; try lia.
    rewrite (validates_ref P cst _ _ _ _ (Hb _ _ (or_introl eq_refl))). apply vand_true_r. rewrite error_body_shape.
    destruct msg; reflexivity.
  - intros vs [|[|[|[|[|[|n]]]]]] Hd Hfuel; try lia.
    unfold defects_C06_verr in Hd. apply app_eq_nil in Hd as [Hne Hmem].
    assert (Hall : forall fd, In fd vs -> wire_jv (violation_json fd) = violation_jv fd).
    { intros fd Hin. destruct (existsb _ vs) eqn:Ee; [discriminate Hmem|].
      pose proof (proj1 (existsb_false _ vs) Ee fd Hin) as Hfd. apply Bool.orb_false_iff in Hfd as [H1 H2]. now apply violation_wire. }
    rewrite (validates_ref P cst _ _ _ _ (Hb _ _ (or_intror (or_intror (or_introl eq_refl))))). apply vand_true_r.
    assert (Hw : wire_jv (validation_body vs) = JVObj [(s "violations", JVArr (map violation_jv vs))]).
    { destruct vs as [|v0 vs0]; [discriminate Hne|]. unfold validation_body.
      change (wire_jv (JObj [(s "violations", JArr (map violation_json (v0 :: vs0)))]))
        with (JVObj [(s "violations", JVArr (map wire_jv (map violation_json (v0 :: vs0))))]).
      do 4 f_equal. rewrite map_map. now apply map_ext_in. }
    rewrite Hw.
    change (typed (object_of [(s "violations", array_of (ref_to (s "FieldViolation")))] [s "violations"]))
      with (SObj [KwType [TObject];
                  KwProperties [(s "violations", SObj [KwType [TArray]; KwItems (SObj [KwRef (s "FieldViolation")])])];
                  KwRequired [s "violations"]]).
    rewrite validates_S. cbn [map check_kw declared_props flat_map has_type existsb orb app assoc_jv fst snd forallb].
    apply vall_cons_true; [reflexivity|]. apply vall_cons_true; [|reflexivity].
    rewrite str_eqb_refl. apply vall_cons_true; [|reflexivity].
    apply validates_array. intros w Hw'. apply in_map_iff in Hw' as [fd [<- _]].
    rewrite (validates_ref P cst _ _ _ _ (Hb _ _ (or_intror (or_introl eq_refl)))). reflexivity.
Qed.

(* URL values: every scalar kind the client can format, every typed value that is a number when
   its kind is float / double.  createFieldSchema goes by the kind name only: type and format of the element
   schema, without the minimum of the unsigned kinds *)
Lemma param_schema_kws k : is_scalar_kind k = true -> k <> KBytes -> typed (param_schema k) = SObj (firstn 2 (scalar_kws k)).
Proof. destruct k; try discriminate; try congruence; reflexivity. Qed.

Theorem param_valid : forall (P : vparams) (sc : schema) (k : kind) (v : sval),
  wire_formats_are_annotations P ->
  is_scalar_kind k = true -> k <> KBytes -> wt_scalar sc k v = true -> defects_C06_param k v = [] ->
  forall fuel, 1 <= fuel -> validates P [] fuel (typed (param_schema k)) (param_jv k v) = VOk true.
Proof.
  intros P sc k v Hfmt Hk Hnb Hwt Hd [|n] Hfuel; [lia|]. rewrite (param_schema_kws k Hk Hnb), validates_S.
  destruct k; try discriminate Hk; try congruence; destruct v; cbn in Hwt; try discriminate Hwt;
    cbn [defects_C06_param] in Hd; unfold param_jv; cbn [ProtoJson.is_int32_kind];
    try (destruct (float_is_finite _ bits); [|discriminate Hd]);
    cbn [scalar_kws firstn map check_kw declared_props flat_map]; rewrite ?Hfmt by reflexivity; reflexivity.
Qed.

Open Scope Z_scope.
Definition c6msg (n : string) (path : list str) (fs : list field) (os : list oneof) : message :=
  {| m_name := s "c.v1." ++ s n; m_path := path; m_fields := fs; m_oneofs := os |}.
Definition C6 (n : string) : kind := KMessage (s "c.v1." ++ s n).
Definition c6q (n : string) : str := s "c.v1." ++ s n.
Definition c6rpc (name msg : string) : method :=
  {| md_name := s name; md_in := c6q msg; md_out := c6q msg; md_has_cfg := true; md_path := s "/" ++ s name; md_verb := Some 2%nat; md_headers := [] |}.
Definition set_oneof_value (v : string) (f : field) : field :=
  {| f_name := f_name f; f_number := f_number f; f_kind := f_kind f; f_card := f_card f; f_oneof := f_oneof f; f_query := f_query f;
     f_unwrap := f_unwrap f; f_int64 := f_int64 f; f_enumenc := f_enumenc f; f_nullable := f_nullable f; f_empty := f_empty f;
     f_tsfmt := f_tsfmt f; f_bytesenc := f_bytesenc f; f_oneof_value := Some (s v); f_flatten := f_flatten f; f_flatten_prefix := f_flatten_prefix f |}.

Definition c6_color : enum :=
  {| e_name := c6q "Color"; e_values := [ {| ev_name := s "COLOR_UNSPECIFIED"; ev_number := 0; ev_custom := None |};
                                          {| ev_name := s "COLOR_RED"; ev_number := 1; ev_custom := None |} ] |}.
Definition c6_status : enum :=
  {| e_name := c6q "Status"; e_values := [ {| ev_name := s "STATUS_UNSPECIFIED"; ev_number := 0; ev_custom := None |};
                                           {| ev_name := s "STATUS_ACTIVE"; ev_number := 1; ev_custom := Some (s "active") |} ] |}.
Definition c6_tri : enum :=
  {| e_name := c6q "Tri"; e_values := [ {| ev_name := s "UNKNOWN"; ev_number := 0; ev_custom := None |};
                                        {| ev_name := s "TRUE"; ev_number := 1; ev_custom := None |} ] |}.

Definition c6_messages : list message :=
  [ c6msg "Leaf" [s "Leaf"] [fld "a" 1 KString Singular; fld "n" 2 KInt64 Singular] [];
    c6msg "Full" [s "Full"]
      [fld "id" 1 KString Singular; fld "count" 2 KInt32 Singular; fld "big" 3 KInt64 Singular; fld "ubig" 4 KUint64 Singular;
       fld "u32" 5 KUint32 Singular; fld "ratio" 6 KDouble Singular; fld "ok" 7 KBool Singular; fld "raw" 8 KBytes Singular;
       fld "color" 9 (KEnum (c6q "Color")) Singular; fld "leaf" 10 (C6 "Leaf") Singular; fld "items" 11 (C6 "Leaf") Repeated;
       fld "names" 12 KString Repeated; fld "by_key" 13 (C6 "Leaf") (MapOf KString); fld "counts" 14 KInt64 (MapOf KInt32);
       fld "opt_n" 15 KInt32 Optional; fld "at" 16 TS Singular; fld "multi_word_name" 17 KString Singular] [];
    c6msg "WithEnum" [s "WithEnum"] [fld "status" 1 (KEnum (c6q "Status")) Singular] [];
    c6msg "Flag" [s "Flag"] [fld "t" 1 (KEnum (c6q "Tri")) Singular] [];
    c6msg "Nums" [s "Nums"] [set_i64 (fld "big" 1 KInt64 Singular)] [];
    c6msg "NumsHolder" [s "NumsHolder"] [fld "inner" 1 (C6 "Nums") Singular] [];
    c6msg "TextP" [s "TextP"] [fld "body" 1 KString Singular] [];
    c6msg "ImageP" [s "ImageP"] [fld "url" 1 KString Singular] [];
    c6msg "Event" [s "Event"] [fld "eid" 1 KString Singular; set_oneof "content" (fld "text" 2 (C6 "TextP") Singular);
                             set_oneof "content" (fld "image" 3 (C6 "ImageP") Singular)]
      [{| o_name := s "content"; o_has_cfg := true; o_discriminator := s "type"; o_flatten := false |}];
    c6msg "FlatEvent" [s "FlatEvent"] [fld "eid" 1 KString Singular; set_oneof "content" (fld "text" 2 (C6 "TextP") Singular);
                                     set_oneof "content" (fld "image" 3 (C6 "ImageP") Singular)]
      [{| o_name := s "content"; o_has_cfg := true; o_discriminator := s "type"; o_flatten := true |}];
    c6msg "Strs" [s "Strs"] [set_unwrap (fld "vals" 1 KString Repeated)] [];
    c6msg "Outer" [s "Outer"] [fld "l" 1 (C6 "Leaf") Singular; fld "o" 2 (C6 "Outer.Leaf") Singular] [];
    c6msg "Outer.Leaf" [s "Outer"; s "Leaf"] [fld "z" 1 KString Singular] [] ].

Definition c6_service : service :=
  {| sv_name := s "Svc"; sv_base := s "/c"; sv_headers := [];
     sv_methods := [c6rpc "Full" "Full"; c6rpc "WithEnum" "WithEnum"; c6rpc "Flag" "Flag"; c6rpc "NumsHolder" "NumsHolder";
                    c6rpc "Event" "Event"; c6rpc "FlatEvent" "FlatEvent"; c6rpc "Strs" "Strs"] |}.
Definition c6_collide_service : service :=
  {| sv_name := s "Col"; sv_base := s "/c"; sv_headers := []; sv_methods := [c6rpc "Outer" "Outer"] |}.

Definition c6s : schema :=
  [ {| fl_path := s "c/a.proto"; fl_package := s "c.v1"; fl_gopkg := s "c"; fl_generate := true;
       fl_messages := c6_messages; fl_enums := [c6_color; c6_status; c6_tri]; fl_services := [c6_service; c6_collide_service] |} ].

Definition c6doc : c06_doc := Eval vm_compute in prepare_C06 c6s no_side 0 0.
Definition c6doc_col : c06_doc := Eval vm_compute in prepare_C06 c6s no_side 0 1.

Definition nan64 : Z := 9221120237041090561.

(* what the validator answers on the wire JSON (Codec.encode under the witness library Ex) and how many of its
   properties no schema describes *)
Definition verdict6 (d : c06_doc) (tn : str) (m : mval) : res (vres * Z) :=
  match encode Ex (cd_sc d) tn m with
  | ROk j => ROk (validates P06 (cd_tcs d) c06_fuel (body_schema tn) (wire_jv j),
                  und_capped P06 (cd_tcs d) (body_schema tn) (wire_jv j))
  | RErr e => RErr e
  | RUnm w => RUnm w
  end.
(* the wire JSON fails validation, or validates while carrying properties no schema describes; the case lies
   in exactly the class [tag] *)
Definition refuted6 (d : c06_doc) (tag : c06_defect) (tn : str) (m : mval) (valid : bool) (undescribed : Z) : Prop :=
  cd_ok d = true /\ defects_C06 (cd_sc d) (cd_sd d) (cd_cs d) tn m = [tag] /\
  verdict6 d tn m = ROk (VOk valid, undescribed) /\ (valid = false \/ 0 < undescribed).

(* the witness library satisfies the law the theorems use *)
Definition ptab_numeric (p : ptab) : bool :=
  forallb (fun e => match snd e with JNum _ => true | j => is_jflt j end) p.
Lemma E0_fprint_is_number p t : ptab_numeric p = true -> fprint_is_number (E0 p t).
Proof.
  intros Hp w b j. cbn [x_fprint E0]. induction p as [|[[w' b'] j'] r IH]; [discriminate|].
  cbn [ptab_find]. cbn [ptab_numeric forallb snd] in Hp. apply andb_prop in Hp as [Hj' Hr].
  destruct (Bool.eqb w w' && (b =? b')); [|now apply IH].
  intros H. injection H as <-.
  destruct j' as [| | z | | |kv]; try discriminate Hj'; [left; now exists z|].
  right. destruct kv as [|[k v] r']; [discriminate Hj'|]. destruct v; try (destruct r'; discriminate Hj').
  destruct r'; [|discriminate Hj']. cbn [is_jflt] in Hj'. apply str_eqb_eq in Hj'. subst k. now exists z.
Qed.
Lemma Ex_fprint_is_number : fprint_is_number Ex.
Proof. apply E0_fprint_is_number. reflexivity. Qed.

Lemma P06_formats : wire_formats_are_annotations P06.
Proof. intros name x _. reflexivity. Qed.

(* non-vacuity: a fully populated value with nested, repeated and map fields *)
Definition all_populated (md : message) (m : mval) : bool :=
  forallb (fun f => match mget m (f_name f) with Some _ => true | None => false end) (m_fields md).

Definition full_value : mval :=
  [(s "id", vstr "i"); (s "count", vint (-3)); (s "big", vint 9007199254740993); (s "ubig", vint 18446744073709551615);
   (s "u32", vint 7); (s "ratio", FS (VFloat 4609434218613702656)); (s "ok", FS (VBool true)); (s "raw", FS (VBytes [ch 1; ch 255]));
   (s "color", FS (VEnum 1)); (s "leaf", FM [(s "a", vstr "x"); (s "n", vint 9)]);
   (s "items", FL [FM [(s "a", vstr "y")]; FM []]); (s "names", FL [vstr "a"; vstr "b"]);
   (s "by_key", FMap [(VStr (s "k"), FM [(s "n", vint 1)])]); (s "counts", FMap [(VInt 1, vint 5)]);
   (s "opt_n", vint 0); (s "at", tsv 5 0); (s "multi_word_name", vstr "w")].

Definition hyps6 (tn : str) (m : mval) : Prop :=
  find_message (all_messages c6s) ts_name = None /\ str_eqb tn ts_name = false /\
  plain_top c6s tn = true /\ plain_in c6s (KMessage tn) (FM m) = true /\
  wt c6s (KMessage tn) (FM m) = true /\ defects_C06 c6s no_side (cd_cs c6doc) tn m = [].

Lemma full_value_hyps : hyps6 (c6q "Full") full_value.
Proof. vm_compute. repeat split; reflexivity. Qed.

Example nonvacuous :
  hyps6 (c6q "Full") full_value /\
  (exists md, find_message (all_messages c6s) (c6q "Full") = Some md /\ all_populated md full_value = true) /\
  cd_tcs c6doc = doc_components reader12 (cd_cs c6doc) /\
  exists j, encode Ex c6s (c6q "Full") full_value = ROk j /\
            (forall fuel, (need (FM full_value) <= fuel)%nat ->
               validates P06 (cd_tcs c6doc) fuel (body_schema (c6q "Full")) (wire_jv j) = VOk true) /\
            (forall uf vf, und P06 (cd_tcs c6doc) uf vf (body_schema (c6q "Full")) (wire_jv j) = 0%nat) /\
            need (FM full_value) = 7%nat.
Proof.
  pose proof full_value_hyps as H. split; [exact H|]. destruct H as [Hts [Htn [Htop [Hpl [Hwt Hd]]]]].
  split; [eexists; split; [reflexivity|vm_compute; reflexivity]|].
  assert (Htcs : cd_tcs c6doc = doc_components reader12 (cd_cs c6doc)) by reflexivity.
  split; [exact Htcs|]. rewrite Htcs.
  destruct (encode Ex c6s (c6q "Full") full_value) as [j| |] eqn:Ej; [|vm_compute in Ej; discriminate Ej..].
  exists j. split; [reflexivity|].
  destruct (body_conforms Ex c6s P06 (cd_cs c6doc) (c6q "Full") full_value j Ex_fprint_is_number Hts Htn Htop Hpl Hwt Hd (or_introl Ej))
    as [H1 H2].
  split; [exact (H1 P06_formats)|]. split; [exact H2|reflexivity].
Qed.

(* the same verdict computed directly by the model on the example (what predict_C06 evaluates) *)
Example nonvacuous_computed : verdict6 c6doc (c6q "Full") full_value = ROk (VOk true, 0).
Proof. vm_compute. reflexivity. Qed.
Close Scope Z_scope.