(* HeadersFacts.v — C09, header validation.  Three parts: the effective header set of a method (service
   headers, then method headers, the last required declaration of a name wins: Section Keyed and the
   eff_find_ and distinct_ lemmas); per published type and format, that a value the OpenAPI text admits (the
   pub_ predicates) passes the Go middleware and the TS one, and that what Go accepts outside the defect
   classes is well-formed (the lemmas ending in _go, _ts, _wf); and the two gates put together (accept_sound, reject_sound, gate_go,
   gate_wellformed, published_passes_go / _ts). *)
From Sebuf Require Import Text Num Schema Headers.
From SebufProofs Require Import TextFacts ListFacts.

Lemma name_eqb_refl a : name_eqb a a = true.
Proof. unfold name_eqb. apply str_eqb_refl. Qed.
Lemma name_eqb_sym a b : name_eqb a b = name_eqb b a.
Proof. unfold name_eqb. apply str_eqb_sym. Qed.
Lemma name_eqb_trans a b c : name_eqb a b = true -> name_eqb b c = true -> name_eqb a c = true.
Proof. unfold name_eqb. apply str_eqb_trans. Qed.
Lemma name_eqb_exact a b : str_eqb a b = true -> name_eqb a b = true.
Proof. intros H. apply str_eqb_eq in H. subst. apply name_eqb_refl. Qed.

(* replace-or-append lists keyed by a name, for any equivalence on names *)
Section Keyed.
Variable eqb : str -> str -> bool.
Hypothesis eqb_sym : forall a b, eqb a b = eqb b a.
Hypothesis eqb_trans : forall a b c, eqb a b = true -> eqb b c = true -> eqb a c = true.

Fixpoint ups (h : header) (acc : list header) : list header :=
  match acc with
  | [] => [h]
  | a :: r => if eqb (h_name a) (h_name h) then h :: r else a :: ups h r
  end.
Definition kfind (n : str) (l : list header) : option header := find (fun a => eqb (h_name a) n) l.

Lemma kfind_ups n h acc : kfind n (ups h acc) = if eqb (h_name h) n then Some h else kfind n acc.
Proof.
  induction acc as [|a r IH]; cbn.
  - reflexivity.
  - destruct (eqb (h_name a) (h_name h)) eqn:Eah; cbn.
    + destruct (eqb (h_name h) n) eqn:Ehn; [reflexivity|].
      destruct (eqb (h_name a) n) eqn:Ean; [|reflexivity].
      exfalso. rewrite eqb_sym in Eah. pose proof (eqb_trans _ _ _ Eah Ean). congruence.
    + unfold kfind in IH. rewrite IH.
      destruct (eqb (h_name a) n) eqn:Ean; [|reflexivity].
      destruct (eqb (h_name h) n) eqn:Ehn; [|reflexivity].
      exfalso. rewrite eqb_sym in Ehn. pose proof (eqb_trans _ _ _ Ean Ehn). congruence.
Qed.

(* after a run of insertions, the entry under a name is the last one inserted under it *)
Lemma kfind_fold (keep : header -> bool) n hs : forall acc,
  kfind n (fold_left (fun acc h => if keep h then ups h acc else acc) hs acc) =
  fold_left (fun o h => if keep h && eqb (h_name h) n then Some h else o) hs (kfind n acc).
Proof.
  induction hs as [|h r IH]; intros acc; [reflexivity|]. cbn [fold_left]. rewrite IH. f_equal.
  destruct (keep h); [apply kfind_ups|reflexivity].
Qed.
End Keyed.

Lemma eff_find_upsert n h acc :
  eff_find n (upsert h acc) = if name_eqb (h_name h) n then Some h else eff_find n acc.
Proof. exact (kfind_ups name_eqb name_eqb_sym name_eqb_trans n h acc). Qed.

Definition last_req_from (o : option header) (n : str) (hs : list header) : option header :=
  fold_left (fun o h => if h_required h && name_eqb (h_name h) n then Some h else o) hs o.

Lemma last_required_eq n hs : last_required n hs = last_req_from None n hs.
Proof. reflexivity. Qed.

Lemma last_req_from_split o n hs :
  last_req_from o n hs = match last_req_from None n hs with Some h => Some h | None => o end.
Proof.
  revert o. induction hs as [|h r IH]; intros o; [reflexivity|].
  change (last_req_from o n (h :: r))
    with (last_req_from (if h_required h && name_eqb (h_name h) n then Some h else o) n r).
  change (last_req_from None n (h :: r))
    with (last_req_from (if h_required h && name_eqb (h_name h) n then Some h else None) n r).
  rewrite IH. rewrite (IH (if h_required h && name_eqb (h_name h) n then Some h else None)).
  destruct (last_req_from None n r); [reflexivity|]. destruct (h_required h && name_eqb (h_name h) n); reflexivity.
Qed.

Lemma eff_find_add_required n hs acc :
  eff_find n (add_required acc hs) = last_req_from (eff_find n acc) n hs.
Proof. exact (kfind_fold name_eqb name_eqb_sym name_eqb_trans h_required n hs acc). Qed.

Lemma add_required_app acc a b : add_required acc (a ++ b) = add_required (add_required acc a) b.
Proof. unfold add_required. apply fold_left_app. Qed.

Lemma go_effective_concat svc mth : go_effective svc mth = add_required [] (svc ++ mth).
Proof. unfold go_effective. now rewrite add_required_app. Qed.

Lemma eff_find_effective n svc mth :
  eff_find n (go_effective svc mth) =
  match last_required n mth with Some h => Some h | None => last_required n svc end.
Proof.
  unfold go_effective. rewrite eff_find_add_required, last_req_from_split.
  rewrite eff_find_add_required. cbn. reflexivity.
Qed.

Fixpoint distinct (l : list header) : Prop :=
  match l with
  | [] => True
  | a :: r => (forall b, In b r -> name_eqb (h_name a) (h_name b) = false) /\ distinct r
  end.

Lemma in_upsert b h acc : In b (upsert h acc) -> b = h \/ In b acc.
Proof.
  induction acc as [|a r IH]; cbn.
  - intros [H|[]]; auto.
  - destruct (name_eqb (h_name a) (h_name h)); cbn; intros [H|H]; auto.
    destruct (IH H); auto.
Qed.

Lemma in_upsert_other b h acc : In b acc -> name_eqb (h_name b) (h_name h) = false -> In b (upsert h acc).
Proof.
  induction acc as [|a r IH]; cbn; [tauto|].
  intros [H|H] E.
  - subst. rewrite E. now left.
  - destruct (name_eqb (h_name a) (h_name h)); cbn; auto.
Qed.

Lemma distinct_upsert h acc : distinct acc -> distinct (upsert h acc).
Proof.
  induction acc as [|a r IH]; cbn.
  - intros _. split; [intros b []|exact I].
  - intros [Ha Hr]. destruct (name_eqb (h_name a) (h_name h)) eqn:E; cbn.
    + split; [|exact Hr]. intros b Hb. specialize (Ha b Hb).
      destruct (name_eqb (h_name h) (h_name b)) eqn:E2; [|reflexivity].
      pose proof (name_eqb_trans _ _ _ E E2). congruence.
    + split; [|now apply IH]. intros b Hb. apply in_upsert in Hb as [->|Hb]; auto.
Qed.

Lemma distinct_add_required hs : forall acc, distinct acc -> distinct (add_required acc hs).
Proof.
  induction hs as [|h r IH]; intros acc H; cbn; [exact H|].
  unfold add_required in *. cbn. apply IH. destruct (h_required h); [now apply distinct_upsert|exact H].
Qed.

Lemma distinct_effective svc mth : distinct (go_effective svc mth).
Proof. unfold go_effective. apply distinct_add_required, distinct_add_required. exact I. Qed.

Lemma distinct_find l h : distinct l -> In h l -> eff_find (h_name h) l = Some h.
Proof.
  induction l as [|a r IH]; cbn; [tauto|].
  intros [Ha Hr] [->|Hin].
  - now rewrite name_eqb_refl.
  - rewrite (Ha h Hin). now apply IH.
Qed.

Lemma in_add_required b hs : forall acc, In b (add_required acc hs) -> In b acc \/ (In b hs /\ h_required b = true).
Proof.
  induction hs as [|h r IH]; intros acc H; cbn in *; [auto|].
  unfold add_required in *. cbn in H. apply IH in H as [H|[H1 H2]]; [|auto].
  destruct (h_required h) eqn:E; [|auto].
  apply in_upsert in H as [->|H]; auto.
Qed.

Lemma in_effective h svc mth : In h (go_effective svc mth) -> In h (svc ++ mth) /\ h_required h = true.
Proof.
  rewrite go_effective_concat. intros H. apply in_add_required in H as [[]|H]. exact H.
Qed.

Lemma effective_is_last h svc mth :
  In h (go_effective svc mth) -> last_required (h_name h) (svc ++ mth) = Some h.
Proof.
  intros H. pose proof (distinct_find _ _ (distinct_effective svc mth) H) as F.
  rewrite go_effective_concat, eff_find_add_required in F. exact F.
Qed.

(* exactly one entry per case-insensitive name: the names of the effective list are pairwise different *)
Lemma effective_names_distinct svc mth a b l1 l2 l3 :
  go_effective svc mth = l1 ++ a :: l2 ++ b :: l3 -> name_eqb (h_name a) (h_name b) = false.
Proof.
  intros E. pose proof (distinct_effective svc mth) as D. rewrite E in D. clear E.
  induction l1 as [|x l1 IH]; cbn in D.
  - destruct D as [D _]. apply D. apply in_or_app. right. now left.
  - apply IH. tauto.
Qed.

Lemma is_s_eq x lit : is_s x lit = true -> x = s lit.
Proof. unfold is_s. apply str_eqb_eq. Qed.

(* strconv on digit strings, proved here although NumFacts and GoRtRawFacts have the
   same facts: importing either of those registers their Zify instances, and every `lia` of this file would
   then pre-process N, nat and bool terms it has no use for. *)
Lemma parse_digits_all d : forall acc, all_digits d = true -> exists n, parse_digits acc d = Some n.
Proof.
  induction d as [|c r IH]; intros acc H; cbn in *; [eauto|].
  apply andb_true_iff in H as [H1 H2]. unfold digit_val. rewrite H1. now apply IH.
Qed.

Lemma parse_digits_digits d : forall acc n, parse_digits acc d = Some n -> all_digits d = true.
Proof.
  induction d as [|c r IH]; intros acc n H; cbn in *; [reflexivity|].
  unfold digit_val in H. destruct (is_digit c); [|discriminate]. cbn. eapply IH; eauto.
Qed.

Lemma parse_nat_some d : nonempty d = true -> all_digits d = true -> exists n, parse_nat d = Some n.
Proof. destruct d; [discriminate|]. intros _ H. unfold parse_nat. now apply parse_digits_all. Qed.

Lemma parse_nat_digits d n : parse_nat d = Some n -> nonempty d = true /\ all_digits d = true.
Proof.
  destruct d as [|c r]; [discriminate|]. unfold parse_nat. intros H. split; [reflexivity|].
  eapply parse_digits_digits; eauto.
Qed.

Lemma digit_not_sign c : is_digit c = true -> ceq c "-" = false /\ ceq c "+" = false.
Proof. intros H. split; apply Ascii.eqb_neq; intros ->; discriminate H. Qed.

Lemma pub_integer_go v : pub_integer v = true -> beyond_int64 v = false -> go_int_ok v = true.
Proof.
  unfold pub_integer, beyond_int64, go_int_ok, parse_int, split_minus.
  destruct v as [|c r]; [discriminate|].
  unfold ceq. destruct (Ascii.eqb c "-") eqn:Em.
  - intros H B. apply andb_true_iff in H as [H _]. apply andb_true_iff in H as [H1 H2].
    destruct (parse_nat_some _ H1 H2) as [n Hn]. rewrite Hn in *.
    change (64 - 1)%N with 63%N.
    destruct (N.ltb_spec (2 ^ 63) n) as [L|L]; [discriminate|].
    destruct (N.leb_spec n (2 ^ 63)) as [L'|L']; [reflexivity|lia].
  - intros H B. apply andb_true_iff in H as [H _]. apply andb_true_iff in H as [H1 H2].
    assert (Ep : Ascii.eqb c "+" = false).
    { cbn in H2. apply andb_true_iff in H2 as [Hd _]. apply digit_not_sign in Hd. unfold ceq in Hd. tauto. }
    rewrite Ep. destruct (parse_nat_some _ H1 H2) as [n Hn]. rewrite Hn in *.
    change (64 - 1)%N with 63%N.
    destruct (N.leb_spec (2 ^ 63) n) as [L|L]; [discriminate|].
    destruct (N.ltb_spec n (2 ^ 63)) as [L'|L']; [reflexivity|lia].
Qed.

Lemma go_int_wf v : go_int_ok v = true -> wf_integer v = true.
Proof.
  unfold go_int_ok, parse_int, wf_integer. destruct v as [|c r]; [discriminate|]. unfold ceq.
  destruct (Ascii.eqb c "-") eqn:Em; cbn [orb].
  - destruct (parse_nat r) eqn:P; [|discriminate]. intros _. apply parse_nat_digits in P as [P1 P2]. now rewrite P1, P2.
  - destruct (Ascii.eqb c "+") eqn:Ep; cbn [orb].
    + destruct (parse_nat r) eqn:P; [|discriminate]. intros _. apply parse_nat_digits in P as [P1 P2]. now rewrite P1, P2.
    + destruct (parse_nat (c :: r)) eqn:P; [|discriminate]. intros _. apply parse_nat_digits in P as [P1 P2]. now rewrite P1, P2.
Qed.

Lemma pub_integer_nonempty v : pub_integer v = true -> nonempty v = true.
Proof. destruct v; [discriminate|reflexivity]. Qed.

Lemma pub_integer_ts v : pub_integer v = true -> ts_integer v = true.
Proof.
  unfold pub_integer, ts_integer. destruct (split_minus v) as [ng d]. intros H.
  apply andb_true_iff in H as [H _]. exact H.
Qed.

Lemma num_tok_nonempty v t : num_tok v = Some t -> nonempty v = true.
Proof. destruct v; [vm_compute; discriminate|reflexivity]. Qed.

Lemma pub_number_go v t : num_tok v = Some t -> num_overflow t = false -> go_number_ok v = true.
Proof. intros H O. unfold go_number_ok. rewrite H, O. apply orb_true_r. Qed.

Lemma go_number_wf v : go_number_ok v = true -> go_special v = false -> wf_number v = true.
Proof. unfold go_number_ok, wf_number. intros H S. rewrite S in H. cbn in H. destruct (num_tok v); [reflexivity|discriminate]. Qed.

Lemma pub_number_ts v : pub_number v = true -> js_number_ok v = true.
Proof. unfold pub_number, js_number_ok. destruct (num_tok v); [reflexivity|discriminate]. Qed.

Lemma pub_boolean_cases v : pub_boolean v = true -> v = s "true" \/ v = s "false".
Proof.
  unfold pub_boolean, str_in. cbn. intros H. apply orb_true_iff in H as [H|H]; [left; now apply str_eqb_eq|].
  apply orb_true_iff in H as [H|H]; [right; now apply str_eqb_eq|discriminate].
Qed.
Lemma pub_boolean_go v : pub_boolean v = true -> nonempty v = true /\ go_bool_ok v = true /\ ts_boolean v = true.
Proof. intros H. apply pub_boolean_cases in H as [->| ->]; vm_compute; auto. Qed.

Lemma pub_uuid_go v : pub_uuid v = true -> go_uuid_ok v = true.
Proof. unfold pub_uuid, go_uuid_ok. intros H. now apply andb_true_iff in H as [H _]. Qed.

Lemma go_uuid_wf v : go_uuid_ok v = true -> (uuid_frame v && negb (uuid_hex_at 0 v)) = false -> pub_uuid v = true.
Proof.
  unfold go_uuid_ok, pub_uuid. intros H N. rewrite H in *. cbn in *. now destruct (uuid_hex_at 0 v).
Qed.

Lemma dotted_nonempty p x : dotted p x = true -> nonempty x = true.
Proof.
  unfold dotted. intros H. repeat (apply andb_true_iff in H as [H _]). exact H.
Qed.
Lemma dotted_chars p x : dotted p x = true -> forallb (fun c => p c || ceq c ".") x = true.
Proof.
  unfold dotted. intros H. do 3 (apply andb_true_iff in H as [H _]). now apply andb_true_iff in H as [_ H].
Qed.

Lemma pub_email_go v : pub_email v = true -> go_email_ok v = true.
Proof.
  unfold pub_email, go_email_ok. destruct (split_on "@" v) as [|a [|b [|c l]]]; try discriminate.
  intros H. do 4 (apply andb_true_iff in H as [H _]). apply andb_true_iff in H as [Ha Hb].
  now rewrite (dotted_nonempty _ _ Ha), (dotted_nonempty _ _ Hb).
Qed.

Lemma atext_not_ws c : is_atext c || ceq c "." = true -> is_js_ws c = false.
Proof. intros H. apply negb_true_iff. revert c H. apply byte_implb. vm_compute. reflexivity. Qed.
Lemma ldh_not_ws c : is_ldh c || ceq c "." = true -> is_js_ws c = false.
Proof. intros H. apply negb_true_iff. revert c H. apply byte_implb. vm_compute. reflexivity. Qed.

Lemma pub_email_ts v :
  pub_email v = true ->
  match split_on "@" v with [_; b] => inner_dot b = true | _ => True end ->
  ts_email v = true.
Proof.
  unfold pub_email, ts_email. destruct (split_on "@" v) as [|a [|b [|c l]]]; try discriminate.
  intros H D. do 4 (apply andb_true_iff in H as [H _]). apply andb_true_iff in H as [Ha Hb].
  rewrite (dotted_nonempty _ _ Ha), D.
  rewrite (existsb_false_of_forallb _ _ a atext_not_ws (dotted_chars _ _ Ha)), (existsb_false_of_forallb _ _ b ldh_not_ws (dotted_chars _ _ Hb)). reflexivity.
Qed.

Lemma expect_some p x c r : expect p x = Some (c, r) -> p c = true.
Proof. destruct x as [|d x']; cbn; [discriminate|]. destruct (p d) eqn:E; [|discriminate]. intros H. now inversion H; subst. Qed.

Lemma tok_datetime_sep v d sep t : tok_datetime v = Some (d, sep, t) -> ceq sep "T" || ceq sep "t" = true.
Proof.
  unfold tok_datetime. destruct (tok_date_prefix v) as [[d' r]|]; [|discriminate].
  destruct (expect _ r) as [[c r']|] eqn:E; [|discriminate].
  destruct (tok_tod r'); [|discriminate]. intros H. inversion H; subst.
  now apply expect_some in E.
Qed.

Lemma tok_zone_zulu x c : tok_zone x = Some (ZZulu c) -> ceq c "Z" || ceq c "z" = true.
Proof.
  destruct x as [|a [|b r]]; cbv beta iota delta [tok_zone].
  - discriminate.
  - destruct (ceq a "Z" || ceq a "z") eqn:E; [|discriminate]. intros H. now inversion H; subst.
  - destruct (ceq a "+" || ceq a "-"); [|discriminate].
    destruct (two_digits (b :: r)) as [[hh r1]|]; [|discriminate].
    destruct (expect _ r1) as [[c1 r2]|]; [|discriminate].
    destruct (two_digits r2) as [[mm [|? ?]]|]; discriminate.
Qed.

Lemma tok_tod_zone v t : tok_tod v = Some t -> exists r, tok_zone r = Some (t_zone t).
Proof.
  unfold tok_tod. destruct (one_or_two_digits v) as [[[h nd] r]|]; [|discriminate].
  destruct (expect _ r) as [[c1 r1]|]; [|discriminate].
  destruct (two_digits r1) as [[mi r2]|]; [|discriminate].
  destruct (expect _ r2) as [[c2 r3]|]; [|discriminate].
  destruct (two_digits r3) as [[se r4]|]; [|discriminate].
  destruct (tok_frac r4) as [fr r5]. destruct (tok_zone r5) eqn:Z; [|discriminate].
  intros H. inversion H; subst. cbn. eauto.
Qed.

Lemma tok_datetime_tod v d sep t : tok_datetime v = Some (d, sep, t) -> exists r, tok_tod r = Some t.
Proof.
  unfold tok_datetime. destruct (tok_date_prefix v) as [[d' r]|]; [|discriminate].
  destruct (expect _ r) as [[c r']|]; [|discriminate].
  destruct (tok_tod r') eqn:E; [|discriminate]. intros H. inversion H; subst. eauto.
Qed.

(* a published date-time without the lower-case 't' / 'z', read off its tokens *)
Lemma pub_datetime_upper v : pub_datetime v = true -> has_lower_tz v = false ->
  exists d sep t, tok_datetime v = Some (d, sep, t) /\ ceq sep "T" = true /\ date_ok d = true /\
    Nat.eqb (t_hour_nd t) 2 = true /\ ((t_hour t <? 24) && (t_min t <? 60))%N = true /\
    ((t_sec t <? 60)%N || ((t_sec t =? 60)%N && leap_second_position t)) = true /\ frac_sep_is "." t = true /\
    match t_zone t with
    | ZZulu c => ceq c "Z" = true
    | ZOff _ hh mm => ((hh <=? 23) && (mm <=? 59))%N = true
    | ZNone => False
    end.
Proof.
  unfold pub_datetime, has_lower_tz.
  destruct (tok_datetime v) as [[[d sep] t]|] eqn:T; [|discriminate].
  intros P L. apply andb_true_iff in P as [Pd Pt]. unfold pub_tod_ok in Pt.
  apply andb_true_iff in Pt as [Pt Pz]. apply andb_true_iff in Pt as [Pt Pf].
  apply andb_true_iff in Pt as [Pt Ps]. apply andb_true_iff in Pt as [Pn Phm].
  apply orb_false_iff in L as [L1 L2].
  pose proof (tok_datetime_sep _ _ _ _ T) as Sep. rewrite L1, orb_false_r in Sep.
  exists d, sep, t. split; [reflexivity|]. repeat (split; [assumption|]).
  destruct (tok_datetime_tod _ _ _ _ T) as [r0 T0]. destruct (tok_tod_zone _ _ T0) as [r Z].
  destruct (t_zone t) as [|c|ng hh mm]; cbn in *; [discriminate| |exact Pz].
  apply tok_zone_zulu in Z. now rewrite L2, orb_false_r in Z.
Qed.

Lemma pub_datetime_go v :
  pub_datetime v = true -> has_lower_tz v = false -> has_sec60 v = false -> go_datetime_ok v = true.
Proof.
  intros P L S. destruct (pub_datetime_upper v P L) as (d & sep & t & T & Sep & Pd & Pn & Phm & Ps & Pf & Pz).
  unfold has_sec60 in S. unfold go_datetime_ok. rewrite T in *. apply orb_true_iff. left. unfold go_dt_fast.
  rewrite Sep, Pd, Pn, Pf. cbn [andb].
  assert (Hs : (t_sec t <? 60)%N = true) by (rewrite S in Ps; cbn in Ps; now rewrite orb_false_r in Ps).
  unfold hms_ok. rewrite Phm, Hs. cbn [andb]. destruct (t_zone t); [contradiction|exact Pz|exact Pz].
Qed.

Lemma go_datetime_wf v :
  go_datetime_ok v = true ->
  match tok_datetime v with Some (_, _, t) => dt_lenient_shape t = false | None => True end ->
  pub_datetime v = true.
Proof.
  unfold go_datetime_ok, pub_datetime. destruct (tok_datetime v) as [[[d sep] t]|]; [|discriminate].
  intros G L. unfold dt_lenient_shape in L.
  apply orb_false_iff in L as [L Lz]. apply orb_false_iff in L as [Ln Lf].
  apply negb_false_iff in Ln, Lf.
  assert (G' : date_ok d = true /\ hms_ok t = true /\ go_zone_ok (t_zone t) = true).
  { apply orb_true_iff in G as [G|G].
    - unfold go_dt_fast in G.
      apply andb_true_iff in G as [G Gz]. apply andb_true_iff in G as [G _].
      apply andb_true_iff in G as [G Gh]. apply andb_true_iff in G as [G _].
      apply andb_true_iff in G as [_ Gd]. repeat split; auto.
      destruct (t_zone t) as [|c|ng hh mm]; cbn in *; auto.
      apply andb_true_iff in Gz as [H1 H2].
      apply N.leb_le in H1, H2. apply andb_true_iff. split; apply N.leb_le; lia.
    - unfold go_dt_general in G.
      apply andb_true_iff in G as [G Gz]. apply andb_true_iff in G as [G Gh].
      apply andb_true_iff in G as [_ Gd]. auto. }
  destruct G' as [Gd [Gh Gz]]. rewrite Gd. cbn [andb]. unfold pub_tod_ok. rewrite Ln, Lf.
  unfold hms_ok in Gh. apply andb_true_iff in Gh as [Gh Gs]. rewrite Gh, Gs. cbn.
  destruct (t_zone t) as [|c|ng hh mm]; cbn in *; [discriminate|reflexivity|].
  apply andb_true_iff in Gz as [G1 G2]. apply orb_false_iff in Lz as [Z1 Z2].
  apply N.leb_le in G1, G2. apply N.eqb_neq in Z1, Z2.
  apply andb_true_iff. split; apply N.leb_le; lia.
Qed.

Lemma pub_datetime_ts v : pub_datetime v = true -> has_lower_tz v = false -> ts_datetime v = true.
Proof.
  intros P L. destruct (pub_datetime_upper v P L) as (d & sep & t & T & Sep & Pd & Pn & Phm & Ps & Pf & Pz).
  unfold ts_datetime. rewrite T, Sep, Pn, Pf. cbn [andb]. destruct (t_zone t); [contradiction|exact Pz|reflexivity].
Qed.

Lemma go_time_wf v :
  go_time_ok v = true ->
  match tok_tod v with Some t => (negb (Nat.eqb (t_hour_nd t) 2) || negb (frac_sep_is "." t)) = false | None => True end ->
  doc_time v = true.
Proof.
  unfold go_time_ok, doc_time. destruct (tok_tod v) as [t|]; [|discriminate].
  intros G L. apply orb_false_iff in L as [L1 L2]. apply negb_false_iff in L1, L2.
  apply andb_true_iff in G as [G1 G2]. now rewrite L1, L2, G1, G2.
Qed.

Lemma pub_date_ts v : pub_date v = true -> ts_date v = true.
Proof. unfold pub_date, go_date_ok, ts_date. destruct (tok_date v); [reflexivity|discriminate]. Qed.

(* validateHeaderValue tests "string" first; since the type names are distinct literals the order of the
   tests does not matter, and the switch reads like the one of the published schema *)
Lemma go_value_ok_switch ty fmt v :
  go_value_ok ty fmt v =
  if is_s ty "integer" then go_int_ok v else if is_s ty "number" then go_number_ok v
  else if is_s ty "boolean" then go_bool_ok v else if is_s ty "array" then go_array_ok v else go_string_ok fmt v.
Proof.
  unfold go_value_ok. destruct (is_s ty "string") eqn:E; [|reflexivity]. apply is_s_eq in E. now subst ty.
Qed.

Lemma value_accept_defects_switch ty fmt v :
  value_accept_defects ty fmt v =
  if is_s ty "integer" then [] else if is_s ty "number" then (if go_special v then [GNumberGoLiteral] else [])
  else if is_s ty "boolean" then [] else if is_s ty "array" then [] else format_accept_defects fmt v.
Proof.
  unfold value_accept_defects. destruct (is_s ty "string") eqn:E; [|reflexivity]. apply is_s_eq in E. now subst ty.
Qed.

Lemma string_typed_other ty : string_typed ty = true ->
  is_s ty "integer" = false /\ is_s ty "number" = false /\ is_s ty "boolean" = false /\ is_s ty "array" = false.
Proof.
  unfold string_typed. intros H. apply orb_true_iff in H as [H|H]; apply is_s_eq in H; subst ty; now repeat split.
Qed.

Lemma format_reject_sound fmt v :
  pub_format_ok fmt v = true -> format_reject_defects fmt v = [] -> nonempty v = true /\ go_format_ok fmt v = true.
Proof.
  unfold format_reject_defects, pub_format_ok, go_format_ok. intros P D.
  apply app_eq_nil in D as [D1 D]. apply app_eq_nil in D as [D2 D3].
  split; [destruct (nonempty v); [reflexivity|discriminate]|].
  destruct (is_s fmt "uuid") eqn:Eu; [now apply pub_uuid_go|].
  destruct (is_s fmt "email") eqn:Ee; [now apply pub_email_go|].
  destruct (is_s fmt "date-time") eqn:Ed.
  { apply app_eq_nil in D3 as [Da Db].
    apply pub_datetime_go; auto.
    - destruct (has_lower_tz v); [discriminate|reflexivity].
    - destruct (has_sec60 v); [discriminate|reflexivity]. }
  destruct (is_s fmt "date") eqn:Ey; [exact P|].
  destruct (is_s fmt "time") eqn:Et; [discriminate|reflexivity].
Qed.

(* published-conforming values outside the reject classes pass the Go validator *)
Lemma reject_sound ty fmt v :
  published_ok ty fmt v = true -> value_reject_defects ty fmt v = [] ->
  nonempty v = true /\ go_value_ok ty fmt v = true.
Proof.
  intros P D. unfold value_reject_defects in D. rewrite P in D. cbn [negb] in D.
  unfold published_ok in P. rewrite go_value_ok_switch.
  destruct (is_s ty "integer").
  { split; [now apply pub_integer_nonempty|].
    apply pub_integer_go; auto. destruct (beyond_int64 v); [discriminate|reflexivity]. }
  destruct (is_s ty "number").
  { unfold pub_number in P. destruct (num_tok v) as [t|] eqn:T; [|discriminate].
    split; [exact (num_tok_nonempty v t T)|]. apply (pub_number_go v t T).
    destruct (num_overflow t); [discriminate|reflexivity]. }
  destruct (is_s ty "boolean"); [apply pub_boolean_go in P; tauto|].
  destruct (is_s ty "array").
  { unfold go_array_ok. destruct (nonempty v); [|discriminate]. destruct (all_space v); [discriminate|auto]. }
  unfold go_string_ok. apply andb_true_iff in P as [Pu Pf]. rewrite Pu. cbn [andb]. now apply format_reject_sound.
Qed.

Lemma format_accept_sound fmt v :
  go_format_ok fmt v = true -> format_accept_defects fmt v = [] -> wf_format_ok fmt v = true.
Proof.
  unfold go_format_ok, format_accept_defects, wf_format_ok. intros G D.
  destruct (is_s fmt "uuid") eqn:Eu.
  { apply go_uuid_wf; auto. destruct (uuid_frame v && negb (uuid_hex_at 0 v)); [discriminate|reflexivity]. }
  destruct (is_s fmt "email") eqn:Ee; [exact G|].
  destruct (is_s fmt "date-time") eqn:Ed.
  { apply go_datetime_wf; auto. destruct (tok_datetime v) as [[[d sep] t]|]; [|exact I].
    destruct (dt_lenient_shape t); [discriminate|reflexivity]. }
  destruct (is_s fmt "date") eqn:Ey; [exact G|].
  destruct (is_s fmt "time") eqn:Et; [|reflexivity].
  apply orb_true_iff. right. apply go_time_wf; auto. destruct (tok_tod v) as [t|]; [|exact I].
  destruct (negb (Nat.eqb (t_hour_nd t) 2) || negb (frac_sep_is "." t)); [discriminate|reflexivity].
Qed.

(* values the Go validator accepts outside the accept classes are well-formed *)
Lemma accept_sound ty fmt v :
  go_value_ok ty fmt v = true -> value_accept_defects ty fmt v = [] -> wf_value ty fmt v = true.
Proof.
  rewrite go_value_ok_switch, value_accept_defects_switch. unfold wf_value. intros G D.
  destruct (is_s ty "integer"); [now apply go_int_wf|].
  destruct (is_s ty "number").
  { apply go_number_wf; auto. destruct (go_special v); [discriminate|reflexivity]. }
  destruct (is_s ty "boolean"); [exact G|].
  destruct (is_s ty "array"); [exact G|].
  unfold go_string_ok in G. apply andb_true_iff in G as [Gu Gf]. rewrite Gu. cbn [andb]. now apply format_accept_sound.
Qed.

(* published-conforming values are well-formed in the lenient sense (the two notions are nested) *)
Lemma published_wf ty fmt v : published_ok ty fmt v = true -> nonempty v = true -> negb (all_space v) = true \/ is_s ty "array" = false ->
  wf_value ty fmt v = true.
Proof.
  unfold published_ok, wf_value. intros P NE AS.
  destruct (is_s ty "integer").
  { unfold pub_integer in P. unfold wf_integer. destruct v as [|c r]; [discriminate|]. unfold split_minus in P.
    unfold ceq in *. destruct (Ascii.eqb c "-"); cbn [orb].
    - apply andb_true_iff in P as [P _]. exact P.
    - apply andb_true_iff in P as [P _]. apply andb_true_iff in P as [P1 P2].
      assert (Ep : Ascii.eqb c "+" = false).
      { cbn in P2. apply andb_true_iff in P2 as [Hd _]. apply digit_not_sign in Hd. unfold ceq in Hd. tauto. }
      rewrite Ep. now rewrite P1, P2. }
  destruct (is_s ty "number").
  { unfold pub_number in P. unfold wf_number. destruct (num_tok v); [reflexivity|discriminate]. }
  destruct (is_s ty "boolean"); [now apply pub_boolean_go in P|].
  destruct (is_s ty "array"); [destruct AS as [AS|AS]; [exact AS|discriminate]|].
  apply andb_true_iff in P as [Pu Pf]. rewrite Pu. cbn [andb]. unfold pub_format_ok in Pf. unfold wf_format_ok.
  destruct (is_s fmt "uuid"); [exact Pf|]. destruct (is_s fmt "email"); [now apply pub_email_go|].
  destruct (is_s fmt "date-time"); [exact Pf|]. destruct (is_s fmt "date"); [exact Pf|].
  destruct (is_s fmt "time"); [now rewrite Pf|reflexivity].
Qed.

Lemma unknown_format_ts fmt v : known_format fmt = false -> ts_format_ok fmt v = true.
Proof.
  unfold known_format, str_in, ts_format_ok, is_s. cbn [existsb]. intros H.
  apply orb_false_iff in H as [E1 H]. apply orb_false_iff in H as [E2 H]. apply orb_false_iff in H as [E3 H].
  apply orb_false_iff in H as [E4 H]. apply orb_false_iff in H as [E5 _]. now rewrite E1, E2, E3, E4, E5.
Qed.

Lemma ts_sound ty fmt v :
  published_ok ty fmt v = true -> ts_value_defects ty fmt v = [] -> ts_value_ok ty fmt v = true.
Proof.
  intros P D. unfold ts_value_defects in D. rewrite P in D. cbn [negb] in D. unfold published_ok in P. unfold ts_value_ok.
  destruct (string_typed ty) eqn:St; cbn [negb] in D.
  - (* string-typed: the type switch does nothing *)
    destruct (string_typed_other ty St) as [Ti [Tn [Tb Ta]]]. rewrite Ti, Tn, Tb, Ta in P. rewrite Ti, Tn, Tb. cbn [andb].
    apply andb_true_iff in P as [_ Pf]. unfold pub_format_ok in Pf. unfold ts_format_ok.
    apply app_eq_nil in D as [D1 D]. apply app_eq_nil in D as [D2 D3].
    destruct (is_s fmt "uuid"); [exact Pf|].
    destruct (is_s fmt "email").
    { apply pub_email_ts; auto. destruct (split_on "@" v) as [|a [|b [|c l]]]; auto. destruct (inner_dot b); [reflexivity|discriminate]. }
    destruct (is_s fmt "date-time").
    { apply pub_datetime_ts; auto. destruct (has_lower_tz v); [discriminate|reflexivity]. }
    destruct (is_s fmt "date"); [now apply pub_date_ts|].
    destruct (is_s fmt "time"); [discriminate|reflexivity].
  - assert (F : ts_format_ok fmt v = true).
    { apply unknown_format_ts. destruct (known_format fmt); [discriminate|reflexivity]. }
    rewrite F, andb_true_r.
    destruct (is_s ty "integer"); [now apply pub_integer_ts|].
    destruct (is_s ty "number"); [now apply pub_number_ts|].
    destruct (is_s ty "boolean"); [now apply pub_boolean_go in P|reflexivity].
Qed.

Lemma gate_go svc mth rq bv bok :
  o_handler (go_serve svc mth rq bv bok) = true ->
  forall h, In h (go_effective svc mth) ->
    nonempty (go_value_of rq (h_name h)) = true /\
    go_value_ok (h_type h) (h_format h) (go_value_of rq (h_name h)) = true.
Proof.
  unfold go_serve. destruct (go_offending svc mth rq) eqn:O.
  - intros _ h Hin. unfold go_offending in O. pose proof (proj1 (filter_nil _ _) O h Hin) as B.
    unfold go_header_bad in B. apply orb_false_iff in B as [B1 B2]. apply negb_false_iff in B1, B2. auto.
  - cbn. discriminate.
Qed.

Lemma value_of_some rq n : nonempty (go_value_of rq n) = true -> hdr_get rq n = Some (go_value_of rq n).
Proof. unfold go_value_of. destruct (hdr_get rq n); [reflexivity|discriminate]. Qed.

Lemma gate_wellformed svc mth rq bv bok :
  o_handler (go_serve svc mth rq bv bok) = true -> accept_defects_C09 svc mth rq = [] ->
  forall h, In h (go_effective svc mth) ->
    exists v, hdr_get rq (h_name h) = Some v /\ nonempty v = true /\ wf_value (h_type h) (h_format h) v = true.
Proof.
  intros H A h Hin. destruct (gate_go _ _ _ _ _ H h Hin) as [NE OK].
  exists (go_value_of rq (h_name h)). pose proof (value_of_some _ _ NE) as G. split; [exact G|]. split; [exact NE|].
  apply accept_sound; [exact OK|].
  pose proof (proj1 (flat_map_nil _ _) A h Hin) as D. cbv beta in D. now rewrite G in D.
Qed.

Lemma distinct_filter f l : distinct l -> distinct (filter f l).
Proof.
  induction l as [|a r IH]; cbn; [auto|]. intros [Ha Hr]. destruct (f a); cbn; [|auto].
  split; [|auto]. intros b Hb. apply filter_In in Hb as [Hb _]. auto.
Qed.

Lemma reject_400 svc mth rq bv bok :
  go_offending svc mth rq <> [] ->
  let o := go_serve svc mth rq bv bok in
  o_status o = 400%Z /\ o_violations o = map h_name (go_offending svc mth rq) /\
  o_handler o = false /\ o_body_read o = false /\ distinct (go_offending svc mth rq) /\
  (forall h, In h (go_offending svc mth rq) <->
             In h (go_effective svc mth) /\
             (nonempty (go_value_of rq (h_name h)) = false \/
              go_value_ok (h_type h) (h_format h) (go_value_of rq (h_name h)) = false)).
Proof.
  intros N. cbv zeta.
  assert (S : go_serve svc mth rq bv bok =
              {| o_status := 400; o_violations := map h_name (go_offending svc mth rq); o_handler := false; o_body_read := false |}).
  { unfold go_serve. destruct (go_offending svc mth rq); [congruence|reflexivity]. }
  rewrite S. cbn.
  split; [reflexivity|]. split; [reflexivity|]. split; [reflexivity|]. split; [reflexivity|].
  split; [unfold go_offending; apply distinct_filter, distinct_effective|].
  intros h. unfold go_offending. rewrite filter_In. unfold go_header_bad. split.
  - intros [Hin H]. split; [exact Hin|]. apply orb_true_iff in H as [H|H]; apply negb_true_iff in H; auto.
  - intros [Hin Hb]. split; [exact Hin|]. destruct Hb as [Hb|Hb]; rewrite Hb; cbn; auto using orb_true_r.
Qed.

(* the published list keeps, for an effective header outside the override shape, that very declaration *)
Definition last_exact_from (o : option header) (n : str) (hs : list header) : option header :=
  fold_left (fun o h => if str_eqb (h_name h) n then Some h else o) hs o.

Lemma last_agree n L : forall h p,
  last_req_from None n L = Some h -> h_name h = n -> last_exact_from None n L = Some p -> h_required p = true -> p = h.
Proof.
  induction L as [|x L IH] using rev_ind; intros h p; [discriminate|].
  unfold last_req_from, last_exact_from. rewrite !fold_left_app. cbn.
  fold (last_req_from None n L). fold (last_exact_from None n L).
  destruct (str_eqb (h_name x) n) eqn:Ex.
  - intros Hr Hn Hp Rp. inversion Hp; subst p. rewrite Rp in Hr. rewrite (name_eqb_exact _ _ Ex) in Hr. cbn in Hr. congruence.
  - destruct (h_required x && name_eqb (h_name x) n) eqn:Er.
    + intros Hr Hn. inversion Hr; subst h. apply str_eqb_neq in Ex. congruence.
    + intros Hr Hn Hp Rp. eapply IH; eauto.
Qed.

Lemma last_exact_in n L : forall o p, last_exact_from o n L = Some p -> o = Some p \/ In p L.
Proof.
  induction L as [|x L IH]; intros o p; cbn; [auto|].
  intros H. apply IH in H as [H|H]; [|auto]. destruct (str_eqb (h_name x) n); [inversion H; auto|auto].
Qed.

Definition exact_find (n : str) (l : list header) : option header := find (fun a => str_eqb (h_name a) n) l.

Lemma exact_find_upsert n h acc :
  exact_find n (upsert_exact h acc) = if str_eqb (h_name h) n then Some h else exact_find n acc.
Proof. exact (kfind_ups str_eqb str_eqb_sym str_eqb_trans n h acc). Qed.

Lemma exact_find_fold n L : nonempty n = true -> forall acc,
  exact_find n (fold_left (fun acc h => if nonempty (h_name h) then upsert_exact h acc else acc) L acc)
  = last_exact_from (exact_find n acc) n L.
Proof.
  intros NE. induction L as [|x L IH]; intros acc; [reflexivity|].
  cbn [fold_left]. rewrite IH. unfold last_exact_from. cbn [fold_left]. f_equal.
  destruct (nonempty (h_name x)) eqn:Nx.
  - apply exact_find_upsert.
  - destruct (str_eqb (h_name x) n) eqn:E; [|reflexivity]. apply str_eqb_eq in E. rewrite E in Nx. congruence.
Qed.

Lemma combine_keeps svc mth n p :
  nonempty n = true -> last_exact n (svc ++ mth) = Some p -> In p (combine_headers svc mth).
Proof.
  intros NE H. change (last_exact n (svc ++ mth)) with (last_exact_from None n (svc ++ mth)) in H.
  unfold combine_headers. destruct svc as [|s0 svc'].
  - cbn in H. apply last_exact_in in H as [H|H]; [discriminate|exact H].
  - destruct mth as [|m0 mth'].
    + rewrite app_nil_r in H. apply last_exact_in in H as [H|H]; [discriminate|exact H].
    + pose proof (exact_find_fold n ((s0 :: svc') ++ m0 :: mth') NE []) as F. cbn [exact_find find] in F.
      rewrite H in F. unfold exact_find in F. apply find_some in F as [F _]. exact F.
Qed.

Lemma last_exact_exists n L h : In h L -> h_name h = n -> exists p, last_exact_from None n L = Some p.
Proof.
  induction L as [|x L IH] using rev_ind; [intros []|].
  intros Hin Hn. unfold last_exact_from. rewrite fold_left_app. cbn. fold (last_exact_from None n L).
  destruct (str_eqb (h_name x) n) eqn:E; [eauto|].
  apply in_app_or in Hin as [Hin|[->|[]]]; [now apply IH|]. apply str_eqb_neq in E. congruence.
Qed.

(* Go: a request that satisfies the published parameter list and lies outside the reject classes
   passes the header gate *)
Lemma published_passes_go svc mth rq :
  forallb (fun h => nonempty (h_name h)) (svc ++ mth) = true ->
  reject_defects_C09 svc mth rq = [] -> published_request_ok svc mth rq = true ->
  go_offending svc mth rq = [].
Proof.
  intros NE R P. unfold go_offending.
  assert (A : forall h, In h (go_effective svc mth) -> go_header_bad rq h = false).
  { intros h Hin. pose proof (proj1 (flat_map_nil _ _) R h Hin) as D. cbv beta in D.
    destruct (optional_override_shape svc mth h) eqn:OV; [discriminate|].
    destruct (in_effective _ _ _ Hin) as [HinL Req].
    pose proof (effective_is_last _ _ _ Hin) as Last.
    destruct (last_exact_exists _ _ _ HinL eq_refl) as [p Hp].
    unfold optional_override_shape in OV. change (last_exact (h_name h) (svc ++ mth)) with (last_exact_from None (h_name h) (svc ++ mth)) in OV.
    rewrite Hp in OV. apply negb_false_iff in OV.
    pose proof (last_agree _ _ _ _ Last eq_refl Hp OV). subst p.
    assert (NEh : nonempty (h_name h) = true). { rewrite forallb_forall in NE. now apply NE. }
    pose proof (combine_keeps _ _ _ _ NEh Hp) as InP.
    unfold published_request_ok in P. rewrite forallb_forall in P. specialize (P _ InP). unfold pub_param_ok in P.
    unfold go_header_bad, go_value_of.
    destruct (hdr_get rq (h_name h)) as [v|]; [|rewrite Req in P; discriminate].
    destruct (reject_sound _ _ _ P D) as [N1 N2]. now rewrite N1, N2. }
  now apply filter_nil.
Qed.

(* TS: the same outside the TS classes *)
Lemma published_passes_ts svc mth rq :
  defects_C09_ts svc mth rq = [] -> published_request_ok svc mth rq = true -> ts_violations svc mth rq = [].
Proof.
  intros D P. unfold ts_violations.
  assert (A : forall h, In h (ts_configs svc mth) -> ts_header_bad rq h = false).
  { intros h Hin. pose proof (proj1 (flat_map_nil _ _) D h Hin) as Dh. cbv beta in Dh.
    destruct (in_published svc mth h) eqn:IP; [|discriminate]. cbn [negb] in Dh.
    unfold in_published in IP. apply existsb_exists in IP as [p [Hp E]].
    apply andb_true_iff in E as [E Er]. apply andb_true_iff in E as [E Ef]. apply andb_true_iff in E as [En Et].
    apply str_eqb_eq in En, Et, Ef. apply Bool.eqb_prop in Er.
    unfold published_request_ok in P. rewrite forallb_forall in P. specialize (P _ Hp). unfold pub_param_ok in P.
    rewrite En, Et, Ef, Er in P. unfold ts_header_bad.
    destruct (hdr_get rq (h_name h)) as [v|]; [|now apply negb_true_iff in P].
    apply negb_false_iff. now apply ts_sound. }
  now rewrite (proj2 (filter_nil _ _) A).
Qed.
