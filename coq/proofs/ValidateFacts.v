(* ValidateFacts.v — the generation-time validators (C12) against the rule catalogue.
   A generator's validator is a chain of checks, each answering None (pass) or Some e (refuse with error e);
   Validate.v also lists, rule by rule, the violations of a schema.  Every check of the chain gets the same
   two lemmas: `<check>_ok` / `_none` — if it answers None, its part of the violation list is empty — and
   `<check>_err` / `_some` — if it answers Some e, then e names ([named_violation]) a violation of that part.  The
   parts are spelled out where the list is not already written as one ([collision_part] for the flatten name
   scan, [oneof_part] for a configured oneof; message_violations_parts puts them together).  The theorems at
   the end chain these per generator: no refusal means no violation, a refusal names one. *)
From Sebuf Require Import Text Schema Validate.
From SebufProofs Require Import TextFacts ListFacts.

Lemma first_some_none {A B} (f : A -> option B) l :
  first_some f l = None <-> forall x, In x l -> f x = None.
Proof.
  induction l as [|a l IH]; cbn; [split; [intros _ x []|reflexivity]|].
  destruct (f a) eqn:E; split.
  - discriminate.
  - intros H. specialize (H a (or_introl eq_refl)). congruence.
  - intros H x [<-|Hx]; [exact E|]. now apply IH.
  - intros H. apply IH. intros x Hx. apply H. now right.
Qed.

Lemma first_some_some {A B} (f : A -> option B) l b :
  first_some f l = Some b -> exists x, In x l /\ f x = Some b.
Proof.
  induction l as [|a l IH]; cbn; [discriminate|].
  destruct (f a) eqn:E.
  - intros [= <-]. exists a. split; [now left|exact E].
  - intros H. destruct (IH H) as (x & Hx & Hf). exists x. split; [now right|exact Hf].
Qed.

Lemma first_some_not_none {A B} (f : A -> option B) l x :
  In x l -> f x <> None -> first_some f l <> None.
Proof. intros Hx Hf H. rewrite first_some_none in H. now apply Hf, H. Qed.

Lemma or_else_none {B} (a b : option B) : or_else a b = None <-> a = None /\ b = None.
Proof.
  destruct a; cbn; split.
  - discriminate.
  - intros [H _]. discriminate.
  - auto.
  - tauto.
Qed.

Lemma or_else_not_none_l {B} (a b : option B) : a <> None -> or_else a b <> None.
Proof. intros H E. apply or_else_none in E as [E _]. auto. Qed.

Lemma or_else_not_none_r {B} (a b : option B) : b <> None -> or_else a b <> None.
Proof. intros H E. apply or_else_none in E as [_ E]. auto. Qed.

Lemma or_else_some {B} (a b : option B) e :
  or_else a b = Some e -> a = Some e \/ (a = None /\ b = Some e).
Proof. destruct a; cbn; [left|right]; tauto. Qed.

Lemma or_else_elim {B} (a b : option B) e (P : Prop) : (a = Some e -> P) -> (b = Some e -> P) -> or_else a b = Some e -> P.
Proof. intros Ha Hb H. apply or_else_some in H as [H|[_ H]]; auto. Qed.

Lemma in_when b v x : In v (when b x) <-> b = true /\ v = x.
Proof. destruct b; cbn; split; intuition (try discriminate; auto). Qed.

Lemma when_nil b x : when b x = [] <-> b = false.
Proof. destruct b; cbn; split; try discriminate; auto. Qed.

Lemma app_both_nil {A} (l l' : list A) : l = [] -> l' = [] -> l ++ l' = [].
Proof. now intros -> ->. Qed.

Lemma mem_str_in x l : mem_str x l = true <-> In x l.
Proof. apply existsb_str_eqb_In. Qed.

Lemma mem_str_false x l : mem_str x l = false <-> ~ In x l.
Proof. rewrite <- mem_str_in. destruct (mem_str x l); split; congruence. Qed.

Lemma nonempty_false {A} (l : list A) : nonempty l = false <-> l = [].
Proof. destruct l; cbn; split; congruence. Qed.

(* a refusal names a violation of the list; closed under the ways checks and lists are combined *)
Definition named_violation (l : list violation) (e : gen_error) : Prop :=
  exists v, In v l /\ In (v_item v) (e_items e).

Lemma named_lift (l l' : list violation) e : (forall v, In v l -> In v l') -> named_violation l e -> named_violation l' e.
Proof. intros S (v & Hv & I). exists v. auto. Qed.

Lemma named_app_l l l' e : named_violation l e -> named_violation (l ++ l') e.
Proof. apply named_lift. intros v Hv. apply in_or_app. now left. Qed.

Lemma named_app_r l l' e : named_violation l' e -> named_violation (l ++ l') e.
Proof. apply named_lift. intros v Hv. apply in_or_app. now right. Qed.

Lemma named_flat_map {A} (g : A -> list violation) l x e : In x l -> named_violation (g x) e -> named_violation (flat_map g l) e.
Proof. intros Hx. apply named_lift. intros v Hv. apply in_flat_map. now exists x. Qed.

(* the first refusal of a pass over a list names a violation of one of its elements *)
Lemma first_some_named {A} (chk : A -> option gen_error) (g : A -> list violation) l e :
  (forall x, In x l -> chk x = Some e -> named_violation (g x) e) ->
  first_some chk l = Some e -> named_violation (flat_map g l) e.
Proof. intros H F. apply first_some_some in F as (x & Hx & F). apply (named_flat_map g l x); auto. Qed.

Section Field.
Variable sc : schema.
Variable m : message.

Lemma nullable_ok f : nullable_check m f = None ->
  is_nullable f && negb (is_opt (f_card f)) = false /\ is_nullable f && is_msg_kind (f_kind f) = false.
Proof.
  unfold nullable_check, desc_is_message. destruct (is_nullable f); cbn; [|auto].
  destruct (f_card f), (f_kind f); cbn; try discriminate; auto.
Qed.

Lemma empty_ok f : empty_check m f = None ->
  has_empty f && negb (is_msg_kind (f_kind f) && negb (is_rep (f_card f)) && negb (is_map (f_card f))) = false.
Proof.
  unfold empty_check, desc_is_message. destruct (has_empty f); cbn; [|auto].
  destruct (f_card f), (f_kind f); cbn; try discriminate; auto.
Qed.

Lemma tsfmt_ok f : tsfmt_check m f = None ->
  tsfmt_set f && negb (is_timestamp (f_kind f) && negb (is_map (f_card f))) = false.
Proof.
  unfold tsfmt_check, is_timestamp_field. destruct (tsfmt_set f); cbn; [|auto].
  destruct (is_map (f_card f)), (is_timestamp (f_kind f)); cbn; try discriminate; auto.
Qed.

Lemma bytesenc_ok f : bytesenc_check m f = None ->
  bytesenc_set f && negb (is_bytes_kind (f_kind f) && negb (is_map (f_card f))) = false.
Proof.
  unfold bytesenc_check, desc_is_bytes. destruct (bytesenc_set f); cbn; [|auto].
  destruct (is_map (f_card f)), (is_bytes_kind (f_kind f)); cbn; try discriminate; auto.
Qed.

Lemma flatten_field_ok f : flatten_field_check m f = None ->
  is_flatten f && is_rep (f_card f) = false /\ is_flatten f && is_map (f_card f) = false /\
  is_flatten f && negb (is_msg_kind (f_kind f)) = false /\
  is_flatten f && match f_oneof f with Some _ => true | None => false end = false /\
  negb (is_flatten f) && nonempty (flatten_prefix f) = false.
Proof.
  unfold flatten_field_check, in_some_oneof. destruct (is_flatten f); cbn.
  - destruct (f_card f); cbn; try discriminate;
      destruct (is_msg_kind (f_kind f)); cbn; try discriminate;
      destruct (f_oneof f); cbn; try discriminate; auto 10.
  - destruct (nonempty (flatten_prefix f)); cbn; try discriminate. auto 10.
Qed.

Lemma enum_ok f : enum_check sc m f = None ->
  is_map (f_card f) && enum_number f && field_enum_has_custom sc f = false ->
  enum_number f && field_enum_has_custom sc f = false.
Proof.
  unfold enum_check, desc_is_enum, field_enum_has_custom.
  destruct (enum_number f); cbn; [|auto].
  destruct (f_kind f); cbn; auto.
  destruct (is_map (f_card f)); cbn; destruct (enum_has_custom sc tn); cbn; try discriminate; auto.
Qed.

(* what remains of a field's violations when every codec check passes: only the unwrap rule *)
Lemma field_violations_codec_ok f :
  is_map (f_card f) && enum_number f && field_enum_has_custom sc f = false ->
  enum_check sc m f = None -> nullable_check m f = None -> empty_check m f = None -> tsfmt_check m f = None ->
  bytesenc_check m f = None -> flatten_field_check m f = None ->
  field_violations sc f = when (f_unwrap f && negb (is_rep (f_card f) || is_map (f_card f))) (viol RUnwrapNonRepeated (f_name f)).
Proof.
  intros Hg He Hn Hem Ht Hb Hf. unfold field_violations.
  destruct (nullable_ok f Hn) as [N1 N2].
  destruct (flatten_field_ok f Hf) as (F1 & F2 & F3 & F4 & F5).
  rewrite N1, N2, (empty_ok f Hem), (tsfmt_ok f Ht), (bytesenc_ok f Hb), F1, F2, F3, F4, F5, (enum_ok f He Hg).
  cbn [when app]. now rewrite app_nil_r.
Qed.

Lemma field_no_violation f :
  (f_unwrap f = true -> is_rep (f_card f) || is_map (f_card f) = true) ->
  is_map (f_card f) && enum_number f && field_enum_has_custom sc f = false ->
  enum_check sc m f = None -> nullable_check m f = None -> empty_check m f = None -> tsfmt_check m f = None ->
  bytesenc_check m f = None -> flatten_field_check m f = None ->
  field_violations sc f = [].
Proof.
  intros Hu Hg He Hn Hem Ht Hb Hf. rewrite field_violations_codec_ok by assumption.
  destruct (f_unwrap f); [|reflexivity]. now rewrite (Hu eq_refl).
Qed.

Definition field_breaks (f : field) (r : rule) : bool :=
  match r with
  | RUnwrapNonRepeated => f_unwrap f && negb (is_rep (f_card f) || is_map (f_card f))
  | RNullableNonOptional => is_nullable f && negb (is_opt (f_card f))
  | RNullableMessage => is_nullable f && is_msg_kind (f_kind f)
  | REmptyBehaviorWrongType => has_empty f && negb (is_msg_kind (f_kind f) && negb (is_rep (f_card f)) && negb (is_map (f_card f)))
  | RTimestampFormatWrongType => tsfmt_set f && negb (is_timestamp (f_kind f) && negb (is_map (f_card f)))
  | RBytesEncodingWrongType => bytesenc_set f && negb (is_bytes_kind (f_kind f) && negb (is_map (f_card f)))
  | RFlattenRepeated => is_flatten f && is_rep (f_card f)
  | RFlattenMap => is_flatten f && is_map (f_card f)
  | RFlattenScalar => is_flatten f && negb (is_msg_kind (f_kind f))
  | RFlattenOneofMember => is_flatten f && match f_oneof f with Some _ => true | None => false end
  | RPrefixWithoutFlatten => negb (is_flatten f) && nonempty (flatten_prefix f)
  | REnumNumberWithCustomValues => enum_number f && field_enum_has_custom sc f
  | _ => false
  end.

Definition field_rules : list rule :=
  [RUnwrapNonRepeated; RNullableNonOptional; RNullableMessage; REmptyBehaviorWrongType; RTimestampFormatWrongType;
   RBytesEncodingWrongType; RFlattenRepeated; RFlattenMap; RFlattenScalar; RFlattenOneofMember; RPrefixWithoutFlatten;
   REnumNumberWithCustomValues].

Lemma field_violations_by_rule f :
  field_violations sc f = flat_map (fun r => when (field_breaks f r) (viol r (f_name f))) field_rules.
Proof. unfold field_violations, field_rules. cbn [flat_map field_breaks]. now rewrite app_nil_r. Qed.

Lemma in_field_violations f v :
  In v (field_violations sc f) <-> exists r, field_breaks f r = true /\ v = viol r (f_name f).
Proof.
  rewrite field_violations_by_rule, in_flat_map. split.
  - intros (r & _ & H). apply in_when in H. now exists r.
  - intros (r & H & ->). exists r. split; [|apply in_when; now split].
    destruct r; try discriminate H; cbn; auto 15.
Qed.

Lemma field_named f r e : field_breaks f r = true -> e_items e = [f_name f] -> named_violation (field_violations sc f) e.
Proof.
  intros B I. exists (viol r (f_name f)). split; [apply in_field_violations; now exists r|]. rewrite I. now left.
Qed.

Lemma enum_err f e : enum_check sc m f = Some e -> named_violation (field_violations sc f) e.
Proof.
  unfold enum_check. destruct (desc_is_enum f && enum_number f && field_enum_has_custom sc f) eqn:E; [|discriminate].
  intros [= <-]. apply andb_true_iff in E as [E E2]. apply andb_true_iff in E as [_ E1].
  apply (field_named f REnumNumberWithCustomValues); [|reflexivity]. cbn [field_breaks]. now rewrite E1, E2.
Qed.

Lemma nullable_err f e : nullable_check m f = Some e -> named_violation (field_violations sc f) e.
Proof.
  unfold nullable_check. destruct (is_nullable f) eqn:N; [|discriminate].
  destruct (negb (is_opt (f_card f))) eqn:O.
  - intros [= <-]. apply (field_named f RNullableNonOptional); [|reflexivity]. cbn [field_breaks]. now rewrite N, O.
  - destruct (desc_is_message f) eqn:D; [|discriminate]. intros [= <-].
    apply (field_named f RNullableMessage); [|reflexivity]. cbn [field_breaks]. rewrite N.
    unfold desc_is_message in D. destruct (f_card f); try discriminate O; exact D.
Qed.

Lemma empty_err f e : empty_check m f = Some e -> named_violation (field_violations sc f) e.
Proof.
  unfold empty_check, desc_is_message. destruct (has_empty f) eqn:H; [|discriminate].
  destruct (is_map (f_card f)) eqn:M; destruct (is_rep (f_card f)) eqn:R; destruct (is_msg_kind (f_kind f)) eqn:K;
    cbn; intros He; try discriminate He; injection He as <-;
    (apply (field_named f REmptyBehaviorWrongType); [|reflexivity]); cbn [field_breaks]; now rewrite H, M, R, K.
Qed.

Lemma tsfmt_err f e : tsfmt_check m f = Some e -> named_violation (field_violations sc f) e.
Proof.
  unfold tsfmt_check. destruct (tsfmt_set f && negb (is_timestamp_field f)) eqn:E; [|discriminate].
  intros [= <-]. apply andb_true_iff in E as [E1 E2].
  apply (field_named f RTimestampFormatWrongType); [|reflexivity]. cbn [field_breaks].
  rewrite E1, (andb_comm (is_timestamp (f_kind f))). exact E2.
Qed.

Lemma bytesenc_err f e : bytesenc_check m f = Some e -> named_violation (field_violations sc f) e.
Proof.
  unfold bytesenc_check. destruct (bytesenc_set f && negb (desc_is_bytes f)) eqn:E; [|discriminate].
  intros [= <-]. apply andb_true_iff in E as [E1 E2].
  apply (field_named f RBytesEncodingWrongType); [|reflexivity]. cbn [field_breaks].
  rewrite E1, (andb_comm (is_bytes_kind (f_kind f))). exact E2.
Qed.

(* flatten on a proto3 optional message field is the one refusal without a broken rule *)
Lemma flatten_field_err f e : flatten_field_check m f = Some e ->
  is_flatten f && is_opt (f_card f) && is_msg_kind (f_kind f) = false ->
  named_violation (field_violations sc f) e.
Proof.
  unfold flatten_field_check. intros H G.
  destruct (is_flatten f) eqn:F; cbn in H.
  - destruct (is_rep (f_card f)) eqn:R.
    { injection H as <-. apply (field_named f RFlattenRepeated); [|reflexivity]. cbn [field_breaks]. now rewrite F, R. }
    destruct (is_map (f_card f)) eqn:M.
    { injection H as <-. apply (field_named f RFlattenMap); [|reflexivity]. cbn [field_breaks]. now rewrite F, M. }
    destruct (is_msg_kind (f_kind f)) eqn:K; cbn in H.
    2:{ injection H as <-. apply (field_named f RFlattenScalar); [|reflexivity]. cbn [field_breaks]. now rewrite F, K. }
    destruct (in_some_oneof f) eqn:O; [|discriminate]. injection H as <-.
    apply (field_named f RFlattenOneofMember); [|reflexivity]. cbn [field_breaks]. rewrite F.
    unfold in_some_oneof in O. destruct (f_oneof f); [reflexivity|]. cbn in G. rewrite O in G. discriminate.
  - destruct (nonempty (flatten_prefix f)) eqn:P; [|discriminate]. injection H as <-.
    apply (field_named f RPrefixWithoutFlatten); [|reflexivity]. cbn [field_breaks]. now rewrite F, P.
Qed.
End Field.

Lemma unwrap_scan_inr mn fs : forall seen r, unwrap_scan mn seen fs = inr r ->
  (forall f, In f fs -> f_unwrap f = true -> is_rep (f_card f) || is_map (f_card f) = true) /\
  match seen with
  | Some _ => filter f_unwrap fs = [] /\ r = seen
  | None => (filter f_unwrap fs = [] /\ r = None) \/ (exists f, filter f_unwrap fs = [f] /\ r = Some f)
  end.
Proof.
  induction fs as [|f fs IH]; cbn; intros seen r H.
  - inversion H; subst. split; [intros ? []|]. destruct r; auto.
  - destruct (f_unwrap f) eqn:U.
    + destruct (is_rep (f_card f) || is_map (f_card f)) eqn:RM; cbn in H; [|discriminate].
      destruct seen as [s0|]; [discriminate|].
      destruct (IH _ _ H) as [A [B ->]]. split.
      * intros g [<-|Hg] Ug; auto.
      * right. exists f. now rewrite B.
    + destruct (IH _ _ H) as [A B]. split; [|exact B].
      intros g [<-|Hg] Ug; [congruence|auto].
Qed.

Lemma unwrap_scan_inl mn fs : forall seen e, unwrap_scan mn seen fs = inl e ->
  exists f, In f fs /\ f_unwrap f = true /\ e_items e = [f_name f] /\
    (is_rep (f_card f) || is_map (f_card f) = false \/ seen <> None \/ 2 <= List.length (filter f_unwrap fs)).
Proof.
  induction fs as [|f fs IH]; cbn; intros seen e H; [discriminate|].
  destruct (f_unwrap f) eqn:U.
  - destruct (is_rep (f_card f) || is_map (f_card f)) eqn:RM; cbn in H.
    + destruct seen as [s0|].
      * inversion H; subst. exists f. repeat split; auto. right; left. discriminate.
      * destruct (IH _ _ H) as (g & Hg & Ug & I & D). exists g. repeat split; auto.
        destruct D as [D|[_|D]]; auto; right; right; cbn.
        -- assert (In g (filter f_unwrap fs)) by (apply filter_In; auto).
           destruct (filter f_unwrap fs); [contradiction|cbn; lia].
        -- lia.
    + inversion H; subst. exists f. repeat split; auto.
  - destruct (IH _ _ H) as (g & Hg & Ug & I & D). exists g. repeat split; auto.
Qed.

Lemma unwrap_check_none m : unwrap_check m = None ->
  (forall f, In f (m_fields m) -> f_unwrap f = true -> is_rep (f_card f) || is_map (f_card f) = true) /\
  Nat.ltb 1 (count_unwrap m) = false /\
  (forall f, In f (m_fields m) -> f_unwrap f && is_map (f_card f) && negb (Nat.eqb (List.length (m_fields m)) 1) = false).
Proof.
  unfold unwrap_check, get_unwrap_field, count_unwrap.
  destruct (unwrap_scan (short_name m) None (m_fields m)) as [e|r] eqn:S; [discriminate|].
  destruct (unwrap_scan_inr _ _ _ _ S) as [A B]. intros H. split; [exact A|].
  destruct B as [[B ->]|[g [B ->]]]; rewrite B; cbn; (split; [reflexivity|]).
  - intros f Hf. destruct (f_unwrap f) eqn:U; [|reflexivity].
    assert (In f (filter f_unwrap (m_fields m))) by (apply filter_In; auto). rewrite B in H0. contradiction.
  - intros f Hf. destruct (f_unwrap f) eqn:U; [|reflexivity].
    assert (In f (filter f_unwrap (m_fields m))) as I by (apply filter_In; auto). rewrite B in I.
    destruct I as [<-|[]]. cbn.
    destruct (Nat.eqb (List.length (m_fields m)) 1); cbn in *; [now rewrite andb_false_r|].
    destruct (is_map (f_card g)); cbn in *; [discriminate|reflexivity].
Qed.

Lemma unwrap_check_some sc m e : unwrap_check m = Some e -> named_violation (message_violations sc m) e.
Proof.
  unfold unwrap_check, get_unwrap_field.
  destruct (unwrap_scan (short_name m) None (m_fields m)) as [e0|r] eqn:S.
  - intros [= <-]. destruct (unwrap_scan_inl _ _ _ _ S) as (f & Hf & U & I & D).
    destruct D as [D|[D|D]]; [| congruence |].
    + exists (viol RUnwrapNonRepeated (f_name f)). rewrite I. split; [|now left].
      unfold message_violations. apply in_or_app. left. apply in_flat_map. exists f. split; [exact Hf|].
      apply in_field_violations. exists RUnwrapNonRepeated. split; [|reflexivity]. cbn. now rewrite U, D.
    + exists (viol RUnwrapTwice (f_name f)). rewrite I. split; [|now left].
      unfold message_violations. apply in_or_app. right. apply in_or_app. left.
      apply in_flat_map. exists f. split; [exact Hf|]. rewrite U. unfold count_unwrap.
      replace (Nat.ltb 1 (List.length (filter f_unwrap (m_fields m)))) with true; [now left|].
      symmetry. apply Nat.ltb_lt. lia.
  - destruct (unwrap_scan_inr _ _ _ _ S) as [A B].
    destruct r as [g|]; [|discriminate].
    destruct (negb (Nat.eqb (List.length (m_fields m)) 1) && is_map (f_card g)) eqn:C; [|discriminate].
    intros [= <-]. cbn.
    destruct B as [[_ B]|[g' [B [= <-]]]]; [discriminate|].
    assert (In g (filter f_unwrap (m_fields m))) as I by (rewrite B; now left).
    apply filter_In in I as [Hg U].
    exists (viol RUnwrapMapNotAlone (f_name g)). split; [|now left].
    unfold message_violations. apply in_or_app. right. apply in_or_app. right. apply in_or_app. left.
    apply in_flat_map. exists g. split; [exact Hg|]. apply andb_true_iff in C as [C1 C2].
    rewrite U, C2, C1. now left.
Qed.

(* flatten: the sequential used-name scan finds a collision iff the names are not distinct *)
Definition occurrences (x : str) (l : list str) : nat := List.length (filter (str_eqb x) l).

Lemma occurrences_zero x l : (forall y, In y l -> y <> x) -> occurrences x l = 0.
Proof.
  unfold occurrences. induction l as [|a l IH]; cbn; intros H; [reflexivity|].
  destruct (str_eqb x a) eqn:E.
  - apply str_eqb_eq in E. subst. exfalso. now apply (H a (or_introl eq_refl)).
  - apply IH. intros y Hy. apply H. now right.
Qed.

Lemma occurrences_in x l : In x l -> 1 <= occurrences x l.
Proof.
  unfold occurrences. induction l as [|a l IH]; cbn; intros H; [contradiction|].
  destruct (str_eqb x a) eqn:E; cbn; [lia|].
  destruct H as [->|H]; [now rewrite str_eqb_refl in E|now apply IH].
Qed.

Lemma scan_used_none ns : forall used, scan_used used ns = None ->
  forall n, In n ns -> mem_str (snd n) used = false /\ occurrences (snd n) (map snd ns) <= 1.
Proof.
  induction ns as [|a ns IH]; cbn; intros used H n Hn; [contradiction|].
  destruct (mem_str (snd a) used) eqn:M; [discriminate|].
  specialize (IH _ H).
  assert (forall y, In y (map snd ns) -> y <> snd a) as Fresh.
  { intros y Hy E. apply in_map_iff in Hy as (b & <- & Hb). destruct (IH b Hb) as [Mb _].
    cbn in Mb. rewrite E, str_eqb_refl in Mb. discriminate. }
  destruct Hn as [<-|Hn].
  - split; [exact M|]. unfold occurrences. cbn. rewrite str_eqb_refl. cbn.
    fold (occurrences (snd a) (map snd ns)). rewrite occurrences_zero; auto.
  - destruct (IH n Hn) as [Mn On]. cbn in Mn. apply orb_false_iff in Mn as [Ne Mn]. split; [exact Mn|].
    unfold occurrences. cbn. rewrite Ne. exact On.
Qed.

Lemma scan_used_some ns : forall used n, scan_used used ns = Some n ->
  In n ns /\ (mem_str (snd n) used = true \/ 2 <= occurrences (snd n) (map snd ns)).
Proof.
  induction ns as [|a ns IH]; cbn; intros used n H; [discriminate|].
  destruct (mem_str (snd a) used) eqn:M.
  - inversion H; subst. split; [now left|now left].
  - destruct (IH _ _ H) as [Hn D]. split; [now right|].
    destruct D as [D|D].
    + cbn in D. apply orb_true_iff in D as [D|D]; [|now left]. right.
      unfold occurrences. cbn. rewrite D. cbn.
      assert (1 <= occurrences (snd n) (map snd ns)) by (apply occurrences_in, in_map, Hn).
      unfold occurrences in H0. lia.
    + right. unfold occurrences in *. cbn. destruct (str_eqb (snd n) (snd a)); cbn; lia.
Qed.

Lemma flatten_sources_agree m :
  (forall f, In f (m_fields m) -> flatten_field_check m f = None) ->
  impl_flatten_sources m = filter well_formed_flatten (m_fields m).
Proof.
  intros H. unfold impl_flatten_sources. apply filter_ext_in. intros f Hf.
  destruct (flatten_field_ok m f (H f Hf)) as (F1 & F2 & F3 & _).
  unfold well_formed_flatten, desc_is_message.
  destruct (is_flatten f); cbn in *; [|reflexivity].
  rewrite F1, F2. cbn. apply negb_false_iff in F3. now rewrite F3.
Qed.

Lemma no_flatten_no_sources m : has_flatten m = false -> filter well_formed_flatten (m_fields m) = [].
Proof.
  unfold has_flatten. intros H. rewrite existsb_false in H.
  induction (m_fields m) as [|f l IH]; cbn; [reflexivity|].
  unfold well_formed_flatten at 1. rewrite (H f (or_introl eq_refl)). cbn. apply IH. intros x Hx. apply H. now right.
Qed.

Definition collision_part (sc : schema) (m : message) : list violation :=
  flat_map (fun n => when (mem_str (snd n) (parent_json_names m) ||
                           Nat.ltb 1 (List.length (filter (str_eqb (snd n)) (flat_json_names sc m))))
                          (viol RFlattenCollision (fst (fst n)))) (spec_flattened sc m).

Lemma flatten_msg_none sc m : flatten_msg_check sc m = None ->
  (forall f, In f (m_fields m) -> flatten_field_check m f = None) /\ collision_part sc m = [].
Proof.
  unfold flatten_msg_check. intros H. apply or_else_none in H as [H1 H2].
  rewrite first_some_none in H1. split; [exact H1|].
  unfold collision_part, spec_flattened, flat_json_names, spec_flattened.
  destruct (has_flatten m) eqn:HF.
  - apply or_else_none in H2 as [H2 _]. unfold flatten_collision_check, flattened_names in H2.
    rewrite (flatten_sources_agree m H1) in H2.
    destruct (scan_used (parent_json_names m) (names_of sc (filter well_formed_flatten (m_fields m)))) as [[[a b] c]|] eqn:S; [discriminate|].
    apply flat_map_nil. intros n Hn. apply when_nil.
    destruct (scan_used_none _ _ S n Hn) as [M O]. rewrite M, orb_false_l.
    apply Nat.ltb_ge. exact O.
  - rewrite (no_flatten_no_sources m HF). reflexivity.
Qed.

Lemma flatten_msg_some sc m e : flatten_msg_check sc m = Some e ->
  msg_flatten_optional m = false -> msg_flatten_conflict m = false ->
  named_violation (message_violations sc m) e.
Proof.
  unfold flatten_msg_check. intros H GO GC.
  apply or_else_some in H as [H|[H1 H2]].
  - unfold msg_flatten_optional in GO. rewrite existsb_false in GO.
    unfold message_violations. apply named_app_l. revert H. apply first_some_named.
    intros f Hf H. exact (flatten_field_err sc m f e H (GO f Hf)).
  - rewrite first_some_none in H1.
    destruct (has_flatten m) eqn:HF; [|discriminate].
    apply or_else_some in H2 as [H2|[_ H2]].
    + unfold flatten_collision_check, flattened_names in H2. rewrite (flatten_sources_agree m H1) in H2.
      destruct (scan_used (parent_json_names m) (names_of sc (filter well_formed_flatten (m_fields m)))) as [[[fld child] nm]|] eqn:S; [|discriminate].
      injection H2 as <-.
      destruct (scan_used_some _ _ _ S) as [Hn D].
      exists (viol RFlattenCollision fld). split; [|now left].
      unfold message_violations. do 3 (apply in_or_app; right). apply in_or_app. left.
      apply in_flat_map. exists (fld, child, nm). split; [exact Hn|].
      apply in_when. split; [|reflexivity]. cbn [snd fst] in *. destruct D as [D|D]; [now rewrite D|].
      apply orb_true_iff. right. apply Nat.ltb_lt. exact D.
    + unfold flatten_conflict_check in H2. unfold msg_flatten_conflict in GC. rewrite HF in GC. cbn in GC.
      rewrite GC in H2. discriminate.
Qed.

Lemma str_eqb_sym a b : str_eqb a b = str_eqb b a.
Proof. apply TextFacts.str_eqb_sym. Qed.

Definition oneof_part (sc : schema) (m : message) (o : oneof) : list violation :=
  if oneof_configured o then
    when (mem_str (o_discriminator o) (map (fun f => json_name (f_name f)) (outside_fields m o)))
         (viol RDiscriminatorCollision (o_name o)) ++
    (if o_flatten o then
       when (existsb (fun v => negb (is_msg_kind (f_kind v))) (variants m o)) (viol ROneofFlattenScalarVariant (o_name o)) ++
       when (existsb (fun v => existsb (fun c => mem_str (snd c) (reserved_names m o)) (kind_children sc (f_kind v))) (variants m o))
            (viol ROneofFlattenChildCollision (o_name o))
     else [])
  else [].

Definition oneof_members_singular (m : message) : Prop :=
  forall f, In f (m_fields m) -> match f_oneof f with Some _ => f_card f = Singular | None => True end.

Lemma variant_desc_kind m o v : oneof_members_singular m -> In v (variants m o) -> desc_is_message v = is_msg_kind (f_kind v).
Proof.
  intros W Hv. apply filter_In in Hv as [Hv I]. specialize (W v Hv).
  unfold in_oneof in I. destruct (f_oneof v); [|discriminate]. unfold desc_is_message. now rewrite W.
Qed.

Lemma oneof_check_none sc m o : oneof_members_singular m -> oneof_check sc m o = None -> oneof_part sc m o = [].
Proof.
  intros W. unfold oneof_check, oneof_part. destruct (oneof_configured o); [|reflexivity].
  intros H. apply or_else_none in H as [H1 H2].
  unfold disc_collision_check in H1. rewrite first_some_none in H1.
  replace (mem_str (o_discriminator o) (map (fun f => json_name (f_name f)) (outside_fields m o))) with false.
  2:{ symmetry. apply mem_str_false. intros I. apply in_map_iff in I as (f & E & Hf).
      specialize (H1 f Hf). rewrite E, str_eqb_refl in H1. discriminate. }
  cbn [when app]. destruct (o_flatten o); [|reflexivity].
  unfold oneof_flatten_check in H2. apply or_else_none in H2 as [H2 H3].
  rewrite first_some_none in H2, H3.
  replace (existsb (fun v => negb (is_msg_kind (f_kind v))) (variants m o)) with false.
  2:{ symmetry. apply existsb_false. intros v Hv. specialize (H2 v Hv). cbn in H2.
      rewrite (variant_desc_kind m o v W Hv) in H2. destruct (is_msg_kind (f_kind v)); [reflexivity|discriminate]. }
  replace (existsb (fun v => existsb (fun c => mem_str (snd c) (reserved_names m o)) (kind_children sc (f_kind v))) (variants m o)) with false; [reflexivity|].
  symmetry. apply existsb_false. intros v Hv. apply existsb_false. intros c Hc.
  specialize (H3 v Hv). cbv beta in H3. rewrite first_some_none in H3. specialize (H3 c Hc). cbv beta in H3.
  destruct (mem_str (snd c) (reserved_names m o)); [discriminate|reflexivity].
Qed.

Lemma oneof_check_some sc m o e : oneof_members_singular m -> oneof_check sc m o = Some e ->
  named_violation (oneof_part sc m o) e.
Proof.
  intros W. unfold oneof_check, oneof_part. destruct (oneof_configured o); [|discriminate].
  intros H. apply or_else_some in H as [H|[_ H]].
  - unfold disc_collision_check in H. apply first_some_some in H as (f & Hf & H).
    destruct (str_eqb (json_name (f_name f)) (o_discriminator o)) eqn:E; [|discriminate].
    inversion H; subst. exists (viol RDiscriminatorCollision (o_name o)). split; [|now left].
    apply in_or_app. left. apply in_when. split; [|reflexivity].
    apply mem_str_in. apply str_eqb_eq in E. rewrite <- E. apply in_map_iff. now exists f.
  - destruct (o_flatten o); [|discriminate]. unfold oneof_flatten_check in H.
    apply or_else_some in H as [H|[_ H]].
    + apply first_some_some in H as (v & Hv & H). cbn in H.
      destruct (negb (desc_is_message v)) eqn:D; [|discriminate]. inversion H; subst.
      exists (viol ROneofFlattenScalarVariant (o_name o)). split; [|now left].
      apply in_or_app. right. apply in_or_app. left. apply in_when. split; [|reflexivity].
      apply existsb_exists. exists v. split; [exact Hv|]. now rewrite <- (variant_desc_kind m o v W Hv).
    + apply first_some_some in H as (v & Hv & H). cbv beta in H.
      apply first_some_some in H as (c & Hc & H). cbv beta in H.
      destruct (mem_str (snd c) (reserved_names m o)) eqn:M; [|discriminate]. inversion H; subst.
      exists (viol ROneofFlattenChildCollision (o_name o)). split; [|now left].
      apply in_or_app. right. apply in_or_app. right. apply in_when. split; [|reflexivity].
      apply existsb_exists. exists v. split; [exact Hv|]. apply existsb_exists. now exists c.
Qed.

Lemma message_violations_parts sc m :
  message_violations sc m =
    flat_map (field_violations sc) (m_fields m) ++
    flat_map (fun f => when (f_unwrap f && Nat.ltb 1 (count_unwrap m)) (viol RUnwrapTwice (f_name f))) (m_fields m) ++
    flat_map (fun f => when (f_unwrap f && is_map (f_card f) && negb (Nat.eqb (List.length (m_fields m)) 1))
                            (viol RUnwrapMapNotAlone (f_name f))) (m_fields m) ++
    collision_part sc m ++ flat_map (oneof_part sc m) (m_oneofs m).
Proof. reflexivity. Qed.

Definition field_checks_none (sc : schema) (m : message) : Prop :=
  forall f, In f (m_fields m) ->
    enum_check sc m f = None /\ nullable_check m f = None /\ empty_check m f = None /\
    tsfmt_check m f = None /\ bytesenc_check m f = None.

Lemma message_none sc m :
  oneof_members_singular m -> msg_enum_map_gap sc m = false ->
  unwrap_check m = None -> field_checks_none sc m ->
  flatten_msg_check sc m = None -> oneof_msg_check sc m = None ->
  message_violations sc m = [].
Proof.
  intros W G HU HF HFl HO. rewrite message_violations_parts.
  destruct (unwrap_check_none m HU) as (U1 & U2 & U3).
  destruct (flatten_msg_none sc m HFl) as [F1 F2].
  unfold msg_enum_map_gap in G. rewrite existsb_false in G.
  unfold oneof_msg_check in HO. rewrite first_some_none in HO.
  repeat apply app_both_nil.
  - apply flat_map_nil. intros f Hf. destruct (HF f Hf) as (A & B & C & D & E).
    apply (field_no_violation sc m f); auto.
  - apply flat_map_nil. intros f Hf. apply when_nil. rewrite U2. apply andb_false_r.
  - apply flat_map_nil. intros f Hf. apply when_nil. apply U3, Hf.
  - exact F2.
  - apply flat_map_nil. intros o Ho. apply oneof_check_none; auto.
Qed.

Lemma in_message_oneof sc m o v : In o (m_oneofs m) -> In v (oneof_part sc m o) -> In v (message_violations sc m).
Proof.
  intros Ho Hv. rewrite message_violations_parts. do 4 (apply in_or_app; right). apply in_flat_map. now exists o.
Qed.

Lemma oneof_msg_some sc m e : oneof_members_singular m -> oneof_msg_check sc m = Some e ->
  named_violation (message_violations sc m) e.
Proof.
  intros W H. rewrite message_violations_parts. do 4 apply named_app_r. revert H. apply first_some_named.
  intros o _. now apply oneof_check_some.
Qed.

Lemma scalar_is_compatible f : is_scalar_field f = true -> path_compatible f = true.
Proof. unfold is_scalar_field, path_compatible. destruct (f_card f), (f_kind f); cbn; congruence. Qed.

Lemma compatible_nonrep_scalar f : path_compatible f = true -> is_rep (f_card f) = false -> is_scalar_field f = true.
Proof. unfold is_scalar_field, path_compatible. destruct (f_card f), (f_kind f); cbn; congruence. Qed.

Lemma method_violations_cfg sc md : md_has_cfg md = true ->
  method_violations sc md =
    flat_map (fun p => match find_field (input_fields sc md) p with
                       | None => [viol RPathVariableNoField p]
                       | Some f => when (negb (is_scalar_field f)) (viol RPathVariableNonScalar p)
                       end) (extract_path_params (md_path md)) ++
    flat_map (fun f => when (has_query f && mem_str (f_name f) (extract_path_params (md_path md))) (viol RPathAndQuery (f_name f)))
             (input_fields sc md) ++
    (if verb_bodiless (md_verb md)
     then flat_map (fun f => when (negb (mem_str (f_name f) (extract_path_params (md_path md))) && negb (has_query f))
                                  (viol RBodilessUnbound (f_name f))) (input_fields sc md)
     else []).
Proof. unfold method_violations. now intros ->. Qed.

Lemma method_none sc sv md : msg_repeated_pathvar sc md = false -> method_check sc sv md = None -> method_violations sc md = [].
Proof.
  unfold msg_repeated_pathvar, method_check. destruct (md_has_cfg md) eqn:Hc; cbn [negb andb].
  2: { intros _ _. unfold method_violations. now rewrite Hc. }
  rewrite (method_violations_cfg sc md Hc). cbv zeta.
  intros G H. rewrite existsb_false in G.
  apply or_else_none in H as [H1 H2]. apply or_else_none in H2 as [H2 H3].
  rewrite first_some_none in H1. rewrite first_some_none in H2.
  repeat apply app_both_nil.
  - apply flat_map_nil. intros p Hp. specialize (H1 p Hp). specialize (G p Hp). cbv beta in *.
    destruct (find_field (input_fields sc md) p) as [f|]; [|discriminate].
    destruct (path_compatible f) eqn:C; [|discriminate]. rewrite andb_true_r in G.
    now rewrite (compatible_nonrep_scalar f C G).
  - apply flat_map_nil. intros f Hf. specialize (H2 f Hf). cbv beta in H2.
    destruct (has_query f && mem_str (f_name f) (extract_path_params (md_path md))); [discriminate|reflexivity].
  - destruct (verb_bodiless (md_verb md)); [|reflexivity].
    destruct (filter _ (input_fields sc md)) eqn:F; [|discriminate].
    apply flat_map_nil. intros f Hf. now rewrite (proj1 (filter_nil _ _) F f Hf).
Qed.

(* the two refusals the Go server and the TS server share *)
Lemma path_no_field_named sc md p e :
  md_has_cfg md = true -> In p (extract_path_params (md_path md)) -> find_field (input_fields sc md) p = None ->
  e_items e = [p] -> named_violation (method_violations sc md) e.
Proof.
  intros Hc Hp FF I. exists (viol RPathVariableNoField p). rewrite I. split; [|now left].
  rewrite (method_violations_cfg sc md Hc). apply in_or_app. left. apply in_flat_map. exists p. split; [exact Hp|].
  rewrite FF. now left.
Qed.

Lemma body_unbound_named sc md f body e :
  md_has_cfg md = true -> verb_bodiless (md_verb md) = true ->
  filter (fun f => negb (mem_str (f_name f) (extract_path_params (md_path md))) && negb (has_query f)) (input_fields sc md) = f :: body ->
  e_items e = map f_name (f :: body) -> named_violation (method_violations sc md) e.
Proof.
  intros Hc Hv F I. exists (viol RBodilessUnbound (f_name f)). rewrite I. split; [|now left].
  assert (In f (f :: body)) as Hf by now left. rewrite <- F in Hf. apply filter_In in Hf as [Hf C].
  rewrite (method_violations_cfg sc md Hc), Hv. do 2 (apply in_or_app; right).
  apply in_flat_map. exists f. split; [exact Hf|]. rewrite C. now left.
Qed.

Lemma method_some sc sv md e : method_check sc sv md = Some e -> named_violation (method_violations sc md) e.
Proof.
  unfold method_check. destruct (md_has_cfg md) eqn:Hc; cbn [negb]; [|discriminate]. cbv zeta.
  intros H. apply or_else_some in H as [H|[_ H]].
  - apply first_some_some in H as (p & Hp & H). cbv beta in H.
    destruct (find_field (input_fields sc md) p) as [f|] eqn:FF.
    + destruct (path_compatible f) eqn:C; [discriminate|]. injection H as <-.
      exists (viol RPathVariableNonScalar p). split; [|now left].
      rewrite (method_violations_cfg sc md Hc). apply in_or_app. left. apply in_flat_map. exists p. split; [exact Hp|]. rewrite FF.
      apply in_when. split; [|reflexivity]. destruct (is_scalar_field f) eqn:S; [|reflexivity].
      apply scalar_is_compatible in S. congruence.
    + injection H as <-. now apply (path_no_field_named sc md p).
  - apply or_else_some in H as [H|[_ H]].
    + apply first_some_some in H as (f & Hf & H). cbv beta in H.
      destruct (has_query f && mem_str (f_name f) (extract_path_params (md_path md))) eqn:C; [|discriminate].
      injection H as <-. exists (viol RPathAndQuery (f_name f)). split; [|now left].
      rewrite (method_violations_cfg sc md Hc). apply in_or_app. right. apply in_or_app. left.
      apply in_flat_map. exists f. split; [exact Hf|]. rewrite C. now left.
    + destruct (verb_bodiless (md_verb md)) eqn:Hv; [|discriminate].
      destruct (filter _ (input_fields sc md)) as [|f body] eqn:F; [discriminate|]. injection H as <-.
      now apply (body_unbound_named sc md f body).
Qed.

Lemma ts_method_some sc md e : ts_method_check sc md = Some e -> named_violation (method_violations sc md) e.
Proof.
  unfold ts_method_check. destruct (md_has_cfg md) eqn:Hc; cbv zeta; [|discriminate].
  intros H. apply or_else_some in H as [H|[_ H]].
  - apply first_some_some in H as (p & Hp & H). cbv beta in H.
    destruct (find_field (input_fields sc md) p) as [f|] eqn:FF; [discriminate|]. injection H as <-.
    now apply (path_no_field_named sc md p).
  - destruct (verb_bodiless (md_verb md)) eqn:Hv; [|discriminate].
    destruct (filter _ (input_fields sc md)) as [|f body] eqn:F; [discriminate|]. injection H as <-.
    now apply (body_unbound_named sc md f body).
Qed.

Definition unwrap_rule (r : rule) : bool :=
  match r with RUnwrapNonRepeated | RUnwrapTwice | RUnwrapMapNotAlone => true | _ => false end.

Lemma message_codec_ok sc m :
  oneof_members_singular m -> msg_enum_map_gap sc m = false ->
  field_checks_none sc m -> flatten_msg_check sc m = None -> oneof_msg_check sc m = None ->
  forall v, In v (message_violations sc m) -> unwrap_rule (v_rule v) = true.
Proof.
  intros W G HF HFl HO v. rewrite message_violations_parts.
  destruct (flatten_msg_none sc m HFl) as [F1 F2].
  unfold msg_enum_map_gap in G. rewrite existsb_false in G.
  unfold oneof_msg_check in HO. rewrite first_some_none in HO.
  rewrite F2. replace (flat_map (oneof_part sc m) (m_oneofs m)) with (@nil violation).
  2:{ symmetry. apply flat_map_nil. intros o Ho. apply oneof_check_none; auto. }
  rewrite !in_app_iff. intros [H|[H|[H|[[]|[]]]]].
  - apply in_flat_map in H as (f & Hf & H). destruct (HF f Hf) as (A & B & C & D & E).
    rewrite (field_violations_codec_ok sc m f) in H; auto. apply in_when in H as [_ ->]. reflexivity.
  - apply in_flat_map in H as (f & Hf & H). apply in_when in H as [_ ->]. reflexivity.
  - apply in_flat_map in H as (f & Hf & H). apply in_when in H as [_ ->]. reflexivity.
Qed.

Lemma method_violations_not_client sc md v : In v (method_violations sc md) -> client_rule (v_rule v) = false.
Proof.
  destruct (md_has_cfg md) eqn:Hc; [|unfold method_violations; rewrite Hc; intros []].
  rewrite (method_violations_cfg sc md Hc), !in_app_iff. intros [H|[H|H]].
  - apply in_flat_map in H as (p & _ & H). destruct (find_field (input_fields sc md) p).
    + apply in_when in H as [_ ->]. reflexivity.
    + destruct H as [<-|[]]. reflexivity.
  - apply in_flat_map in H as (f & _ & H). apply in_when in H as [_ ->]. reflexivity.
  - destruct (verb_bodiless (md_verb md)); [|contradiction].
    apply in_flat_map in H as (f & _ & H). apply in_when in H as [_ ->]. reflexivity.
Qed.

Lemma unwrap_rule_not_client r : unwrap_rule r = true -> client_rule r = false.
Proof. destruct r; cbn; congruence. Qed.

Lemma per_field_none chk f : per_field chk f = None <->
  forall m, In m (fl_messages f) -> forall x, In x (m_fields m) -> chk m x = None.
Proof.
  unfold per_field. rewrite first_some_none. split; intros H m Hm.
  - intros x Hx. specialize (H m Hm). cbv beta in H. rewrite first_some_none in H. auto.
  - cbv beta. rewrite first_some_none. auto.
Qed.

Lemma per_field_named sc chk f e :
  (forall m x, chk m x = Some e -> named_violation (field_violations sc x) e) ->
  per_field chk f = Some e -> named_violation (flat_map (message_violations sc) (fl_messages f)) e.
Proof.
  intros H. unfold per_field. apply first_some_named. intros m _ F.
  unfold message_violations. apply named_app_l. revert F. apply first_some_named. intros x _. apply H.
Qed.

Lemma codec_passes_none sc f : codec_passes sc f = None ->
  forall m, In m (fl_messages f) ->
    field_checks_none sc m /\ flatten_msg_check sc m = None /\ oneof_msg_check sc m = None /\ oneof_conflict_check m = None.
Proof.
  unfold codec_passes. intros H.
  apply or_else_none in H as [H1 H]. apply or_else_none in H as [H2 H]. apply or_else_none in H as [H3 H].
  apply or_else_none in H as [H4 H]. apply or_else_none in H as [H5 H]. apply or_else_none in H as [H6 H].
  apply or_else_none in H as [H7 H8].
  rewrite per_field_none in H1, H2, H3, H4, H5.
  rewrite first_some_none in H6. rewrite first_some_none in H7. rewrite first_some_none in H8.
  intros m Hm. repeat split; auto.
Qed.

Definition file_no_gap (sc : schema) (f : file) : Prop :=
  forall m, In m (fl_messages f) ->
    oneof_members_singular m /\ msg_enum_map_gap sc m = false /\ msg_flatten_conflict m = false /\
    msg_oneof_conflict m = false /\ msg_flatten_optional m = false.

Lemma codec_passes_some sc f e : file_no_gap sc f -> codec_passes sc f = Some e ->
  named_violation (flat_map (message_violations sc) (fl_messages f)) e.
Proof.
  intros NG. unfold codec_passes.
  apply or_else_elim; [apply per_field_named; intros m x; apply enum_err|].
  apply or_else_elim; [apply per_field_named; intros m x; apply nullable_err|].
  apply or_else_elim; [apply per_field_named; intros m x; apply empty_err|].
  apply or_else_elim; [apply per_field_named; intros m x; apply tsfmt_err|].
  apply or_else_elim; [apply per_field_named; intros m x; apply bytesenc_err|].
  apply or_else_elim.
  { apply first_some_named. intros m Hm H. destruct (NG m Hm) as (_ & _ & GC & _ & GO). now apply flatten_msg_some. }
  apply or_else_elim.
  { apply first_some_named. intros m Hm H. destruct (NG m Hm) as (W & _). now apply oneof_msg_some. }
  intros H. apply first_some_some in H as (m & Hm & H).
  destruct (NG m Hm) as (_ & _ & _ & GC & _). unfold oneof_conflict_check in H. unfold msg_oneof_conflict in GC.
  rewrite GC in H. discriminate.
Qed.

Lemma in_gen_messages sc f m : In f (gen_files sc) -> In m (fl_messages f) -> In m (gen_messages sc).
Proof. intros Hf Hm. unfold gen_messages. apply in_flat_map. now exists f. Qed.

Lemma in_gen_methods sc f sv md : In f (gen_files sc) -> In sv (fl_services f) -> In md (sv_methods sv) -> In md (gen_methods sc).
Proof.
  intros Hf Hs Hm. unfold gen_methods. apply in_flat_map. exists f. split; [exact Hf|].
  apply in_flat_map. now exists sv.
Qed.

Lemma gen_files_in sc f : In f (gen_files sc) -> In f sc.
Proof. unfold gen_files. intros H. now apply filter_In in H. Qed.

Lemma dom_members_singular sc f m : dom_C12 sc = true -> In f sc -> In m (fl_messages f) -> oneof_members_singular m.
Proof.
  unfold dom_C12. intros D Hf Hm. apply andb_true_iff in D as [D _].
  rewrite forallb_forall in D. assert (In m (flat_map fl_messages sc)) as I by (apply in_flat_map; now exists f).
  specialize (D m I). unfold dom_message in D. apply andb_true_iff in D as [D _]. apply andb_true_iff in D as [D _].
  rewrite forallb_forall in D. intros x Hx. specialize (D x Hx). cbv beta in D.
  destruct (f_oneof x); [|exact Logic.I]. destruct (f_card x); try discriminate. reflexivity.
Qed.

Lemma defects_nil sc : defects_C12 sc = [] ->
  existsb (msg_repeated_pathvar sc) (gen_methods sc) = false /\
  existsb (msg_enum_map_gap sc) (gen_messages sc) = false /\
  broken_imported sc = [] /\
  existsb msg_flatten_conflict (gen_messages sc) = false /\
  existsb msg_oneof_conflict (gen_messages sc) = false /\
  existsb msg_flatten_optional (gen_messages sc) = false.
Proof.
  unfold defects_C12. intros H.
  destruct (existsb (msg_repeated_pathvar sc) (gen_methods sc)); [discriminate|].
  destruct (existsb (msg_enum_map_gap sc) (gen_messages sc)); [discriminate|].
  destruct (nonempty (broken_imported sc)) eqn:N; [discriminate|].
  destruct (existsb msg_flatten_conflict (gen_messages sc)); [discriminate|].
  destruct (existsb msg_oneof_conflict (gen_messages sc)); [discriminate|].
  destruct (existsb msg_flatten_optional (gen_messages sc)); [discriminate|].
  repeat split; auto. now apply nonempty_false.
Qed.

Lemma no_gap_files sc : dom_C12 sc = true -> defects_C12 sc = [] ->
  forall f, In f (gen_files sc) -> file_no_gap sc f.
Proof.
  intros D H f Hf m Hm. destruct (defects_nil sc H) as (_ & G2 & _ & G4 & G5 & G6).
  rewrite existsb_false in G2, G4, G5, G6. pose proof (in_gen_messages sc f m Hf Hm) as I.
  repeat split; auto. eapply dom_members_singular; eauto. now apply gen_files_in.
Qed.

Lemma in_broken_msg sc f m v : In f (gen_files sc) -> In m (fl_messages f) -> In v (message_violations sc m) -> In v (broken_generated sc).
Proof.
  intros Hf Hm Hv. unfold broken_generated. apply in_flat_map. exists f. split; [exact Hf|].
  unfold file_violations. apply in_or_app. left. apply in_flat_map. now exists m.
Qed.


Theorem go_http_none_no_violation sc : dom_C12 sc = true -> defects_C12 sc = [] ->
  go_http_accepts sc = None -> broken_generated sc = [].
Proof.
  intros D H A. unfold go_http_accepts in A. apply or_else_none in A as [A1 A2].
  rewrite first_some_none in A1. rewrite first_some_none in A2.
  pose proof (no_gap_files sc D H) as NG.
  destruct (defects_nil sc H) as (G1 & _). rewrite existsb_false in G1.
  unfold broken_generated. apply flat_map_nil. intros f Hf.
  specialize (A1 f Hf). cbv beta in A1. rewrite first_some_none in A1.
  specialize (A2 f Hf). unfold http_file_check in A2. apply or_else_none in A2 as [A2 A3].
  rewrite first_some_none in A3.
  unfold file_violations. apply app_both_nil.
  - apply flat_map_nil. intros m Hm.
    destruct (codec_passes_none sc f A2 m Hm) as (C1 & C2 & C3 & _).
    destruct (NG f Hf m Hm) as (W & G & _).
    apply message_none; auto.
  - apply flat_map_nil. intros sv Hs. apply flat_map_nil. intros md Hm.
    specialize (A3 sv Hs). unfold service_check in A3. rewrite first_some_none in A3.
    apply (method_none sc sv md); auto. apply G1. eapply in_gen_methods; eauto.
Qed.

Theorem go_http_some_named sc e : dom_C12 sc = true -> defects_C12 sc = [] ->
  go_http_accepts sc = Some e -> named_violation (broken_generated sc) e.
Proof.
  intros D H. pose proof (no_gap_files sc D H) as NG. unfold go_http_accepts, broken_generated. apply or_else_elim.
  - apply first_some_named. intros f Hf A. unfold file_violations. apply named_app_l. revert A.
    apply first_some_named. intros m _. apply unwrap_check_some.
  - apply first_some_named. intros f Hf. unfold http_file_check, file_violations. apply or_else_elim; intros A.
    + apply named_app_l. now apply codec_passes_some; [apply NG|].
    + apply named_app_r. revert A. apply first_some_named. intros sv _. unfold service_check.
      apply first_some_named. intros md _. apply method_some.
Qed.

Theorem go_client_some_named sc e : dom_C12 sc = true -> defects_C12 sc = [] ->
  go_client_accepts sc = Some e -> named_violation (broken_generated sc) e.
Proof.
  intros D H. pose proof (no_gap_files sc D H) as NG. unfold go_client_accepts, broken_generated.
  apply first_some_named. intros f Hf A. unfold file_violations. apply named_app_l. now apply codec_passes_some; [apply NG|].
Qed.

Theorem go_client_none_only_other_rules sc : dom_C12 sc = true -> defects_C12 sc = [] ->
  go_client_accepts sc = None -> forall v, In v (broken_generated sc) -> client_rule (v_rule v) = false.
Proof.
  intros D H A v Hv. pose proof (no_gap_files sc D H) as NG.
  unfold go_client_accepts in A. rewrite first_some_none in A.
  unfold broken_generated in Hv. apply in_flat_map in Hv as (f & Hf & Hv).
  unfold file_violations in Hv. apply in_app_iff in Hv as [Hv|Hv].
  - apply in_flat_map in Hv as (m & Hm & Hv).
    destruct (codec_passes_none sc f (A f Hf) m Hm) as (C1 & C2 & C3 & _).
    destruct (NG f Hf m Hm) as (W & G & _).
    apply unwrap_rule_not_client. eapply message_codec_ok; eauto.
  - apply in_flat_map in Hv as (sv & Hs & Hv). apply in_flat_map in Hv as (md & Hm & Hv).
    eapply method_violations_not_client; eauto.
Qed.

Theorem ts_server_some_named sc e : ts_server_accepts sc = Some e -> named_violation (broken_generated sc) e.
Proof.
  unfold ts_server_accepts, broken_generated. apply first_some_named. intros f _ A.
  unfold file_violations. apply named_app_r. revert A. apply first_some_named. intros sv _.
  apply first_some_named. intros md _. apply ts_method_some.
Qed.
