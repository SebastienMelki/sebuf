(* Int64Facts.v — the int64 NUMBER codec (internal/httpgen/encoding.go) in general:
   MarshalJSON  = protojson output with the value of every NUMBER-annotated 64-bit field (singular or
                  repeated, all five 64-bit kinds) rewritten in place from decimal string(s) to number(s),
   UnmarshalJSON rewrites exactly those numbers back to the decimal strings protojson reads;
   hence the round trip (C04) for every message whose codec is the int64 one, all well-typed values.
   Entry by entry (CodecBase.field_codec_roundtrip): a NUMBER field holds a non-zero integer or a non-empty
   list of integers in range ([shape]), written as number(s) and read back as the same decimal string(s). *)
From Sebuf Require Import CodecCases.
From SebufProofs Require Import ProtoJsonFacts NullableFacts.
From Coq Require Import Lia ZArith List.
Import ListNotations.

Open Scope Z_scope.

Local Arguments buildable : simpl never.

Definition vint64 (z : Z) : fval := FS (VInt z).
Definition num_elem (v : fval) : json := match v with FS (VInt z) => JNum z | _ => JNull end.
Definition str_elem (v : fval) : json := match v with FS (VInt z) => JStr (show_Z z) | _ => JNull end.
(* the NUMBER form and the protojson form of the value of a 64-bit field *)
Definition num_json (x : fval) : json :=
  match x with FS (VInt z) => JNum z | FL l => JArr (map num_elem l) | _ => JNull end.
Definition str_json (x : fval) : json :=
  match x with FS (VInt z) => JStr (show_Z z) | FL l => JArr (map str_elem l) | _ => JNull end.

Definition shape (f : field) (x : fval) : Prop :=
  (f_card f = Singular /\ exists z, x = FS (VInt z) /\ z <> 0 /\ in_int_range (f_kind f) z = true) \/
  (f_card f = Repeated /\ exists zs, x = FL (map vint64 zs) /\ zs <> [] /\ forallb (in_int_range (f_kind f)) zs = true).

Lemma number_i64_facts f : is_number_i64 f = true ->
  is_int64_kind (f_kind f) = true /\ is_map f = false /\ f_int64 f = Some I64Number.
Proof.
  unfold is_number_i64. intros H. apply andb_prop in H. destruct H as [H H3]. apply andb_prop in H. destruct H as [H1 H2].
  apply Bool.negb_true_iff in H2. repeat split; auto.
  destruct (f_int64 f) as [[| |]|]; try discriminate. reflexivity.
Qed.

Lemma go_ints_nums k zs : forallb (in_int_range k) zs = true -> go_ints k (map JNum zs) = Some zs.
Proof.
  induction zs as [|z r IH]; simpl; intros H; [reflexivity|].
  apply andb_prop in H. destruct H as [Hz Hr]. rewrite Hz, (IH Hr). reflexivity.
Qed.
Lemma map_num_elem zs : map num_elem (map vint64 zs) = map JNum zs.
Proof. rewrite map_map. apply map_ext. intros z. reflexivity. Qed.
Lemma map_str_elem zs : map str_elem (map vint64 zs) = map (fun z => JStr (show_Z z)) zs.
Proof. rewrite map_map. apply map_ext. intros z. reflexivity. Qed.

Section Int64.
Variable E : ExtLib.
Variable sc : schema.
Variable md : message.
Variable m : mval.

Lemma pj_scalar_i64 k z : is_int64_kind k = true -> pj_scalar E sc k (VInt z) = ROk (JStr (show_Z z)).
Proof. intros Hk. destruct k; try discriminate Hk; reflexivity. Qed.

Lemma wt_int64_scalar k sx : is_int64_kind k = true -> wt sc k (FS sx) = true ->
  exists z, sx = VInt z /\ in_int_range k z = true.
Proof.
  intros Hk Hw. cbn [wt] in Hw. apply andb_prop in Hw. destruct Hw as [_ Hw].
  pose proof (wt_scalar_inv sc k sx Hw) as Hi. destruct sx as [z|b|x|x|b|n].
  - exists z. split; [reflexivity|apply Hi].
  - subst k. discriminate Hk.
  - subst k. discriminate Hk.
  - subst k. discriminate Hk.
  - destruct Hi as [[|] [-> _]]; discriminate Hk.
  - destruct Hi as [tn [e [-> _]]]. discriminate Hk.
Qed.

Lemma all_wt_ints k l : is_int64_kind k = true ->
  (fix all (l : list fval) : bool := match l with [] => true | y :: t => wt sc k y && all t end) l = true ->
  exists zs, l = map vint64 zs /\ forallb (in_int_range k) zs = true.
Proof.
  intros Hk. induction l as [|y t IH]; intros H.
  - exists []. split; reflexivity.
  - apply andb_prop in H. destruct H as [Hy Ht]. destruct (IH Ht) as [zs [Hl Hzs]]. subst t.
    destruct y as [sx|cm|l'|kv].
    + destruct (wt_int64_scalar k sx Hk Hy) as [z [Hsx Hz]]. subst sx.
      exists (z :: zs). split; [reflexivity|]. simpl. rewrite Hz, Hzs. reflexivity.
    + destruct k; try discriminate Hk; discriminate Hy.
    + discriminate Hy.
    + discriminate Hy.
Qed.

Lemma m_list_ints k zs : is_int64_kind k = true ->
  m_list E sc k (map vint64 zs) = ROk (map (fun z => JStr (show_Z z)) zs).
Proof.
  intros Hk. induction zs as [|z r IH]; [reflexivity|].
  change (m_list E sc k (map vint64 (z :: r)))
    with (pj_fval E sc k (FS (VInt z)) >>= (fun j => m_list E sc k (map vint64 r) >>= (fun t => ROk (j :: t)))).
  rewrite pj_fval_FS, (pj_scalar_i64 k z Hk), IH. reflexivity.
Qed.

(* shape of a well-typed value of a NUMBER field the emitted code compiles for *)
Lemma shape_of_wt f x :
  buildable sc FtInt64 md = true -> In f (m_fields md) -> is_number_i64 f = true ->
  wt_entry sc f x = true -> shape f x.
Proof.
  intros Hb Hin Hn Hw. destruct (number_i64_facts f Hn) as [Hk [Hmap _]].
  unfold buildable in Hb. rewrite forallb_forall in Hb. specialize (Hb f Hin). rewrite Hn in Hb. simpl in Hb.
  unfold wt_entry in Hw. unfold shape.
  destruct (f_card f) as [| | |kk] eqn:Ec.
  - left. split; [reflexivity|].
    assert (Hone : f_oneof f = None).
    { unfold plain_singular, is_repeated in Hb. rewrite Ec in Hb. destruct (f_oneof f); [discriminate Hb|reflexivity]. }
    destruct x as [sx|cm|l|kv]; try discriminate Hw.
    + apply andb_prop in Hw. destruct Hw as [Hwt Hpop].
      destruct (wt_int64_scalar (f_kind f) sx Hk Hwt) as [z [Hsx Hz]]. subst sx.
      exists z. split; [reflexivity|]. split; [|exact Hz].
      intros Hz0. subst z. unfold populated, implicit_scalar in Hpop. rewrite Ec, Hone in Hpop.
      destruct (f_kind f); try discriminate Hk; discriminate Hpop.
    + destruct (f_kind f); try discriminate Hk; discriminate Hw.
  - (* Optional: the emitted code does not compile *)
    unfold plain_singular, is_repeated in Hb. rewrite Ec in Hb. discriminate Hb.
  - right. split; [reflexivity|].
    destruct x as [sx|cm|l|kv]; try discriminate Hw.
    destruct l as [|e l]; [discriminate Hw|].
    destruct (all_wt_ints (f_kind f) (e :: l) Hk Hw) as [zs [Hl Hzs]].
    exists zs. split; [rewrite Hl; reflexivity|]. split; [|exact Hzs].
    intros Hnil. subst zs. discriminate Hl.
  - unfold is_map in Hmap. rewrite Ec in Hmap. discriminate Hmap.
Qed.

Lemma pj_num f x : is_int64_kind (f_kind f) = true -> shape f x ->
  pj_fval E sc (f_kind f) x = ROk (str_json x).
Proof.
  intros Hk [[_ [z [Hx _]]]|[_ [zs [Hx _]]]]; subst x.
  - rewrite pj_fval_FS. apply pj_scalar_i64. exact Hk.
  - rewrite pj_fval_FL, (m_list_ints (f_kind f) zs Hk). simpl. rewrite map_str_elem. reflexivity.
Qed.

(* MarshalJSON and UnmarshalJSON on the entry of a NUMBER field *)
Lemma act_int64_shape f x : is_number_i64 f = true -> mget m (f_name f) = Some x -> shape f x ->
  act_int64 m f = Some (Some (num_json x)).
Proof.
  intros Hn Hm [[Ec [z [Hx [Hz _]]]]|[Ec [zs [Hx [Hne _]]]]]; subst x; unfold act_int64; rewrite Hn, Ec, Hm.
  - rewrite (proj2 (Z.eqb_neq z 0) Hz). reflexivity.
  - destruct zs as [|z0 zs]; [contradiction|]. reflexivity.
Qed.
Lemma gd_int64_num f x : is_number_i64 f = true -> shape f x -> gd_int64 f (num_json x) = Some (Some (str_json x)).
Proof.
  intros Hn [[Ec [z [Hx [_ Hr]]]]|[Ec [zs [Hx [_ Hr]]]]]; subst x; unfold gd_int64; rewrite Hn, Ec.
  - cbn [num_json go_int]. rewrite Hr. reflexivity.
  - cbn [num_json]. rewrite map_num_elem, (go_ints_nums _ _ Hr). cbn [str_json]. rewrite map_str_elem. reflexivity.
Qed.

End Int64.

Section Codec.
Variable E : ExtLib.
Hypothesis EL : ExtLaws E.
Variable sc : schema.

(* C04 for the int64 NUMBER codec, all values *)
Theorem int64_roundtrip : forall tn md m j,
  str_eqb tn ts_name = false -> is_wkt_other tn = false ->
  find_message (all_messages sc) tn = Some md -> owner_of sc md = Own FtInt64 ->
  wt sc (KMessage tn) (FM m) = true ->
  encode E sc tn m = ROk j -> decode E sc tn j = ROk (norm sc tn m).
Proof.
  intros tn md m j Hts _ Hfm Hown Hwt Henc.
  rewrite (norm_owned sc tn md FtInt64 m (find_lookup sc tn md Hts Hfm) Hown).
  rewrite <- (nmap_id (fun _ x => Some x) md m (fun _ _ => eq_refl)).
  apply (field_codec_roundtrip E sc FtInt64 _ tn md m j eq_refl Hts Hfm Hown Hwt); [| | |exact Henc].
  - intros Hb x f jx Hff Hm Hw Hj. cbn [act_of gd_of]. pose proof (proj1 (find_field_spec _ _ _ Hff)) as Hf. destruct (is_number_i64 f) eqn:En.
    + pose proof (shape_of_wt sc md f x Hb Hf En Hw) as Hsh.
      destruct (number_i64_facts f En) as [Hk _]. rewrite (pj_num E sc f x Hk Hsh) in Hj. inversion Hj; subst jx.
      unfold slot_ok, thru. rewrite (act_int64_shape m f x En Hm Hsh). cbn [aval]. rewrite (gd_int64_num f x En Hsh).
      exists (str_json x). split; [reflexivity|].
      apply (entry_rt E EL sc f x _ (pj_roundtrip_fval E EL sc x) Hw). exact (pj_num E sc f x Hk Hsh).
    + apply (slot_ok_plain E EL sc); [| |reflexivity|exact Hw|exact Hj].
      * unfold act_int64. rewrite En. reflexivity.
      * unfold gd_int64. rewrite En. reflexivity.
  - intros f v _. apply absent_deleted.
  - intros es _ _ _. apply dec_of_gstep; [reflexivity|discriminate].
Qed.

End Codec.
Close Scope Z_scope.


(* non-vacuity: every 64-bit kind, singular and repeated, 0 / negative / > 2^53 / extreme values *)
From SebufProofs Require Import CodecExamples.
Open Scope Z_scope.
Definition i64s : schema :=
  [ {| fl_path := s "i/a.proto"; fl_package := s "x.v1"; fl_gopkg := s "x"; fl_generate := true;
       fl_messages :=
         [ msg "Wide" [set_i64 (fld "a_i" 1 KInt64 Singular); set_i64 (fld "b_u" 2 KUint64 Singular);
                       set_i64 (fld "c_s" 3 KSint64 Singular); set_i64 (fld "d_f" 4 KFixed64 Singular);
                       set_i64 (fld "e_sf" 5 KSfixed64 Singular); set_i64 (fld "rep_i" 6 KInt64 Repeated);
                       set_i64 (fld "rep_u" 7 KUint64 Repeated); set_i64 (fld "unset_n" 8 KInt64 Singular);
                       fld "plain_big" 9 KInt64 Singular; fld "name" 10 KString Singular;
                       fld "leaf" 11 (T "Leaf") Singular; fld "plain_rep" 12 KSint64 Repeated] [];
           msg "Leaf" [fld "a" 1 KString Singular; fld "n" 2 KInt64 Singular] [];
           msg "Opt" [set_i64 (fld "o" 1 KInt64 Optional); fld "name" 2 KString Singular] [] ];
       fl_enums := []; fl_services := [] |} ].
Definition wide_val : mval :=
  [(s "a_i", vint (-9223372036854775808)); (s "b_u", vint 18446744073709551615); (s "c_s", vint (-1));
   (s "d_f", vint 9007199254740993); (s "e_sf", vint 9223372036854775807);
   (s "rep_i", FL [vint 0; vint (-5); vint 9007199254740993]); (s "rep_u", FL [vint 18446744073709551615; vint 0]);
   (s "plain_big", vint 7); (s "name", vstr "n"); (s "leaf", FM [(s "a", vstr "x"); (s "n", vint 3)]);
   (s "plain_rep", FL [vint (-2)])].
Definition wide_json : json :=
  JObj [(s "aI", JNum (-9223372036854775808)); (s "bU", JNum 18446744073709551615); (s "cS", JNum (-1));
        (s "dF", JNum 9007199254740993); (s "eSf", JNum 9223372036854775807);
        (s "repI", JArr [JNum 0; JNum (-5); JNum 9007199254740993]); (s "repU", JArr [JNum 18446744073709551615; JNum 0]);
        (s "plainBig", JStr (s "7")); (s "name", JStr (s "n"));
        (s "leaf", JObj [(s "a", JStr (s "x")); (s "n", JStr (s "3"))]); (s "plainRep", JArr [JStr (s "-2")])].

Example int64_nonvacuous :
  exists md,
    str_eqb (q "Wide") ts_name = false /\ is_wkt_other (q "Wide") = false /\
    find_message (all_messages i64s) (q "Wide") = Some md /\ owner_of i64s md = Own FtInt64 /\
    buildable i64s FtInt64 md = true /\ nodup_str (map jn (m_fields md)) = true /\
    wt i64s (KMessage (q "Wide")) (FM wide_val) = true /\
    encode Ex i64s (q "Wide") wide_val = ROk wide_json /\
    decode Ex i64s (q "Wide") wide_json = ROk wide_val.
Proof.
  (* the message first, by unification: it stays the term the schema has, not its normal form, and everything
     after it is closed and goes to the evaluator *)
  eexists. split; [reflexivity|]. split; [reflexivity|]. split; [reflexivity|].
  vm_compute. repeat split; reflexivity.
Qed.
Close Scope Z_scope.
