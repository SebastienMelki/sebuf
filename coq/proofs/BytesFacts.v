(* BytesFacts.v — the bytes_encoding codec (internal/httpgen/bytes_encoding.go) in general:
   MarshalJSON   = protojson output with the text of every non-empty annotated bytes field replaced by
                   its HEX / BASE64_RAW / BASE64URL / BASE64URL_RAW text,
   UnmarshalJSON = the same entries re-written as padded standard base64, then protojson;
   hence the round trip (C04) for every message whose codec is the bytes one, for all well-typed
   values (singular and optional fields, empty and non-empty byte strings, all four encodings).
   The encoder never produces CR / LF, so the decoder's "Unmodelled" branch is never taken. *)
From Sebuf Require Import CodecCases.
From SebufProofs Require Import ListFacts CodecTextFacts ProtoJsonFacts CodecBase.
From Coq Require Import ZArith.

Open Scope Z_scope.

Lemma b64_enc_ncrlf url pad x : forallb ncrlf (b64_enc url pad x) = true.
Proof. apply b64_enc_forallb; [apply b64_char_ncrlf|reflexivity]. Qed.

Lemma hex_enc_ncrlf x : forallb ncrlf (hex_enc x) = true.
Proof.
  induction x as [|[b0 b1 b2 b3 b4 b5 b6 b7] r IH]; [reflexivity|].
  cbn [hex_enc forallb]. rewrite !hex_char_ncrlf, IH. reflexivity.
Qed.

Lemma ncrlf_no_crlf x : forallb ncrlf x = true -> has_crlf x = false.
Proof.
  intros H. unfold has_crlf. eapply existsb_false_of_forallb; [|exact H].
  intros c Hc. unfold ncrlf in Hc. apply Bool.negb_true_iff in Hc. exact Hc.
Qed.

Lemma bytes_text_no_crlf e b : has_crlf (bytes_enc_text e b) = false.
Proof.
  apply ncrlf_no_crlf. destruct e; cbn [bytes_enc_text]; try apply b64_enc_ncrlf. apply hex_enc_ncrlf.
Qed.

Lemma bytes_text_rt e b : bytes_dec_text e (bytes_enc_text e b) = Some b.
Proof. destruct e; cbn [bytes_enc_text bytes_dec_text]; try apply b64_roundtrip. apply hex_roundtrip. Qed.

Lemma bytes_enc_text_nil e : bytes_enc_text e [] = [].
Proof. destruct e; reflexivity. Qed.

Section Values.
Variable E : ExtLib.
Variable sc : schema.

Lemma bytesenc_kind f e : bytesenc_of f = Some e -> f_kind f = KBytes.
Proof. unfold bytesenc_of. destruct (f_kind f); try discriminate. reflexivity. Qed.

Lemma buildable_bytes_card md f e :
  buildable sc FtBytes md = true -> In f (m_fields md) -> bytesenc_of f = Some e ->
  f_card f = Singular \/ f_card f = Optional.
Proof.
  intros Hb Hin He. cbn [buildable] in Hb. rewrite forallb_forall in Hb. specialize (Hb f Hin).
  rewrite He in Hb. destruct (f_card f); try discriminate; auto.
Qed.

Lemma bytes_entry_shape f x :
  f_kind f = KBytes -> (f_card f = Singular \/ f_card f = Optional) -> wt_entry sc f x = true ->
  exists b, x = FS (VBytes b).
Proof.
  intros Hk Hc Hw. unfold wt_entry in Hw. rewrite Hk in Hw.
  destruct x as [sx|cm|l|kv].
  - assert (Hs : wt sc KBytes (FS sx) = true).
    { destruct Hc as [Hc|Hc]; rewrite Hc in Hw; apply andb_prop in Hw; apply Hw. }
    destruct sx; cbn in Hs; try discriminate. eexists. reflexivity.
  - destruct Hc as [Hc|Hc]; rewrite Hc in Hw; cbn in Hw; discriminate.
  - destruct Hc as [Hc|Hc]; rewrite Hc in Hw; discriminate.
  - destruct Hc as [Hc|Hc]; rewrite Hc in Hw; discriminate.
Qed.
End Values.

Section Codec.
Variable E : ExtLib.
Hypothesis EL : ExtLaws E.
Variable sc : schema.

Lemma pj_bytes_no_crlf x0 x : pj_fval E sc KBytes x0 = ROk (JStr x) -> has_crlf x = false.
Proof.
  destruct x0 as [sx|cm|l|kv].
  - rewrite pj_fval_FS. destruct sx; cbn [pj_scalar]; try discriminate. intros H. inversion H.
    apply ncrlf_no_crlf, b64_enc_ncrlf.
  - discriminate.
  - rewrite pj_fval_FL. intros H. apply rbind_ok in H. destruct H as [js [_ H]]. discriminate H.
  - rewrite pj_fval_FMap. intros H. apply rbind_ok in H. destruct H as [js [_ H]]. discriminate H.
Qed.

(* the encoder never leaves a text with CR / LF under an annotated key: such a text is either its own
   or protojson's *)
Lemma enc_bytes_no_crlf md m es f e x :
  NoDup (map jn (m_fields md)) -> m_msg E sc md m = ROk es -> In f (m_fields md) -> bytesenc_of f = Some e ->
  In (jn f, JStr x) (fold_left (astep (act_bytes m)) (m_fields md) es) -> has_crlf x = false.
Proof.
  intros Hnd Hes Hf He Hin.
  destruct (fold_in _ _ _ _ _ Hin) as [[Hin0 _]|[g [_ [_ Ha]]]].
  - destruct (m_msg_in E sc md m es _ _ Hes Hin0) as [name [x0 [f0 [_ [Hk [Hf0 Hpj]]]]]].
    destruct (find_field_spec _ _ _ Hf0) as [Hin0' Hname].
    assert (f0 = f) by (apply (NoDup_map_inj jn _ f0 f Hnd Hin0' Hf); unfold jn at 1; rewrite Hname; symmetry; exact Hk).
    subst f0. rewrite (bytesenc_kind f e He) in Hpj. exact (pj_bytes_no_crlf x0 x Hpj).
  - unfold act_bytes in Ha. destruct (bytesenc_of g) as [e'|]; [|discriminate Ha].
    destruct (mget m (f_name g)) as [[[| | |[|c b]| |]| | |]|]; try discriminate Ha.
    inversion Ha. apply bytes_text_no_crlf.
Qed.

(* C04 for the bytes_encoding codec, all schemas, all well-typed values.  Distinct JSON names and
   "the emitted codec compiles" are not hypotheses: the first is part of well-typedness, the second
   follows from encode returning a JSON value. *)
Theorem bytes_roundtrip : forall tn md m j,
  str_eqb tn ts_name = false -> is_wkt_other tn = false ->
  find_message (all_messages sc) tn = Some md -> owner_of sc md = Own FtBytes ->
  wt sc (KMessage tn) (FM m) = true ->
  encode E sc tn m = ROk j -> decode E sc tn j = ROk (norm sc tn m).
Proof.
  intros tn md m j Hts _ Hfm Hown Hwt Henc.
  rewrite (norm_owned sc tn md FtBytes m (find_lookup sc tn md Hts Hfm) Hown).
  rewrite <- (nmap_id (fun _ x => Some x) md m (fun _ _ => eq_refl)).
  apply (field_codec_roundtrip E sc FtBytes _ tn md m j eq_refl Hts Hfm Hown Hwt); [| | |exact Henc].
  - intros Hb x f jx Hff Hm Hw Hj. cbn [act_of gd_of]. pose proof (proj1 (find_field_spec _ _ _ Hff)) as Hf. destruct (bytesenc_of f) as [e|] eqn:Eb.
    + (* both passes rewrite the text; an empty value is left as protojson's empty text, which every
         encoding reads as empty *)
      pose proof (bytesenc_kind f e Eb) as Hkind.
      destruct (bytes_entry_shape sc f x Hkind (buildable_bytes_card sc md f e Hb Hf Eb) Hw) as [b Hx]. subst x.
      pose proof Hj as Hj'. rewrite Hkind, pj_fval_FS in Hj'. cbn [pj_scalar] in Hj'. inversion Hj'; subst jx.
      assert (Ha : aval (act_bytes m f) (JStr (b64_enc false true b)) = Some (JStr (bytes_enc_text e b))).
      { unfold act_bytes. rewrite Eb, Hm. destruct b; [rewrite bytes_enc_text_nil|]; reflexivity. }
      unfold slot_ok, thru. rewrite Ha. unfold gd_bytes. rewrite Eb, bytes_text_rt. cbn [aval].
      exists (JStr (b64_enc false true b)). split; [reflexivity|].
      exact (entry_rt E EL sc f _ _ (pj_roundtrip_fval E EL sc _) Hw Hj).
    + apply (slot_ok_plain E EL sc); [| |reflexivity|exact Hw|exact Hj].
      * unfold act_bytes. rewrite Eb. reflexivity.
      * unfold gd_bytes. rewrite Eb. reflexivity.
  - intros f v _. apply absent_deleted.
  - intros es Hes Hok _. cbn [dec_of act_of gd_of]. pose proof (msg_ok_jn_NoDup md Hok) as Hnd.
    apply (dec_bytes_gstep md _ Hnd). intros f e x Hf He Hg. apply raw_get_in in Hg.
    exact (enc_bytes_no_crlf md m es f e x Hnd Hes Hf He Hg).
Qed.

(* MarshalJSON never writes CR / LF under an annotated key, so a round trip never reaches the texts on which
   Codec.dec_bytes declines (Go's base64 decoder skips CR / LF, the model does not) *)
Theorem bytes_encode_no_crlf : forall tn md m es k x f e,
  str_eqb tn ts_name = false -> is_wkt_other tn = false ->
  find_message (all_messages sc) tn = Some md -> owner_of sc md = Own FtBytes ->
  wt sc (KMessage tn) (FM m) = true ->
  encode E sc tn m = ROk (JObj es) -> In (k, JStr x) es ->
  field_by_json (m_fields md) k = Some f -> bytesenc_of f = Some e -> has_crlf x = false.
Proof.
  intros tn md m es0 k x f e Hts _ Hfm Hown Hwt Henc Hin Hf Eb.
  destruct (wt_message sc tn m Hts Hwt) as [Hwk [md' [Hfm' [_ [Hok _]]]]].
  rewrite Hfm in Hfm'. inversion Hfm'; subst md'.
  destruct (encode_field_codec E sc tn md FtBytes m _ Hts Hwk Hfm Hown eq_refl Henc) as [es [Hes [_ Hj]]].
  inversion Hj; subst es0. destruct (field_by_json_spec _ _ _ Hf) as [Hinf Hk]. subst k.
  exact (enc_bytes_no_crlf md m es f e x (msg_ok_jn_NoDup md Hok) Hes Hinf Eb Hin).
Qed.
End Codec.
