(* GoJsonFacts.v — Go's encoding/json, as Codec.v models it (gj_fval = json.Marshal, gj_un = json.Unmarshal),
   on values that have no codec of their own: scalars, slices, maps and structs read by reflection.
   The loops of the model are named here, and each is shown to read back what it wrote, given that its
   elements do; the unwrap codecs and the discriminated-oneof codec build on this.  Also here, because both
   json.Unmarshal and protojson.Unmarshal end with it: [assemble] lists the decoded fields in field-number order
   whatever the order of the keys ([assemble_perm]). *)
From Coq Require Import Lia ZArith List Permutation.
From Sebuf Require Import CodecCases.
From SebufProofs Require Import TextFacts ListFacts CodecTextFacts ProtoJsonFacts CodecBase.
From SebufProofs Require NullableFacts BytesFacts ClashFacts.
Import ListNotations.

Open Scope Z_scope.

Lemma rall_ok {A B} (g : A -> res B) l ys :
  rall (map g l) = ROk ys -> Forall2 (fun x y => g x = ROk y) l ys.
Proof.
  revert ys. induction l as [|x r IH]; intros ys H; cbn [map rall] in H.
  - inversion H. constructor.
  - apply rbind_ok in H. destruct H as [a [Ha H]]. apply rbind_ok in H. destruct H as [t [Ht H]].
    inversion H; subst ys. constructor; [exact Ha|apply IH; exact Ht].
Qed.

Lemma rall_F2 {A B} (g : A -> res B) l l' :
  Forall2 (fun a b => g a = ROk b) l l' -> rall (map g l) = ROk l'.
Proof.
  induction 1 as [|a b r r' Hab _ IH]; [reflexivity|]. cbn [map rall]. rewrite Hab. cbn [rbind]. rewrite IH. reflexivity.
Qed.

Lemma rall_map_pointwise {A B} (g : A -> res B) (h : A -> B) l :
  (forall x, In x l -> g x = ROk (h x)) -> rall (map g l) = ROk (map h l).
Proof.
  induction l as [|x r IH]; intros H; [reflexivity|]. cbn [map rall].
  rewrite (H x (or_introl eq_refl)), IH; [reflexivity|]. intros y Hy. apply H. right. exact Hy.
Qed.

Lemma rall_map_ext {A B} (f g : A -> res B) (l : list A) :
  (forall a, In a l -> f a = g a) -> rall (map f l) = rall (map g l).
Proof.
  induction l as [|a r IH]; intros H; [reflexivity|].
  cbn [map rall]. rewrite (H a (or_introl eq_refl)), IH; [reflexivity|].
  intros b Hb. apply H. right. exact Hb.
Qed.

Lemma rbind_not_err {A B} (x : res A) (f : A -> res B) e :
  x >>= f = RErr e -> x = RErr e \/ exists a, x = ROk a /\ f a = RErr e.
Proof. destruct x; simpl; intros H; try discriminate; [right; eauto|left; inversion H; reflexivity]. Qed.

Lemma rall_err_in {A} (l : list (res A)) e : rall l = RErr e -> In (RErr e) l.
Proof.
  induction l as [|x r IH]; cbn [rall]; intros H; [discriminate H|].
  apply rbind_not_err in H. destruct H as [H|[a [_ H]]]; [left; exact H|].
  apply rbind_not_err in H. destruct H as [H|[t [_ H]]]; [right; exact (IH H)|discriminate H].
Qed.

Lemma rall_map_rt {A A' B} (enc : A -> res B) (dec : B -> res A') (g : A -> A') l : forall js,
  rall (map enc l) = ROk js ->
  (forall a b, In a l -> In b js -> enc a = ROk b -> dec b = ROk (g a)) ->
  rall (map dec js) = ROk (map g l).
Proof.
  induction l as [|a r IH]; intros js Hjs H; cbn [map rall] in Hjs.
  - inversion Hjs. reflexivity.
  - apply rbind_ok in Hjs. destruct Hjs as [b [Hb Hjs]]. apply rbind_ok in Hjs. destruct Hjs as [t [Ht Hjs]].
    inversion Hjs; subst js. cbn [map rall].
    rewrite (H a b (or_introl eq_refl) (or_introl eq_refl) Hb). cbn [rbind].
    rewrite (IH t Ht); [reflexivity|]. intros a' b' Ha' Hb'. apply H; right; assumption.
Qed.

Lemma NoDup_flat_map_key {A B C} (g : A -> list B) (h : A -> C) (k : B -> C) (l : list A) :
  (forall a, In a l -> g a = [] \/ exists b, g a = [b] /\ k b = h a) ->
  NoDup (map h l) -> NoDup (map k (flat_map g l)).
Proof.
  induction l as [|a r IH]; intros Hg Hnd; [constructor|]. cbn [map] in Hnd. inversion Hnd as [|x l0 Hnot Hr]; subst.
  cbn [flat_map]. assert (IHr : NoDup (map k (flat_map g r))).
  { apply IH; [intros b Hb; apply Hg; right; exact Hb|exact Hr]. }
  destruct (Hg a (or_introl eq_refl)) as [Hnil|[b [Hb Hk]]]; rewrite ?Hnil, ?Hb; [exact IHr|].
  cbn [app map]. constructor; [|exact IHr].
  intros Hin. apply in_map_iff in Hin. destruct Hin as [b' [Hk' Hin]]. apply in_flat_map in Hin. destruct Hin as [a' [Ha' Hb']].
  destruct (Hg a' (or_intror Ha')) as [Hnil|[b2 [Hb2 Hk2]]]; [rewrite Hnil in Hb'; destruct Hb'|].
  rewrite Hb2 in Hb'. destruct Hb' as [Hb'|[]]. subst b2. apply Hnot. rewrite <- Hk, <- Hk', Hk2. apply in_map. exact Ha'.
Qed.

Lemma flat_map_opt_some {A} (l : list A) : flat_map opt_list (map Some l) = l.
Proof. induction l as [|x r IH]; [reflexivity|]. cbn [map flat_map opt_list app]. rewrite IH. reflexivity. Qed.

Lemma json_size_pos j : (1 <= json_size j)%nat.
Proof. destruct j; cbn [json_size]; lia. Qed.
Lemma json_size_arr_cons x r : json_size (JArr (x :: r)) = (json_size x + json_size (JArr r))%nat.
Proof. cbn [json_size fold_right]. lia. Qed.
Lemma json_size_obj_cons k v r : json_size (JObj ((k, v) :: r)) = (json_size v + json_size (JObj r))%nat.
Proof. cbn [json_size]. lia. Qed.
Lemma json_size_arr_in x l : In x l -> (json_size x < json_size (JArr l))%nat.
Proof.
  induction l as [|y r IH]; intros Hin; [contradiction|]. rewrite json_size_arr_cons.
  pose proof (json_size_pos (JArr r)). pose proof (json_size_pos y).
  destruct Hin as [Hin|Hin]; [subst; lia|specialize (IH Hin); lia].
Qed.
Lemma json_size_obj_in k v kv : In (k, v) kv -> (json_size v < json_size (JObj kv))%nat.
Proof.
  induction kv as [|[k0 v0] r IH]; intros Hin; [contradiction|]. rewrite json_size_obj_cons.
  pose proof (json_size_pos (JObj r)). pose proof (json_size_pos v0).
  destruct Hin as [Hin|Hin]; [inversion Hin; subst; lia|specialize (IH Hin); lia].
Qed.

Lemma is_repeated_card f : is_repeated f = true -> f_card f = Repeated.
Proof. unfold is_repeated. destruct (f_card f); try discriminate; reflexivity. Qed.

Lemma kind_eqb_string kk : kind_eqb kk KString = true -> kk = KString.
Proof. destruct kk; try discriminate; reflexivity. Qed.

Lemma enum_nums_FL_in l y n : In y l -> In n (enum_nums y) -> In n (enum_nums (FL l)).
Proof.
  intros Hy Hn. cbn [enum_nums]. induction l as [|a r IH]; [destruct Hy|].
  apply in_or_app. destruct Hy as [Hy|Hy]; [left; subst a; exact Hn|right; apply IH; exact Hy].
Qed.
Lemma enum_nums_FMap_in (kv : list (sval * fval)) key y n :
  In (key, y) kv -> In n (enum_nums y) -> In n (enum_nums (FMap kv)).
Proof.
  intros Hy Hn. cbn [enum_nums]. induction kv as [|[k a] r IH]; [destruct Hy|].
  apply in_or_app. destruct Hy as [Hy|Hy]; [left; inversion Hy; subst a; exact Hn|right; apply IH; exact Hy].
Qed.

Lemma nonfinite_FL_in k l y : nonfinite_in k (FL l) = false -> In y l -> nonfinite_in k y = false.
Proof.
  cbn [nonfinite_in]. induction l as [|a r IH]; intros H Hy; [destruct Hy|].
  apply Bool.orb_false_iff in H. destruct H as [H1 H2]. destruct Hy as [Hy|Hy]; [subst a; exact H1|apply IH; assumption].
Qed.
Lemma nonfinite_FMap_in k (kv : list (sval * fval)) key y :
  nonfinite_in k (FMap kv) = false -> In (key, y) kv -> nonfinite_in k y = false.
Proof.
  cbn [nonfinite_in]. induction kv as [|[k0 a] r IH]; intros H Hy; [destruct Hy|].
  apply Bool.orb_false_iff in H. destruct H as [H1 H2].
  destruct Hy as [Hy|Hy]; [inversion Hy; subst a; exact H1|apply IH; assumption].
Qed.

Lemma nodup_Z_NoDup l : nodup_Z l = true -> NoDup l.
Proof.
  induction l as [|x r IH]; intros H; [constructor|]. cbn [nodup_Z] in H. apply andb_prop in H. destruct H as [H1 H2].
  constructor; [|apply IH; exact H2]. intros Hin. apply Bool.negb_true_iff in H1.
  assert (existsb (Z.eqb x) r = true) by (apply existsb_exists; exists x; split; [exact Hin|apply Z.eqb_refl]). congruence.
Qed.
Lemma sorted_Z_NoDup l : sorted_Z l = true -> NoDup l.
Proof.
  induction l as [|x r IH]; intros H; [constructor|]. cbn [sorted_Z] in H. apply andb_prop in H. destruct H as [H1 H2].
  constructor; [|apply IH; exact H2]. exact (lt_all_notin x r H1).
Qed.

(* [assemble] inserts each decoded field, keyed by its number, into a number-sorted list ([step], insert_by_num).
   A list sorted by distinct keys is determined by its elements ([sorted_k_perm_eq]); hence assemble of any
   permutation of the populated fields is the listing by field number ([assemble_perm]). *)
Definition keyed := (Z * (str * fval))%type.
Fixpoint lt_all_k (x : Z) (l : list keyed) : Prop := match l with [] => True | y :: r => x < fst y /\ lt_all_k x r end.
Fixpoint sorted_k (l : list keyed) : Prop := match l with [] => True | x :: r => lt_all_k (fst x) r /\ sorted_k r end.

Lemma lt_all_k_in x l y : lt_all_k x l -> In y l -> x < fst y.
Proof. induction l as [|z r IH]; cbn [lt_all_k]; intros H []; [subst; apply H|apply IH; [apply H|assumption]]. Qed.
Lemma lt_all_k_of x l : (forall y, In y l -> x < fst y) -> lt_all_k x l.
Proof.
  induction l as [|z r IH]; cbn [lt_all_k]; intros H; [exact I|].
  split; [apply H; left; reflexivity|apply IH; intros y Hy; apply H; right; exact Hy].
Qed.

Lemma insert_in n e l y : In y (insert_by_num n e l) <-> y = (n, e) \/ In y l.
Proof.
  induction l as [|[n' e'] r IH]; cbn [insert_by_num].
  - cbn [In]. split; intros [H|[]]; left; symmetry; exact H.
  - destruct (n <=? n'); cbn [In].
    + split; (intros [H|H]; [left; symmetry; exact H|right; exact H]).
    + rewrite IH. split; intros [H|[H|H]]; auto.
Qed.
Lemma insert_sorted n e l : sorted_k l -> ~ In n (map fst l) -> sorted_k (insert_by_num n e l).
Proof.
  induction l as [|[n' e'] r IH]; cbn [insert_by_num]; intros Hs Hn.
  - cbn. auto.
  - destruct (Z.leb_spec n n') as [Hle|Hgt].
    + assert (Hlt : n < n'). { destruct (Z.eq_dec n n') as [->|]; [exfalso; apply Hn; left; reflexivity|lia]. }
      cbn [sorted_k lt_all_k fst]. split; [|exact Hs]. split; [exact Hlt|].
      apply lt_all_k_of. intros y Hy. cbn [sorted_k] in Hs. pose proof (lt_all_k_in _ _ y (proj1 Hs) Hy). cbn [fst] in *. lia.
    + cbn [sorted_k] in *. destruct Hs as [Hs1 Hs2]. split.
      * apply lt_all_k_of. intros y Hy. apply insert_in in Hy. destruct Hy as [->|Hy]; [cbn [fst]; lia|].
        apply (lt_all_k_in _ _ y Hs1 Hy).
      * apply IH; [exact Hs2|]. intros Hin. apply Hn. right. exact Hin.
Qed.
Lemma insert_perm n e l : Permutation (insert_by_num n e l) ((n, e) :: l).
Proof.
  induction l as [|[n' e'] r IH]; cbn [insert_by_num]; [apply Permutation_refl|].
  destruct (n <=? n'); [apply Permutation_refl|].
  eapply perm_trans; [apply perm_skip; exact IH|apply perm_swap].
Qed.

Lemma sorted_k_perm_eq (l1 l2 : list keyed) : sorted_k l1 -> sorted_k l2 -> Permutation l1 l2 -> l1 = l2.
Proof.
  revert l2. induction l1 as [|a r1 IH]; intros l2 H1 H2 HP.
  - apply Permutation_nil in HP. subst. reflexivity.
  - destruct l2 as [|b r2]; [apply Permutation_sym, Permutation_nil in HP; discriminate HP|].
    assert (Hab : a = b).
    { assert (Ha : In a (b :: r2)) by (eapply Permutation_in; [exact HP|left; reflexivity]).
      assert (Hb : In b (a :: r1)) by (eapply Permutation_in; [apply Permutation_sym; exact HP|left; reflexivity]).
      destruct Ha as [Ha|Ha]; [symmetry; exact Ha|]. destruct Hb as [Hb|Hb]; [exact Hb|].
      cbn [sorted_k] in H1, H2. pose proof (lt_all_k_in _ _ _ (proj1 H1) Hb). pose proof (lt_all_k_in _ _ _ (proj1 H2) Ha). lia. }
    subst b. f_equal. apply IH; [apply H1|apply H2|]. eapply Permutation_cons_inv. exact HP.
Qed.

Definition tagk (fv : field * fval) : keyed := (f_number (fst fv), (f_name (fst fv), snd fv)).

Lemma fold_step_perm fvs :
  Forall (fun fv => populated (fst fv) (snd fv) = true) fvs ->
  Permutation (fold_right step [] fvs) (map tagk fvs).
Proof.
  induction 1 as [|fv r Hp _ IH]; [apply Permutation_refl|]. cbn [fold_right map]. unfold step at 1. rewrite Hp.
  eapply perm_trans; [apply insert_perm|]. apply perm_skip. exact IH.
Qed.
Lemma fold_step_sorted fvs :
  Forall (fun fv => populated (fst fv) (snd fv) = true) fvs ->
  NoDup (map (fun fv => f_number (fst fv)) fvs) -> sorted_k (fold_right step [] fvs).
Proof.
  intros Hp. induction Hp as [|fv r Hfv Hr IH]; intros Hnd; [exact I|]. cbn [fold_right map] in *. unfold step at 1. rewrite Hfv.
  inversion Hnd as [|x l Hx Hl]; subst. apply insert_sorted; [apply IH; exact Hl|].
  intros Hin. apply Hx.
  assert (HP : Permutation (map fst (fold_right step [] r)) (map fst (map tagk r))) by (apply Permutation_map, fold_step_perm; exact Hr).
  rewrite map_map in HP. cbn [tagk fst] in HP. eapply Permutation_in; [exact HP|exact Hin].
Qed.

Lemma sorted_Z_sorted_k (l : list keyed) : sorted_Z (map fst l) = true -> sorted_k l.
Proof.
  induction l as [|x r IH]; intros H; [exact I|]. cbn [map sorted_Z] in H. apply andb_prop in H. destruct H as [H1 H2].
  split; [|apply IH; exact H2]. apply lt_all_k_of. intros y Hy.
  apply (lt_all_Z_in (fst x) (map fst r) (fst y) H1). apply in_map. exact Hy.
Qed.

Lemma assemble_perm fvs cfvs :
  Forall (fun fv => populated (fst fv) (snd fv) = true) fvs ->
  sorted_Z (map (fun fv => f_number (fst fv)) cfvs) = true ->
  Permutation fvs cfvs ->
  assemble fvs = map (fun fv => (f_name (fst fv), snd fv)) cfvs.
Proof.
  intros Hp Hs HP. unfold assemble. change (fold_right _ [] fvs) with (fold_right step [] fvs).
  assert (Heq : fold_right step [] fvs = map tagk cfvs).
  { apply sorted_k_perm_eq.
    - apply fold_step_sorted; [exact Hp|].
      eapply Permutation_NoDup; [apply Permutation_map, Permutation_sym; exact HP|]. apply sorted_Z_NoDup. exact Hs.
    - apply sorted_Z_sorted_k. rewrite map_map. exact Hs.
    - eapply perm_trans; [apply fold_step_perm; exact Hp|]. apply Permutation_map. exact HP. }
  rewrite Heq, map_map. reflexivity.
Qed.

(* the values json.Unmarshal meets below a field *)
Definition elems (x : fval) : list fval :=
  match x with FL l => l | FMap kv => map snd kv | _ => [x] end.

Lemma enum_nums_elems x y z : In y (elems x) -> In z (enum_nums y) -> In z (enum_nums x).
Proof.
  destruct x as [sx|cm|l|kv]; cbn [elems]; intros Hy Hz.
  - destruct Hy as [<-|[]]. exact Hz.
  - destruct Hy as [<-|[]]. exact Hz.
  - exact (enum_nums_FL_in l y z Hy Hz).
  - apply in_map_iff in Hy. destruct Hy as [[key y'] [Hy' Hy]]. cbn [snd] in Hy'. subst y'.
    exact (enum_nums_FMap_in kv key y z Hy Hz).
Qed.

Section Shapes.
Variable sc : schema.

Lemma elems_self k x : wt sc k x = true -> In x (elems x).
Proof. destruct x; intros H; try (cbn [wt] in H; discriminate H); left; reflexivity. Qed.

Lemma wt_entry_elems f x y : wt_entry sc f x = true -> In y (elems x) -> wt sc (f_kind f) y = true.
Proof.
  intros H Hy. destruct (wt_entry_inv sc f x H) as [_ Hsh]. destruct x as [sx|cm|l|kv]; cbn [elems] in Hy.
  - destruct Hy as [<-|[]]. exact (proj2 Hsh).
  - destruct Hy as [<-|[]]. exact (proj2 Hsh).
  - exact (proj2 Hsh y Hy).
  - apply in_map_iff in Hy. destruct Hy as [[key y'] [Hy' Hy]]. cbn [snd] in Hy'. subst y'.
    destruct Hsh as [kk [_ [_ Hw]]]. exact (proj2 (Hw key y Hy)).
Qed.
End Shapes.

(* the number of an enum value written by an emitted enum MarshalJSON is read back by UnmarshalJSON: the number
   is declared (an undefined number is written as "99" and refused) and the text written for it — custom
   enum_value or proto name — names, first, a value with the same number *)
Definition enum_back (sc : schema) (k : kind) (n : Z) : bool :=
  match k with
  | KEnum tn =>
      match find_enum (all_enums sc) tn with
      | Some e =>
          negb (enum_codec e) ||
          match ev_by_number (e_values e) n with
          | Some v => match ev_by_json (e_values e) (ev_json v) with
                      | Some v' => ev_number v' =? n
                      | None => false
                      end
          | None => false
          end
      | None => true
      end
  | _ => true
  end.

Lemma enum_back_no_codec sc k n : enum_with_codec sc k = false -> enum_back sc k n = true.
Proof.
  destruct k as [| | | | | | | | | | | | | | |tn|tn]; try reflexivity. cbn [enum_with_codec enum_back].
  destruct (find_enum (all_enums sc) tn); [|reflexivity]. intros H. rewrite H. reflexivity.
Qed.

Lemma b64_std_no_crlf x : has_crlf (b64_enc false true x) = false.
Proof. apply BytesFacts.ncrlf_no_crlf. apply BytesFacts.b64_enc_ncrlf. Qed.

Section Scalars.
Variable E : ExtLib.
Hypothesis EL : ExtLaws E.
Variable sc : schema.

Lemma gj_float_rt (w : bool) k b j :
  k = (if w then KDouble else KFloat) ->
  float_ok w b = true ->
  match fclassify w b with
  | FFinite => match x_fprint E w b with Some j => ROk j | None => RUnm (s "float value missing from the print table") end
  | _ => RErr (s "json: unsupported value")
  end = ROk j ->
  gj_unscalar E sc k j = ROk (Some (VFloat b)).
Proof.
  intros Hk Hok Hj. unfold float_ok in Hok.
  destruct (fclassify w b); try discriminate Hj.
  destruct (x_fprint E w b) as [j'|] eqn:Ep; [|discriminate Hj]. inversion Hj; subst j'. clear Hj.
  apply Z.leb_le in Hok.
  assert (Hscan : exists b64 b32, x_fscan E j = Some (b64, b32) /\ (if w then b64 else b32) = b).
  { destruct w.
    - destruct (law_f64 E EL _ _ Ep) as [b32 Hs]. exists b, b32. split; [exact Hs|reflexivity].
    - destruct (law_f32 E EL _ _ Ep) as [b64 Hs]. exists b64, b. split; [exact Hs|reflexivity]. }
  destruct Hscan as [b64 [b32 [Hs Hb]]].
  assert (Hlt : (b <? 0) = false) by (apply Z.ltb_ge; lia).
  destruct (law_fprint_num E EL _ _ _ Ep) as [[z Hz]|[f Hf]]; subst j.
  - destruct w; subst k; cbn [gj_unscalar is_jnumber]; rewrite Hs; subst b; rewrite Hlt; reflexivity.
  - unfold jflt in *.
    assert (Hn : is_jnumber (JObj [(s "$f", JNum f)]) = true) by reflexivity.
    destruct w; subst k; cbn [gj_unscalar]; rewrite Hn, Hs; subst b; rewrite Hlt; reflexivity.
Qed.

Lemma gj_scalar_rt k x j :
  wt_scalar sc k x = true -> (forall n, x = VEnum n -> enum_back sc k n = true) ->
  gj_scalar E sc k x = ROk j -> gj_unscalar E sc k j = ROk (Some x).
Proof.
  intros Hwt Hgj Hj.
  destruct x as [z|b|x|x|b|n].
  - assert (Hw : (is_int32_kind k || is_int64_kind k) = true /\ in_int_range k z = true).
    { destruct k; try discriminate Hwt; apply andb_prop; exact Hwt. }
    destruct Hw as [Hw1 Hw2].
    assert (Hjz : j = JNum z).
    { destruct k; cbn in Hw1; try discriminate Hw1; cbn in Hj; inversion Hj; reflexivity. }
    subst j.
    destruct k; cbn in Hw1; try discriminate Hw1; cbn [gj_unscalar]; rewrite Hw2; reflexivity.
  - destruct k; cbn in Hwt; try discriminate Hwt. cbn in Hj. inversion Hj; subst j. reflexivity.
  - destruct k; cbn in Hwt; try discriminate Hwt. cbn in Hj. inversion Hj; subst j. reflexivity.
  - destruct k; cbn in Hwt; try discriminate Hwt. cbn in Hj. inversion Hj; subst j.
    cbn [gj_unscalar]. rewrite b64_std_no_crlf, b64_roundtrip. reflexivity.
  - destruct k; cbn [wt_scalar] in Hwt; try discriminate Hwt; cbn [gj_scalar] in Hj.
    + exact (gj_float_rt true KDouble b j eq_refl Hwt Hj).
    + exact (gj_float_rt false KFloat b j eq_refl Hwt Hj).
  - specialize (Hgj n eq_refl).
    destruct k; cbn [wt_scalar] in Hwt; try discriminate Hwt.
    cbn [gj_scalar] in Hj. unfold gj_enum in Hj. cbn [enum_back] in Hgj. cbn [gj_unscalar].
    destruct (find_enum (all_enums sc) tn) as [e|]; [|discriminate Hwt].
    unfold enum_rt in Hwt. apply andb_prop in Hwt. destruct Hwt as [Hr _].
    destruct (enum_codec e).
    + cbn [negb orb] in Hgj.
      destruct (ev_by_number (e_values e) n) as [v|]; [|discriminate Hgj].
      inversion Hj; subst j.
      destruct (ev_by_json (e_values e) (ev_json v)) as [v'|]; [|discriminate Hgj].
      apply Z.eqb_eq in Hgj. rewrite Hgj. reflexivity.
    + inversion Hj; subst j. rewrite Hr. reflexivity.
Qed.

Lemma gj_scalar_not_null k x j : gj_scalar E sc k x = ROk j -> j <> JNull.
Proof.
  intros H Hn. subst j.
  assert (Hfl : forall w b,
    match fclassify w b with
    | FFinite => match x_fprint E w b with Some j => ROk j | None => RUnm (s "float value missing from the print table") end
    | _ => RErr (s "json: unsupported value")
    end = ROk JNull -> False).
  { intros w b Hf. destruct (fclassify w b); try discriminate Hf.
    destruct (x_fprint E w b) as [j'|] eqn:Ep; [|discriminate Hf]. inversion Hf; subst j'.
    destruct (law_fprint_num E EL _ _ _ Ep) as [[z Hz]|[f Hz]]; discriminate Hz. }
  destruct x as [z|b|x|x|b|n].
  - destruct k; cbn [gj_scalar is_int32_kind is_int64_kind orb] in H; discriminate H.
  - destruct k; cbn [gj_scalar] in H; discriminate H.
  - destruct k; cbn [gj_scalar] in H; discriminate H.
  - destruct k; cbn [gj_scalar] in H; discriminate H.
  - destruct k; cbn [gj_scalar] in H; try discriminate H; exact (Hfl _ _ H).
  - destruct k; cbn [gj_scalar] in H; try discriminate H.
    unfold gj_enum in H. destruct (find_enum (all_enums sc) tn) as [e|]; [|discriminate H].
    destruct (enum_codec e); [destruct (ev_by_number (e_values e) n)|]; discriminate H.
Qed.
End Scalars.

Section Loops.
Variable E : ExtLib.
Variable sc : schema.

Definition gj_list (k : kind) : list fval -> res (list json) :=
  fix go (l : list fval) : res (list json) :=
    match l with
    | [] => ROk []
    | x :: r => gj_fval E sc k x >>= (fun j => go r >>= (fun t => ROk (j :: t)))
    end.
Definition gj_map (k : kind) : list (sval * fval) -> res (list (str * json)) :=
  fix go (kv : list (sval * fval)) : res (list (str * json)) :=
    match kv with
    | [] => ROk []
    | (key, x) :: r => gj_key_text key >>= (fun kt => gj_fval E sc k x >>= (fun j => go r >>= (fun t => ROk ((kt, j) :: t))))
    end.
(* the reflection encoder's loop over the populated fields (`json:"<proto_name>,omitempty"` drops empty bytes) *)
Definition gj_msg (md : message) : list (str * fval) -> res (list (str * json)) :=
  fix go (m : list (str * fval)) : res (list (str * json)) :=
    match m with
    | [] => ROk []
    | (name, x) :: r =>
        match find_field (m_fields md) name with
        | None => RUnm (s "value names an undeclared field")
        | Some f =>
            match x with
            | FS (VBytes []) => go r
            | _ => gj_fval E sc (f_kind f) x >>= (fun j => go r >>= (fun t => ROk ((name, j) :: t)))
            end
        end
    end.

Lemma gj_fval_FS k x : gj_fval E sc k (FS x) = gj_scalar E sc k x.
Proof. reflexivity. Qed.
Lemma gj_fval_FL k l : gj_fval E sc k (FL l) = gj_list k l >>= (fun js => ROk (JArr js)).
Proof. reflexivity. Qed.
Lemma gj_fval_FMap k kv : gj_fval E sc k (FMap kv) = gj_map k kv >>= (fun es => ROk (JObj es)).
Proof. reflexivity. Qed.
Lemma gj_fval_reflect tn md m :
  is_wkt_other tn = false -> lookup_message sc tn = Some md -> owner_of sc md = OwnNone ->
  gj_fval E sc (KMessage tn) (FM m) =
  if real_oneof_set md m then RUnm (s "encoding/json on a struct with a populated oneof")
  else gj_msg md m >>= (fun es => ROk (JObj es)).
Proof. intros H1 H2 H3. cbn [gj_fval]. apply (owner_branch _ _ md _ OwnNone _ _ _ _ _ _ H1 H2 H3). reflexivity. Qed.

Definition gj_entry (k : kind) (e : sval * fval) : res (str * json) :=
  gj_key_text (fst e) >>= (fun kt => gj_fval E sc k (snd e) >>= (fun j => ROk (kt, j))).

Lemma gj_list_rall k l : gj_list k l = rall (map (gj_fval E sc k) l).
Proof. induction l as [|x r IH]; [reflexivity|]. cbn [gj_list map rall]. fold (gj_list k r). rewrite IH. reflexivity. Qed.
Lemma gj_map_rall k kv : gj_map k kv = rall (map (gj_entry k) kv).
Proof.
  induction kv as [|[key x] r IH]; [reflexivity|]. cbn [gj_map map rall]. fold (gj_map k r). rewrite IH.
  unfold gj_entry. cbn [fst snd].
  destruct (gj_key_text key) as [kt|?|?]; cbn [rbind]; try reflexivity.
  destruct (gj_fval E sc k x) as [j|?|?]; cbn [rbind]; reflexivity.
Qed.

Lemma gj_msg_cons md name x r f :
  find_field (m_fields md) name = Some f -> (match x with FS (VBytes []) => true | _ => false end) = false ->
  gj_msg md ((name, x) :: r) = gj_fval E sc (f_kind f) x >>= (fun j => gj_msg md r >>= (fun t => ROk ((name, j) :: t))).
Proof.
  intros Hf He. cbn [gj_msg]. rewrite Hf.
  destruct x as [[z|b|y|[|c y]|b|n]|cm|l|kv]; try reflexivity. discriminate He.
Qed.

Definition list_un (n : nat) (ek : kind) (jv : json) : res (option fval) :=
  match jv with
  | JNull => ROk None
  | JArr l =>
      rall (map (fun x => gj_un E sc n ek x >>= (fun o =>
              match o with Some v => ROk v | None => RUnm (s "null element in an array") end)) l)
      >>= (fun vs => ROk (Some (FL vs)))
  | _ => RErr (s "json: cannot unmarshal into slice")
  end.
Definition map_un (n : nat) (kk ek : kind) (jv : json) : res (option fval) :=
  match jv with
  | JNull => ROk None
  | JObj kv =>
      if kind_eqb kk KBool then RErr (s "json: cannot unmarshal object into Go value of type map[bool]") else
      rall (map (fun e => key_of_text kk (fst e) >>= (fun key => gj_un E sc n ek (snd e) >>= (fun o =>
              match o with Some v => ROk (key, v) | None => RUnm (s "null map value") end))) kv)
      >>= (fun es => ROk (Some (FMap (sort_entries es))))
  | _ => RErr (s "json: cannot unmarshal into map")
  end.
(* one field of a struct read by reflection, by its cardinality *)
Definition un_value (n : nat) (f : field) (jv : json) : res (option fval) :=
  match f_card f with
  | Repeated => list_un n (f_kind f) jv
  | MapOf kk => map_un n kk (f_kind f) jv
  | _ => gj_un E sc n (f_kind f) jv
  end.
Definition un_field (n : nat) (md : message) (e : str * json) : res (option (field * fval)) :=
  match field_by_fold md (fst e) with
  | None => ROk None
  | Some f => un_value n f (snd e) >>= (fun o => ROk (option_map (fun v => (f, v)) o))
  end.
(* the struct fields the keys of an object address (exact name, else case-folded) *)
Definition key_fields (md : message) (kv : list (str * json)) : list field :=
  flat_map (fun e => opt_list (field_by_fold md (fst e))) kv.

Lemma gj_un_scalar n k j :
  is_msgk k = false -> gj_un E sc (S n) k j = gj_unscalar E sc k j >>= (fun o => ROk (option_map FS o)).
Proof. intros H. destruct k; try discriminate H; reflexivity. Qed.

Lemma gj_un_reflect n tn md kv :
  is_wkt_other tn = false -> lookup_message sc tn = Some md -> owner_of sc md = OwnNone -> has_real_oneof md = false ->
  gj_un E sc (S n) (KMessage tn) (JObj kv) =
  if clash_unm (key_fields md kv)
  then RUnm (s "two keys of one object address the same slice, map, pointer or struct field") else
  rall (map (un_field n md) kv) >>= (fun ofs => ROk (Some (FM (assemble (last_wins (flat_map opt_list ofs)))))).
Proof. intros H1 H2 H3 H4. cbn [gj_un]. apply (owner_branch _ _ md _ OwnNone _ _ _ _ _ _ H1 H2 H3). rewrite H4. reflexivity. Qed.

Lemma field_by_fold_exact md name f : find_field (m_fields md) name = Some f -> field_by_fold md name = Some f.
Proof. intros H. unfold field_by_fold. rewrite H. reflexivity. Qed.

Lemma gj_un_struct n tn md es fvs :
  is_wkt_other tn = false -> lookup_message sc tn = Some md -> owner_of sc md = OwnNone -> msg_ok md = true ->
  rall (map (un_field n md) es) = ROk (map Some fvs) -> key_fields md es = map fst fvs ->
  NoDup (map (fun e : field * fval => f_name (fst e)) fvs) ->
  gj_un E sc (S n) (KMessage tn) (JObj es) = ROk (Some (FM (assemble fvs))).
Proof.
  intros Hwk Hlk Hown Hok Hu Hkf Hnames.
  rewrite (gj_un_reflect n tn md es Hwk Hlk Hown (msg_ok_no_real_oneof md Hok)).
  rewrite Hkf, (ClashFacts.clash_unm_nodup (map fst fvs)) by (rewrite map_map; exact Hnames).
  rewrite Hu. cbn [rbind]. rewrite flat_map_opt_some, (ClashFacts.last_wins_nodup fvs Hnames). reflexivity.
Qed.

(* the child MarshalJSON hands to json.Marshal for a populated field: rendered, or refused with an error that the
   body passes on (a value outside the model stops the loop) *)
Lemma kid_of_kids ft md m ks :
  kids_loop E sc ft md m = ROk ks ->
  forall name x f, mget m name = Some x -> find_field (m_fields md) name = Some f ->
  needs_gj sc ft md f = true ->
  kid ks name = gj_fval E sc (f_kind f) x /\ forall w, gj_fval E sc (f_kind f) x <> RUnm w.
Proof.
  revert ks. induction m as [|[n0 x0] r IH]; intros ks Hks name x f Hget Hf Hn; [discriminate Hget|].
  cbn [kids_loop] in Hks. cbn [mget] in Hget.
  destruct (find_field (m_fields md) n0) as [f0|] eqn:Ef0; [|discriminate Hks].
  destruct (str_eqb name n0) eqn:En.
  - apply str_eqb_eq in En. subst n0. inversion Hget; subst x0. rewrite Hf in Ef0. inversion Ef0; subst f0.
    rewrite Hn in Hks.
    destruct (gj_fval E sc (f_kind f) x) as [j|e|w] eqn:Eg; try discriminate Hks;
      apply rbind_ok in Hks; destruct Hks as [t [_ Hks]]; inversion Hks; subst ks;
      cbn [kid]; rewrite str_eqb_refl; (split; [reflexivity|intros w; discriminate]).
  - destruct (needs_gj sc ft md f0).
    + destruct (gj_fval E sc (f_kind f0) x0) as [j|e|w]; try discriminate Hks;
        apply rbind_ok in Hks; destruct Hks as [t [Ht Hks]]; inversion Hks; subst ks;
        cbn [kid]; rewrite En; exact (IH t Ht name x f Hget Hf Hn).
    + exact (IH ks Hks name x f Hget Hf Hn).
Qed.

Lemma gj_key_text_pj key t : gj_key_text key = ROk t -> key_text key = ROk t.
Proof. destruct key; cbn; intros H; try discriminate H; exact H. Qed.

(* The fuel [m] is a variable: at a successor, gj_un would unfold into the whole decoder wherever a hypothesis
   has to be matched against the goal up to conversion. *)
Lemma list_un_rt m k l j :
  gj_fval E sc k (FL l) = ROk j ->
  (forall y b, In y l -> gj_fval E sc k y = ROk b -> (json_size b < json_size j)%nat -> gj_un E sc m k b = ROk (Some y)) ->
  list_un m k j = ROk (Some (FL l)) /\ j <> JNull.
Proof.
  intros Hj H. rewrite gj_fval_FL, gj_list_rall in Hj. apply rbind_ok in Hj. destruct Hj as [js [Hjs Hj]].
  inversion Hj; subst j. split; [|discriminate]. cbn [list_un].
  rewrite (rall_map_rt _ _ (fun y => y) l js Hjs).
  - rewrite map_id. reflexivity.
  - intros y b Hy Hb Hyb. rewrite (H y b Hy Hyb (json_size_arr_in b js Hb)). reflexivity.
Qed.

Lemma map_un_rt m kk k kv j :
  kv <> [] -> sorted_key (map fst kv) = true -> (forall key y, In (key, y) kv -> wt_key kk key = true) ->
  gj_fval E sc k (FMap kv) = ROk j ->
  (forall key y b, In (key, y) kv -> gj_fval E sc k y = ROk b -> (json_size b < json_size j)%nat ->
                   gj_un E sc m k b = ROk (Some y)) ->
  map_un m kk k j = ROk (Some (FMap kv)) /\ j <> JNull.
Proof.
  intros Hne Hs Hwk Hj H. rewrite gj_fval_FMap, gj_map_rall in Hj. apply rbind_ok in Hj. destruct Hj as [es [Hes Hj]].
  inversion Hj; subst j. split; [|discriminate]. cbn [map_un].
  (* json.Marshal wrote the map, so its keys are no bools: the target map is one json.Unmarshal accepts *)
  assert (Hkb : kind_eqb kk KBool = false).
  { destruct kv as [|[key y] t]; [contradiction|]. pose proof (Hwk key y (or_introl eq_refl)) as Hw.
    cbn [map rall] in Hes. apply rbind_ok in Hes. destruct Hes as [p [Hp _]]. unfold gj_entry in Hp. cbn [fst] in Hp.
    apply rbind_ok in Hp. destruct Hp as [kt [Hkt _]].
    destruct key as [z|b|y0|y0|b|z]; try discriminate Hkt; destruct kk; try discriminate Hw; reflexivity. }
  rewrite Hkb, (rall_map_rt _ _ (fun e => e) kv es Hes).
  - rewrite map_id. cbn [rbind]. rewrite (sorted_key_sort kv Hs). reflexivity.
  - intros [key y] [kt b] Hy Hb Hyb. unfold gj_entry in Hyb. cbn [fst snd] in Hyb |- *.
    apply rbind_ok in Hyb. destruct Hyb as [kt' [Hkt Hyb]]. apply rbind_ok in Hyb. destruct Hyb as [b' [Hb' Hyb]].
    inversion Hyb; subst kt' b'.
    rewrite (key_rt kk key kt (Hwk key y Hy) (gj_key_text_pj key kt Hkt)). cbn [rbind].
    rewrite (H key y b Hy Hb' (json_size_obj_in kt b es Hb)). reflexivity.
Qed.

Lemma un_value_rt m f x j :
  wt_entry sc f x = true -> gj_fval E sc (f_kind f) x = ROk j ->
  (forall y b, In y (elems x) -> gj_fval E sc (f_kind f) y = ROk b -> (json_size b <= json_size j)%nat ->
               gj_un E sc m (f_kind f) b = ROk (Some y)) ->
  un_value m f j = ROk (Some x).
Proof.
  intros Hwe Hj H. destruct (wt_entry_inv sc f x Hwe) as [Hpop Hsh]. unfold un_value.
  destruct x as [sx|cm|l|kv]; cbn [elems] in H.
  - destruct Hsh as [[Hc|Hc] _]; rewrite Hc; exact (H _ j (or_introl eq_refl) Hj (le_n _)).
  - destruct Hsh as [[Hc|Hc] _]; rewrite Hc; exact (H _ j (or_introl eq_refl) Hj (le_n _)).
  - destruct Hsh as [Hc _]. rewrite Hc. apply (list_un_rt m (f_kind f) l j Hj).
    intros y b Hy Hb Hlt. apply (H y b Hy Hb). lia.
  - destruct Hsh as [kk [Hc [Hs Hw]]]. rewrite Hc. apply (map_un_rt m kk (f_kind f) kv j); try assumption.
    + intros Hnil. subst kv. discriminate Hpop.
    + intros key y Hy. apply (Hw key y Hy).
    + intros key y b Hy Hb Hlt. apply (H y b); [|exact Hb|lia]. apply in_map_iff. exists (key, y). auto.
Qed.
End Loops.

Section ScalarValues.
Variable E : ExtLib.
Hypothesis EL : ExtLaws E.
Variable sc : schema.

Lemma gj_elem_rt n k y j :
  is_msgk k = false -> wt sc k y = true -> (forall z, In z (enum_nums y) -> enum_back sc k z = true) ->
  gj_fval E sc k y = ROk j -> gj_un E sc (S n) k j = ROk (Some y).
Proof.
  intros Hk Hw Hen Hj. destruct (wt_nonmsg_scalar sc k y Hk Hw) as [x [Hy Hwx]]. subst y.
  rewrite (gj_un_scalar E sc n k j Hk), (gj_scalar_rt E EL sc k x j Hwx); [reflexivity| |exact Hj].
  intros z Hz. subst x. apply Hen. left. reflexivity.
Qed.

Lemma scalar_value_rt n f x j :
  is_msgk (f_kind f) = false -> wt_entry sc f x = true ->
  (forall z, In z (enum_nums x) -> enum_back sc (f_kind f) z = true) ->
  gj_fval E sc (f_kind f) x = ROk j -> un_value E sc (S n) f j = ROk (Some x) /\ j <> JNull.
Proof.
  intros Hk Hwe Hen Hj. split.
  - apply (un_value_rt E sc (S n) f x j Hwe Hj). intros y b Hy Hb _.
    apply (gj_elem_rt n _ y b Hk (wt_entry_elems sc f x y Hwe Hy)); [|exact Hb].
    intros z Hz. apply Hen. exact (enum_nums_elems x y z Hy Hz).
  - destruct (wt_entry_inv sc f x Hwe) as [_ Hsh].
    destruct x as [sx|cm|l|kv].
    + exact (gj_scalar_not_null E EL sc _ _ j Hj).
    + exfalso. destruct Hsh as [_ Hw]. destruct (f_kind f); try discriminate Hw. discriminate Hk.
    + rewrite gj_fval_FL in Hj. apply rbind_ok in Hj. destruct Hj as [js [_ Hj]]. inversion Hj. discriminate.
    + rewrite gj_fval_FMap in Hj. apply rbind_ok in Hj. destruct Hj as [es [_ Hj]]. inversion Hj. discriminate.
Qed.
End ScalarValues.
Close Scope Z_scope.
