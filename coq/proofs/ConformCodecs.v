(* ConformCodecs.v — C06 for top-level messages owned by ONE field codec: nullable, int64_encoding = NUMBER,
   bytes_encoding, timestamp_format, empty_behavior.  The JSON the server sends (Codec.encode, which is the
   documented form Mapping.to_json by conforms_nullable, conforms_int64, conforms_bytes, conforms_ts and conforms_empty of
   the five *Conforms.v files) validates against the component schema the
   OpenAPI document publishes for the message, and carries no property that schema does not describe.
   Fields fall into classes by what convertField publishes for them; one populated field of each class conforms to its
   property; the documented form of a whole message is taken entry by entry (spec_message_conforms, any mix of the five
   annotations); the five codecs follow through the conforms theorems; witnesses show non-vacuity, the side conditions
   that are needed, and a nullable enum field, whose schema lists null among its values since /repo 5062ef6. *)
From Coq Require Import Lia ZArith List.
From Sebuf Require Import Conform.
From SebufProofs Require Import JsonSchemaFacts RulesFacts OpenApiFacts TextFacts ListFacts CodecTextFacts ProtoJsonFacts CodecExamples MappingFacts ConformFacts.
From SebufProofs Require Import NullableFacts NullableConforms Int64Facts Int64Conforms BytesFacts BytesConforms.
From SebufProofs Require Import TimestampFacts TimestampConforms EmptyFacts EmptyConforms.
Import ListNotations.

(* the field without any sebuf annotation *)
Definition strip (f : field) : field :=
  {| f_name := f_name f; f_number := f_number f; f_kind := f_kind f; f_card := f_card f; f_oneof := f_oneof f; f_query := f_query f;
     f_unwrap := false; f_int64 := None; f_enumenc := None; f_nullable := None; f_empty := None; f_tsfmt := None;
     f_bytesenc := None; f_oneof_value := None; f_flatten := None; f_flatten_prefix := None |}.

Lemma strip_plain f : MappingFacts.plain_field (strip f) = true.
Proof. reflexivity. Qed.
Lemma strip_wt_entry sc f x : wt_entry sc (strip f) x = wt_entry sc f x.
Proof. reflexivity. Qed.

Definition singularish (f : field) : bool := match f_card f with Singular | Optional => true | _ => false end.
Definition empty_null (f : field) : bool := match f_empty f with Some EBNull => true | _ => false end.

(* no annotation that changes the rendering of the field's own scalars / Timestamps is in force *)
Definition sc_plainish (f : field) : bool :=
  negb (ProtoJson.is_int64_kind (f_kind f) && i64_number f) && is_none (f_enumenc f) && is_none (f_bytesenc f) && is_none (f_tsfmt f).

(* kinds nullable = true may sit on: every kind but a message (nullable.go:60-67), enums included *)
Definition nullable_kind (k : kind) : bool := negb (is_msgk k).
(* the enum of an enum kind declares a value (protoc and protodesc refuse an enum without values): what puts a
   non-empty `enum` keyword into the schema for makeNullableSchema to extend *)
Definition enum_inhabited (sc : schema) (k : kind) : bool :=
  match k with
  | KEnum tn => match find_enum (all_enums sc) tn with
                | Some e => match e_values e with [] => false | _ => true end
                | None => true end
  | _ => true
  end.
Definition nullable_enums_inhabited (sc : schema) (md : message) : bool :=
  forallb (fun f => negb (is_nullable f) || enum_inhabited sc (f_kind f)) (m_fields md).

(* the four classes of fields the theorems cover *)
Definition c6_class_plain (f : field) : bool :=
  sc_plainish f && (negb (is_nullable f) || (singularish f && nullable_kind (f_kind f))).
Definition c6_class_i64 (f : field) : bool :=
  ProtoJson.is_int64_kind (f_kind f) && i64_number f && negb (Codec.is_map f) && negb (is_nullable f).
Definition c6_class_bytes (f : field) : bool :=
  kind_eqb (f_kind f) KBytes && negb (Codec.is_map f) && negb (is_nullable f).
Definition c6_class_ts (f : field) : bool :=
  match tsfmt_of f with Some _ => true | None => false end && singularish f && negb (is_nullable f) && negb (empty_null f).
Definition c6_field_ok (f : field) : bool :=
  negb (is_flatten f) && (c6_class_plain f || c6_class_i64 f || c6_class_bytes f || c6_class_ts f).

(* the message: covered fields, no configured oneof, not a root unwrap *)
Definition c6_msg_ok (md : message) : bool :=
  forallb c6_field_ok (m_fields md) && negb (existsb oneof_cfg (m_oneofs md)) && negb (is_root_unwrap md).

(* every child value is un-annotated (for an annotated scalar / Timestamp field this says nothing) *)
Definition kids_plain (sc : schema) (md : message) (m : mval) : bool :=
  forallb (fun e => match find_field (m_fields md) (fst e) with
                    | Some f => plain_in sc (f_kind f) (snd e)
                    | None => false end) m.

(* formats and the one pattern the codec schemas add; like the wire formats they are annotations for the
   validator (P06, the parameters of the correspondence run, satisfies both) *)
Definition codec_formats : list str := [s "hex"; s "base64url"; s "date"; s "unix-timestamp"; s "unix-timestamp-ms"].
Definition codec_formats_are_annotations (P : vparams) : Prop :=
  forall name x, mem_str name codec_formats = true -> vp_format P name x = true.
Definition hex_pattern_matches_hex (P : vparams) : Prop :=
  forall x, forallb is_hex_char x = true -> vp_regex P hex_pattern x = true.

Lemma P06_codec_formats : codec_formats_are_annotations P06.
Proof. intros name x _. reflexivity. Qed.
Lemma P06_hex : hex_pattern_matches_hex P06.
Proof. intros x H. cbn. exact H. Qed.

Lemma hex_char_is_hex x : is_hex_char (hex_char x) = true.
Proof. destruct x as [[[[|] [|]] [|]] [|]]; reflexivity. Qed.
Lemma hex_enc_is_hex b : forallb is_hex_char (hex_enc b) = true.
Proof.
  induction b as [|[b0 b1 b2 b3 b4 b5 b6 b7] r IH]; [reflexivity|].
  cbn [hex_enc forallb]. now rewrite !hex_char_is_hex, IH.
Qed.

(* a conjunction of booleans into its conjuncts; every `is_none o = true` among the hypotheses into o = None *)
Ltac split_andb H := repeat (let H' := fresh "Hb" in apply andb_prop in H as [H H']).
Ltac kill_none :=
  repeat match goal with
         | Hx : is_none ?o = true |- _ => destruct o; [discriminate Hx|clear Hx]
         end.

Lemma sc_plainish_facts f : sc_plainish f = true ->
  (ProtoJson.is_int64_kind (f_kind f) && i64_number f) = false /\ f_enumenc f = None /\ f_bytesenc f = None /\ f_tsfmt f = None.
Proof. unfold sc_plainish. intros H. split_andb H. apply Bool.negb_true_iff in H. kill_none. repeat split; auto. Qed.

Lemma convert_scalar_plainish sc mn f : sc_plainish f = true -> convert_scalar sc no_side mn f = elem_node sc (f_kind f).
Proof. intros Hp. destruct (sc_plainish_facts f Hp) as [Hi [He [Hb Ht]]]. now apply convert_scalar_elem. Qed.

Lemma strip_plainish f : sc_plainish (strip f) = true.
Proof. unfold sc_plainish, i64_number. cbn [strip f_int64 f_enumenc f_bytesenc f_tsfmt f_kind]. now rewrite Bool.andb_false_r. Qed.

(* what convertField publishes for a field of the plain class: a repeated or map field is published as without its
   annotations; on a singular field nullable widens the type list and empty_behavior = NULL wraps a message schema in
   oneOf [T, null] *)
Lemma convert_field_plainish_multi sc mn f : sc_plainish f = true -> singularish f = false ->
  convert_field sc no_side mn f = convert_field sc no_side mn (strip f).
Proof.
  intros Hp Hs. unfold convert_field, singularish in *.
  rewrite (convert_scalar_plainish sc mn f Hp), (convert_scalar_plainish sc mn (strip f) (strip_plainish f)).
  cbn [strip f_card f_kind f_name]. destruct (f_card f); try discriminate Hs; reflexivity.
Qed.
Lemma convert_field_plainish_sing sc mn f : sc_plainish f = true -> singularish f = true ->
  convert_field sc no_side mn f =
  if is_nullable f then make_nullable (elem_node sc (f_kind f))
  else if OpenApi.is_msg_kind (f_kind f) && empty_null f
       then YMap [(s "oneOf", YSeq [elem_node sc (f_kind f); YMap [(s "type", ystr "null")]])]
       else convert_field sc no_side mn (strip f).
Proof.
  intros Hp Hs. unfold convert_field, singularish, is_nullable, empty_null in *.
  rewrite (convert_scalar_plainish sc mn f Hp), (convert_scalar_plainish sc mn (strip f) (strip_plainish f)).
  cbn [strip f_card f_kind f_name f_nullable f_empty].
  destruct (f_card f); try discriminate Hs; destruct (f_nullable f) as [[|]|]; try reflexivity;
    rewrite Bool.andb_false_r; destruct (OpenApi.is_msg_kind (f_kind f) && _); reflexivity.
Qed.

Definition null_kws (k : kind) : list keyword :=
  match scalar_kws k with KwType ts :: r => KwType (ts ++ [TNull]) :: r | l => l end.
Lemma rd_nullable_node sc fu k : is_scalar_kind k = true -> rd fu (make_nullable (elem_node sc k)) = SObj (null_kws k).
Proof. destruct k; try discriminate; intros _; reflexivity. Qed.

(* an enum kind: the strings convertEnumField lists (custom enum_value, else the name) *)
Definition enum_strs (e : enum) : list str :=
  map (fun v => match ev_custom v with
                | Some c => match c with [] => ev_name v | _ :: _ => c end
                | None => ev_name v end) (e_values e).
Definition enum_node_kws (names : list str) : list keyword :=
  [KwType [TString]; KwEnum (map (rd_plain reader12) names)].
Definition null_enum_kws (names : list str) : list keyword :=
  [KwType [TString; TNull]; KwEnum (map (rd_plain reader12) names ++ [JVNull])].

Lemma elem_node_enum sc tn :
  elem_node sc (KEnum tn) =
  match find_enum (all_enums sc) tn with
  | Some e => YMap [(s "type", ystr "string"); (s "enum", YSeq (map YPlain (enum_strs e)))]
  | None => YMap [(s "type", ystr "string")]
  end.
Proof.
  unfold elem_node, convert_scalar. cbn [f_kind OpenApi.plain_field]. unfold enum_schema, enum_strs.
  cbn [f_enumenc OpenApi.plain_field]. destruct (find_enum (all_enums sc) tn); [|reflexivity]. now rewrite map_map.
Qed.

Lemma rd_enum_node sc fu tn e : find_enum (all_enums sc) tn = Some e ->
  rd fu (elem_node sc (KEnum tn)) = SObj (enum_node_kws (enum_strs e)).
Proof. intros He. rewrite elem_node_enum, He, rd_ymap. cbn [map]. now rewrite kw_type_string, kw_enum. Qed.

(* makeNullableSchema on an enum field (types.go:101-105, since /repo 5062ef6): `null` joins the type list AND the
   enum list *)
Lemma rd_nullable_enum_node sc fu tn e : find_enum (all_enums sc) tn = Some e -> enum_inhabited sc (KEnum tn) = true ->
  rd fu (make_nullable (elem_node sc (KEnum tn))) = SObj (null_enum_kws (enum_strs e)).
Proof.
  intros He Hin. cbn [enum_inhabited] in Hin. rewrite He in Hin. rewrite elem_node_enum, He.
  assert (Hne : exists a l, enum_strs e = a :: l).
  { unfold enum_strs. destruct (e_values e) as [|v r]; [discriminate Hin|]. cbn [map]. eexists. eexists. reflexivity. }
  destruct Hne as [a [l Hal]]. rewrite Hal.
  change (make_nullable (YMap [(s "type", ystr "string"); (s "enum", YSeq (map YPlain (a :: l)))]))
    with (YMap [(s "type", YSeq [YGoStr (s "string"); YGoStr (s "null")]); (s "enum", YSeq (map YPlain (a :: l) ++ [YNull]))]).
  rewrite rd_ymap. cbn [map]. unfold null_enum_kws. f_equal. f_equal.
  unfold kw12. cbn [fst snd denote]. f_equal. f_equal.
  change (YPlain a :: map YPlain l) with (map YPlain (a :: l)).
  rewrite map_app, map_map. reflexivity.
Qed.
Lemma rd_nullable_enum_missing sc fu tn : find_enum (all_enums sc) tn = None ->
  rd fu (make_nullable (elem_node sc (KEnum tn))) = SObj (null_kws KString).
Proof. intros He. now rewrite elem_node_enum, He. Qed.
Lemma rd_enum_missing sc fu tn : find_enum (all_enums sc) tn = None ->
  rd fu (elem_node sc (KEnum tn)) = SObj (scalar_kws KString).
Proof. intros He. now rewrite elem_node_enum, He. Qed.

Lemma rd_oneof_null fu base :
  rd (S fu) (YMap [(s "oneOf", YSeq [base; YMap [(s "type", ystr "null")]])]) = SObj [KwOneOf [rd fu base; SObj [KwType [TNull]]]].
Proof. reflexivity. Qed.

Definition i64_kws (k : kind) : list keyword :=
  match k with
  | KUint64 | KFixed64 => [KwType [TInteger]; KwFormat (s "uint64"); KwMinimum (dec_of_Z 0)]
  | _ => [KwType [TInteger]; KwFormat (s "int64")]
  end.
Lemma rd_i64_node sc fu mn f : ProtoJson.is_int64_kind (f_kind f) = true -> i64_number f = true ->
  rd fu (convert_scalar sc no_side mn f) = SObj (i64_kws (f_kind f)).
Proof.
  intros Hk Hi. unfold convert_scalar, side_rules, side_examples. cbn [sd_rules sd_examples no_side find].
  rewrite Hi. destruct (f_kind f); try discriminate Hk; rewrite constraint_entries_none; reflexivity.
Qed.

Definition bytes_kws (f : field) : list keyword :=
  match f_bytesenc f with
  | Some BEHex => [KwType [TString]; KwFormat (s "hex"); KwPattern hex_pattern]
  | Some BEBase64Url | Some BEBase64UrlRaw => [KwType [TString]; KwFormat (s "base64url")]
  | _ => [KwType [TString]; KwFormat (s "byte")]
  end.
Lemma rd_bytes_node sc fu mn f : f_kind f = KBytes -> rd fu (convert_scalar sc no_side mn f) = SObj (bytes_kws f).
Proof.
  intros Hk. unfold convert_scalar, side_rules, side_examples. cbn [sd_rules sd_examples no_side find].
  rewrite Hk, constraint_entries_none. unfold bytes_entries, bytes_kws.
  destruct (f_bytesenc f) as [[| | | | |]|]; reflexivity.
Qed.

Definition ts_kws (t : ts_fmt) : list keyword :=
  match t with
  | TFUnixSeconds => [KwType [TInteger]; KwFormat (s "unix-timestamp")]
  | TFUnixMillis => [KwType [TInteger]; KwFormat (s "unix-timestamp-ms")]
  | TFDate => [KwType [TString]; KwFormat (s "date")]
  | _ => [KwType [TString]; KwFormat (s "date-time")]
  end.
Lemma rd_ts_node sc fu mn f t : tsfmt_of f = Some t -> rd fu (convert_scalar sc no_side mn f) = SObj (ts_kws t).
Proof.
  intros H. destruct (tsfmt_of_inv f t H) as [Hk [_ [Ht Hc]]].
  unfold convert_scalar. rewrite Hk. cbn [is_timestamp]. change (s "google.protobuf.Timestamp") with ts_name. rewrite str_eqb_refl.
  unfold timestamp_schema. rewrite Ht. destruct Hc as [->|[->| ->]]; reflexivity.
Qed.

Lemma validates_add_null P cst n ts r v :
  validates P cst (S n) (SObj (KwType ts :: r)) v = VOk true ->
  validates P cst (S n) (SObj (KwType (ts ++ [TNull]) :: r)) v = VOk true.
Proof.
  rewrite !validates_S. cbn [map declared_props flat_map app check_kw]. intros H.
  apply vall_cons_inv in H as [H1 H2]. apply vall_cons_true; [|exact H2].
  injection H1 as H1. f_equal. rewrite existsb_app, H1. reflexivity.
Qed.

Lemma null_kws_valid P cst n k v : is_scalar_kind k = true ->
  validates P cst (S n) (SObj (scalar_kws k)) v = VOk true -> validates P cst (S n) (SObj (null_kws k)) v = VOk true.
Proof. destruct k; try discriminate; intros _; apply validates_add_null. Qed.
Lemma null_kws_null P cst n k : is_scalar_kind k = true -> validates P cst (S n) (SObj (null_kws k)) JVNull = VOk true.
Proof. destruct k; try discriminate; intros _; reflexivity. Qed.

(* nullable enum: every value the enum schema admits is still admitted, and so is null *)
Lemma null_enum_kws_valid P cst n names v :
  validates P cst (S n) (SObj (enum_node_kws names)) v = VOk true ->
  validates P cst (S n) (SObj (null_enum_kws names)) v = VOk true.
Proof.
  unfold enum_node_kws, null_enum_kws. rewrite !validates_S. cbn [map declared_props flat_map app check_kw]. intros H.
  apply vall_cons_inv in H as [H1 H2]. apply vall_cons_inv in H2 as [H2 _].
  injection H1 as H1. injection H2 as H2.
  apply vall_cons_true; [|apply vall_cons_true; [|reflexivity]].
  - destruct v; try discriminate H1; reflexivity.
  - f_equal. rewrite existsb_app. apply Bool.orb_true_iff. left. exact H2.
Qed.
Lemma null_enum_kws_null P cst n names : validates P cst (S n) (SObj (null_enum_kws names)) JVNull = VOk true.
Proof.
  unfold null_enum_kws. rewrite validates_S. cbn [map declared_props flat_map app check_kw].
  apply vall_cons_true; [reflexivity|]. apply vall_cons_true; [|reflexivity].
  f_equal. rewrite existsb_app. cbn [existsb jv_eqb]. now rewrite Bool.orb_true_r.
Qed.

(* a leaf, or an array of leaves: no object anywhere, so nothing can be undescribed *)
Definition is_flat (v : jv) : bool := match v with JVObj _ => false | JVArr l => forallb is_leaf l | _ => true end.
Lemma leaf_flat v : is_leaf v = true -> is_flat v = true.
Proof. destruct v; try discriminate; reflexivity. Qed.
Lemma und_flat P cst uf vf sch v : is_flat v = true -> und P cst uf vf sch v = 0.
Proof.
  intros H. destruct uf as [|uf]; [reflexivity|]. destruct v as [| | | |l|kv]; try discriminate H; try reflexivity.
  cbn [und]. destruct (first_some _ _) as [t|]; [|reflexivity].
  apply (fold_sum_zero (fun x => und P cst uf vf t x)). intros a Ha. apply und_leaf.
  cbn [is_flat] in H. rewrite forallb_forall in H. now apply H.
Qed.

Lemma wire_obj_not_null kv : has_type TNull (wire_jv (JObj kv)) = false.
Proof. destruct (wire_jv_obj_cases kv) as [[k [z [_ [_ ->]]]]| ->]; reflexivity. Qed.

(* the oneOf [T, null] wrapper of empty_behavior = NULL does not change what the reference walk sees below T *)
Lemma und_oneof_null P cst u vf a kv :
  validates P cst vf a (JVObj kv) = VOk true ->
  kw_oneof (resolve0 cst a) = [] ->
  und P cst (S u) vf (SObj [KwOneOf [a; SObj [KwType [TNull]]]]) (JVObj kv) = und P cst (S u) vf a (JVObj kv).
Proof.
  intros Hv Hno. cbn [und].
  change (resolve0 cst (SObj [KwOneOf [a; SObj [KwType [TNull]]]])) with [KwOneOf [a; SObj [KwType [TNull]]]].
  assert (Hb : validates P cst vf (SObj [KwType [TNull]]) (JVObj kv) <> VOk true).
  { destruct vf; [discriminate|]. discriminate. }
  set (ra := resolve0 cst a) in *.
  assert (HbO : branches P cst vf [KwOneOf [a; SObj [KwType [TNull]]]] (JVObj kv)
                = [KwOneOf [a; SObj [KwType [TNull]]]] :: ra :: map (resolve0 cst) (kw_allof ra)).
  { unfold branches. cbn [kw_allof kw_oneof flat_map map app].
    rewrite Hv. fold ra.
    destruct (validates P cst vf (SObj [KwType [TNull]]) (JVObj kv)) as [[|]| | |]; try (now rewrite app_nil_r). }
  assert (HbA : branches P cst vf ra (JVObj kv) = ra :: map (resolve0 cst) (kw_allof ra)).
  { unfold branches. rewrite Hno. cbn [flat_map]. now rewrite app_nil_r. }
  rewrite HbO, HbA.
  assert (Hd : forall k, describe ([KwOneOf [a; SObj [KwType [TNull]]]] :: ra :: map (resolve0 cst) (kw_allof ra)) k
                         = describe (ra :: map (resolve0 cst) (kw_allof ra)) k).
  { intros k. unfold describe. cbn [first_some kw_props flat_map find_comp find kw_addl]. reflexivity. }
  clear Hv Hb HbO HbA.
  induction kv as [|e r IH]; [reflexivity|]. cbn [fold_right]. now rewrite Hd, IH.
Qed.

Lemma singularish_card f : singularish f = true <-> f_card f = Singular \/ f_card f = Optional.
Proof. unfold singularish. destruct (f_card f); split; try discriminate; auto; intros [H|H]; discriminate H. Qed.

Lemma wt_entry_sing sc f x : singularish f = true -> wt_entry sc f x = true -> wt sc (f_kind f) x = true.
Proof.
  intros Hs Hwt. apply wt_entry_cases in Hwt. unfold singularish in Hs.
  destruct x; try apply Hwt; [destruct Hwt as [Hc _]|destruct Hwt as [kk [Hc _]]]; rewrite Hc in Hs; discriminate Hs.
Qed.

Section Fields.
Variable E : ExtLib.
Hypothesis EL : fprint_is_number E.
Variable sc : schema.
Variable P : vparams.
Hypothesis Hfmt : wire_formats_are_annotations P.
Hypothesis Hfmt2 : codec_formats_are_annotations P.
Hypothesis Hre : hex_pattern_matches_hex P.
Variable cs : list (str * ynode).
Hypothesis Hts : find_message (all_messages sc) ts_name = None.
Let cst := doc_components reader12 cs.

(* a scalar-kind field whose elements are rendered by mp_scalar under the field's annotations *)
Lemma lift_list f (Q : jv -> Prop) :
  is_msgk (f_kind f) = false ->
  (forall sx js, wt_scalar sc (f_kind f) sx = true -> mp_scalar E sc (Some f) (f_kind f) sx = ROk js -> Q (wire_jv js)) ->
  forall l js, forallb (wt sc (f_kind f)) l = true ->
    mp_list E sc (Some f) (f_kind f) l = ROk js -> forall w, In w (map wire_jv js) -> Q w.
Proof.
  intros Hk HQ. induction l as [|y r IH]; intros js Hall Hm w Hin.
  - cbn in Hm. injection Hm as <-. destruct Hin.
  - cbn [mp_list] in Hm. apply rbind_ok in Hm as [j [Hj Hm]]. apply rbind_ok in Hm as [t [Ht Hm]]. injection Hm as <-.
    cbn [forallb] in Hall. apply andb_prop in Hall as [Hy Hr].
    destruct (wt_nonmsg_scalar sc _ y Hk Hy) as [sy [-> Hsy]]. rewrite mp_fval_FS in Hj.
    destruct Hin as [<-|Hin]; [now apply (HQ sy)|now apply (IH t)].
Qed.

Lemma lift_scalar mn f :
  is_msgk (f_kind f) = false -> is_nullable f = false -> Codec.is_map f = false ->
  (forall fu sx js n, wt_scalar sc (f_kind f) sx = true -> mp_scalar E sc (Some f) (f_kind f) sx = ROk js ->
      validates P cst (S n) (rd fu (convert_scalar sc no_side mn f)) (wire_jv js) = VOk true /\ is_leaf (wire_jv js) = true) ->
  forall fu x j n, wt_entry sc f x = true -> mp_fval E sc (Some f) (f_kind f) x = ROk j -> 1 <= n ->
    validates P cst (S n) (rd (S fu) (convert_field sc no_side mn f)) (wire_jv j) = VOk true /\ is_flat (wire_jv j) = true.
Proof.
  intros Hk Hnn Hnm Hsc fu x j n Hwt Hj Hn. apply wt_entry_cases in Hwt.
  assert (Hmk : OpenApi.is_msg_kind (f_kind f) = false) by (destruct (f_kind f); try reflexivity; discriminate Hk).
  destruct x as [sx|cm|l|kv].
  - destruct Hwt as [Hc Hwt]. cbn [wt] in Hwt. apply andb_prop in Hwt as [_ Hws].
    rewrite (convert_field_sing sc mn f Hc Hnn) by now rewrite Hmk. rewrite mp_fval_FS in Hj.
    destruct (Hsc (S fu) sx j n Hws Hj) as [H1 H2]. split; [exact H1|now apply leaf_flat].
  - destruct Hwt as [_ Hwt]. destruct (f_kind f); try discriminate Hwt. discriminate Hk.
  - destruct Hwt as [Hc [_ Hwt]]. rewrite (convert_field_rep sc mn f Hc), rd_array.
    rewrite mp_fval_FL in Hj. apply rbind_ok in Hj as [js [Hjs Hj]]. injection Hj as <-.
    change (wire_jv (JArr js)) with (JVArr (map wire_jv js)).
    destruct n as [|n]; [lia|].
    pose proof (lift_list f (fun w => validates P cst (S n) (rd fu (convert_scalar sc no_side mn f)) w = VOk true /\ is_leaf w = true)
                  Hk (fun sx js0 Hws Hm => Hsc fu sx js0 n Hws Hm) l js Hwt Hjs) as Hall.
    split.
    + apply validates_array. intros w Hw. now apply Hall.
    + cbn [is_flat]. apply forallb_forall. intros w Hw. now apply Hall.
  - destruct Hwt as [kk [Hc _]]. unfold Codec.is_map in Hnm. rewrite Hc in Hnm. discriminate Hnm.
Qed.

(* int64_encoding = NUMBER on a 64-bit integer field: a JSON integer against type integer (minimum 0 when unsigned) *)
Lemma i64_scalar mn f : ProtoJson.is_int64_kind (f_kind f) = true -> i64_number f = true ->
  forall fu sx js n, wt_scalar sc (f_kind f) sx = true -> mp_scalar E sc (Some f) (f_kind f) sx = ROk js ->
    validates P cst (S n) (rd fu (convert_scalar sc no_side mn f)) (wire_jv js) = VOk true /\ is_leaf (wire_jv js) = true.
Proof.
  intros Hk Hi fu sx js n Hwt Hj. rewrite (rd_i64_node sc fu mn f Hk Hi).
  unfold i64_number in Hi. destruct (f_int64 f) as [[| |]|] eqn:Ei; try discriminate Hi.
  destruct (f_kind f) eqn:Ek; try discriminate Hk; destruct sx; cbn in Hwt; try discriminate Hwt;
    cbn [mp_scalar ProtoJson.is_int64_kind andb] in Hj; rewrite Ei in Hj; injection Hj as <-; (split; [|reflexivity]);
    rewrite validates_S; cbn [i64_kws map check_kw declared_props flat_map app wire_jv]; try reflexivity.
  all: unfold in_int_range in Hwt; apply andb_prop in Hwt as [Hlo _]; apply Z.leb_le in Hlo; cbn in Hlo;
       unfold vall; cbn [fold_right has_type existsb orb]; rewrite (dec_leb_0 z Hlo); reflexivity.
Qed.

(* bytes_encoding on a bytes field: text against type string; hex text against the hex pattern *)
Lemma bytes_scalar mn f : f_kind f = KBytes ->
  forall fu sx js n, wt_scalar sc (f_kind f) sx = true -> mp_scalar E sc (Some f) (f_kind f) sx = ROk js ->
    validates P cst (S n) (rd fu (convert_scalar sc no_side mn f)) (wire_jv js) = VOk true /\ is_leaf (wire_jv js) = true.
Proof.
  intros Hk fu sx js n Hwt Hj. rewrite (rd_bytes_node sc fu mn f Hk). rewrite Hk in *.
  destruct sx; cbn in Hwt; try discriminate Hwt. cbn [mp_scalar] in Hj. unfold bytes_kws.
  destruct (f_bytesenc f) as [[| | | | |]|]; cbn in Hj; injection Hj as <-; (split; [|reflexivity]);
    rewrite validates_S; cbn [map check_kw declared_props flat_map app wire_jv];
    rewrite ?Hfmt by reflexivity; rewrite ?Hfmt2 by reflexivity; try reflexivity.
  rewrite (Hre _ (hex_enc_is_hex x)). reflexivity.
Qed.

(* timestamp_format on a singular Timestamp field *)
Lemma ts_entry mn f t x j n fu :
  tsfmt_of f = Some t -> singularish f = true -> is_nullable f = false -> empty_null f = false ->
  wt_entry sc f x = true -> mp_fval E sc (Some f) (f_kind f) x = ROk j ->
  validates P cst (S n) (rd fu (convert_field sc no_side mn f)) (wire_jv j) = VOk true /\ is_leaf (wire_jv j) = true.
Proof.
  intros Ht Hs Hnn Hen Hwt Hj. destruct (tsfmt_of_inv f t Ht) as [Hk [_ [Hf Hc]]].
  rewrite (convert_field_sing sc mn f (proj1 (singularish_card f) Hs) Hnn)
    by (unfold empty_null in Hen; rewrite Hen; apply Bool.andb_false_r).
  rewrite (rd_ts_node sc fu mn f t Ht).
  apply (wt_entry_sing sc f x Hs) in Hwt. rewrite Hk in Hwt, Hj.
  destruct x as [sx|tm|l|kv]; try discriminate Hwt.
  rewrite mp_fval_FM, str_eqb_refl in Hj. unfold mp_timestamp in Hj.
  destruct (ts_in_range _ _); [|discriminate Hj]. cbn [negb] in Hj. rewrite Hf in Hj.
  destruct Hc as [->|[->| ->]]; injection Hj as <-; (split; [|reflexivity]);
    rewrite validates_S; cbn [ts_kws map check_kw declared_props flat_map app wire_jv];
    rewrite ?Hfmt2 by reflexivity; reflexivity.
Qed.
End Fields.

(* fields of the plain class: un-annotated rendering; nullable widens the type list, empty_behavior = NULL wraps the
   schema in oneOf [T, null] *)
Section PlainClass.
Variable E : ExtLib.
Hypothesis EL : fprint_is_number E.
Variable sc : schema.
Variable P : vparams.
Hypothesis Hfmt : wire_formats_are_annotations P.
Variable cs : list (str * ynode).
Hypothesis Hts : find_message (all_messages sc) ts_name = None.
Let cst := doc_components reader12 cs.

Lemma plainish_pj f x j : sc_plainish f = true -> plain_in sc (f_kind f) x = true ->
  mp_fval E sc (Some f) (f_kind f) x = ROk j -> pj_fval E sc (f_kind f) x = ROk j.
Proof.
  intros Hp Hpl Hj. destruct (sc_plainish_facts f Hp) as [Hi [He [Hb Ht]]].
  rewrite <- (mapping_plain64 E sc x (Some f) (f_kind f)); [exact Hj| |exact Hpl].
  cbn [ctx_ok64]. unfold i64_number in Hi. repeat split; assumption.
Qed.

Lemma child_component ctn cm :
  str_eqb ctn ts_name = false -> wt sc (KMessage ctn) (FM cm) = true -> plain_in sc (KMessage ctn) (FM cm) = true ->
  walk sc no_side cs (KMessage ctn) (FM cm) = [] ->
  exists cmd, find_message (all_messages sc) ctn = Some cmd /\ plain_msg cmd = true /\
              find_comp cst (short_name ctn) = Some (typed (plain_object_schema sc no_side cmd)).
Proof.
  intros Ets Hwt Hpl Hw. rewrite wt_FM, Ets in Hwt. rewrite plain_in_FM, Ets in Hpl. rewrite walk_FM, Ets in Hw.
  apply andb_prop in Hwt as [_ Hwt]. destruct (find_message (all_messages sc) ctn) as [cmd|] eqn:Efm; [|discriminate Hwt].
  apply andb_prop in Hpl as [Hpm _]. apply app_eq_nil in Hw as [Hmi _].
  destruct (msg_issues_nil _ _ _ _ _ Hmi) as [Hcomp _]. rewrite (find_message_name _ _ _ Efm) in Hcomp.
  exists cmd. repeat split; auto. rewrite <- (plain_msg_object sc no_side cmd Hpm). now apply component_of.
Qed.

(* the keywords of a plain object component: type, properties — no $ref, no allOf / oneOf *)
Lemma plain_object_kws cmd : exists kws,
  typed (plain_object_schema sc no_side cmd) = SObj (KwType [TObject] :: kws) /\
  (kws = [] \/ exists ps, kws = [KwProperties ps]).
Proof.
  rewrite rd_plain_object. destruct (m_fields cmd); eexists; (split; [reflexivity|]); [now left|right; eexists; reflexivity].
Qed.

Lemma plain_object_rejects_null cmd n : validates P cst (S n) (typed (plain_object_schema sc no_side cmd)) JVNull = VOk false.
Proof.
  destruct (plain_object_kws cmd) as [kws [-> [->|[ps ->]]]]; reflexivity.
Qed.

(* a scalar or enum value under nullable: type [T, null]; for an enum also enum [names..., null] *)
Lemma nullable_scalar_valid k sx j fu n :
  is_msgk k = false -> wt_scalar sc k sx = true -> plain_enum sc k = true -> scalar_issues sc k sx = [] ->
  pj_scalar E sc k sx = ROk j ->
  validates P cst (S n) (rd fu (make_nullable (elem_node sc k))) (wire_jv j) = VOk true.
Proof.
  intros Hk Hws Hpl Hw Hpj. destruct (is_scalar_kind k) eqn:Hsk.
  - rewrite (rd_nullable_node sc fu _ Hsk). apply (null_kws_valid P cst n _ _ Hsk). rewrite <- (rd_scalar_node sc fu _ Hsk).
    now apply (scalar_valid E EL sc P Hfmt cst k sx j fu n).
  - destruct k as [| | | | | | | | | | | | | | | tn | ctn]; try discriminate Hsk; [|discriminate Hk].
    destruct sx; try discriminate Hws.
    pose proof (enum_valid E sc P cst tn n0 j fu n Hws Hw Hpl Hpj) as Hev.
    destruct (find_enum (all_enums sc) tn) as [e|] eqn:He.
    + assert (Hin : enum_inhabited sc (KEnum tn) = true).
      { cbn [enum_inhabited]. rewrite He. destruct (e_values e) as [|v0 vs] eqn:Hvs; [|reflexivity].
        cbn [scalar_issues] in Hw. rewrite He, Hvs in Hw. discriminate Hw. }
      rewrite (rd_nullable_enum_node sc fu tn e He Hin). apply null_enum_kws_valid.
      now rewrite <- (rd_enum_node sc fu tn e He).
    + rewrite (rd_nullable_enum_missing sc fu tn He). apply (null_kws_valid P cst n KString _ eq_refl).
      now rewrite <- (rd_enum_missing sc fu tn He).
Qed.

(* a non-empty message value under empty_behavior = NULL: exactly the first branch of oneOf [T, null].  The walk looks below
   `oneOf [T, null]` only through the branches the value validates against: it needs the validation fuel of the value *)
Lemma oneof_null_message ctn cm j fu n :
  wt sc (KMessage ctn) (FM cm) = true -> plain_in sc (KMessage ctn) (FM cm) = true ->
  walk sc no_side cs (KMessage ctn) (FM cm) = [] -> pj_fval E sc (KMessage ctn) (FM cm) = ROk j -> need (FM cm) <= n ->
  validates P cst (S n) (SObj [KwOneOf [rd fu (elem_node sc (KMessage ctn)); SObj [KwType [TNull]]]]) (wire_jv j) = VOk true /\
  (forall uf vf, need (FM cm) <= vf ->
     und P cst uf vf (SObj [KwOneOf [rd fu (elem_node sc (KMessage ctn)); SObj [KwType [TNull]]]]) (wire_jv j) = 0).
Proof.
  intros Hwk Hpl Hw Hpj Hn.
  pose proof (value_conforms E EL sc P cs Hts (FM cm)) as HQ. cbn [CCe] in HQ.
  destruct (HQ (KMessage ctn) j fu Hwk Hpl Hw Hpj) as [H1 H2]. specialize (H1 Hfmt). fold cst in H1, H2.
  (* the JSON of a message value is text (Timestamp) or an object *)
  assert (Hsh : (exists t, j = JStr t) \/ (exists es, str_eqb ctn ts_name = false /\ j = JObj es)).
  { rewrite pj_fval_FM in Hpj. destruct (str_eqb ctn ts_name).
    - unfold pj_timestamp in Hpj. destruct (ts_in_range _ _); [|discriminate Hpj]. injection Hpj as <-. left. eexists; reflexivity.
    - destruct (is_wkt_other ctn); [discriminate Hpj|]. destruct (find_message (all_messages sc) ctn); [|discriminate Hpj].
      apply rbind_ok in Hpj as [es [_ Hpj]]. injection Hpj as <-. right. exists es. split; reflexivity. }
  split.
  - destruct n as [|n]; [rewrite need_FM in Hn; lia|].
    assert (Hnn : validates P cst (S n) (SObj [KwType [TNull]]) (wire_jv j) = VOk false).
    { rewrite validates_S. cbn [map check_kw declared_props flat_map existsb orb].
      destruct Hsh as [[t ->]|[es [_ ->]]]; [reflexivity|]. now rewrite wire_obj_not_null. }
    rewrite validates_S. cbn [map check_kw declared_props flat_map vcount fold_right]. rewrite (H1 (S n) Hn). now rewrite Hnn.
  - intros uf vf Hvf. destruct Hsh as [[t ->]|[es [Ets ->]]]; [now apply und_leaf|].
    specialize (H1 vf Hvf). specialize (H2 uf vf). rewrite (elem_node_message sc fu ctn Ets) in *.
    destruct (child_component ctn cm Ets Hwk Hpl Hw) as [cmd [_ [_ Hfc]]].
    destruct (wire_jv_obj_cases es) as [[k [z [_ [_ Hd]]]]|Hkv]; [rewrite Hd; now apply und_leaf|].
    rewrite Hkv in *. destruct uf as [|uf]; [reflexivity|].
    rewrite und_oneof_null; [exact H2|exact H1|].
    unfold body_schema, resolve0. cbn [resolve_kws first_ref find]. fold cst. rewrite Hfc.
    destruct (plain_object_kws cmd) as [kws [-> [->|[ps ->]]]]; reflexivity.
Qed.

(* one populated field: valid, and nothing undescribed *)
Lemma plain_entry mn f x j fu n :
  c6_class_plain f = true -> wt_entry sc f x = true -> plain_in sc (f_kind f) x = true ->
  walk sc no_side cs (f_kind f) x = [] -> mp_fval E sc (Some f) (f_kind f) x = ROk j -> need x <= n ->
  validates P cst (S n) (rd (S fu) (convert_field sc no_side mn f)) (wire_jv j) = VOk true /\
  (forall uf vf, empty_null f = false \/ need x <= vf ->
     und P cst uf vf (rd (S fu) (convert_field sc no_side mn f)) (wire_jv j) = 0).
Proof.
  intros Hc Hwt Hpl Hw Hj Hn. unfold c6_class_plain in Hc. apply andb_prop in Hc as [Hp Hnl].
  pose proof (plainish_pj f x j Hp Hpl Hj) as Hpj.
  assert (Hstrip : validates P cst (S n) (rd (S fu) (convert_field sc no_side mn (strip f))) (wire_jv j) = VOk true /\
                   (forall uf vf, empty_null f = false \/ need x <= vf ->
                      und P cst uf vf (rd (S fu) (convert_field sc no_side mn (strip f))) (wire_jv j) = 0)).
  { destruct (field_conforms E EL sc P cs Hts mn (strip f) x j fu (strip_plain f) Hwt Hpl Hw Hpj) as [Hv Hu].
    split; [apply Hv; [exact Hfmt|lia]|intros uf vf _; apply Hu]. }
  destruct (singularish f) eqn:Es; [|now rewrite (convert_field_plainish_multi sc mn f Hp Es)].
  rewrite (convert_field_plainish_sing sc mn f Hp Es). pose proof (wt_entry_sing sc f x Es Hwt) as Hwk.
  destruct (is_nullable f) eqn:En.
  - cbn [negb orb andb] in Hnl. unfold nullable_kind in Hnl. apply Bool.negb_true_iff in Hnl.
    destruct (wt_nonmsg_scalar sc (f_kind f) x Hnl Hwk) as [sx [-> Hws]]. rewrite pj_fval_FS in Hpj.
    split; [exact (nullable_scalar_valid (f_kind f) sx j (S fu) n Hnl Hws Hpl Hw Hpj)|intros uf vf _; apply und_leaf; now apply (pj_scalar_leaf E EL sc (f_kind f) sx j)].
  - destruct (OpenApi.is_msg_kind (f_kind f) && empty_null f) eqn:Eo; [|exact Hstrip].
    apply andb_prop in Eo as [Hmk Hen].
    destruct (f_kind f) as [| | | | | | | | | | | | | | | tn0 | ctn] eqn:Ek; try discriminate Hmk.
    destruct x as [sx|cm|l|kv]; try discriminate Hwk. rewrite (rd_oneof_null fu).
    destruct (oneof_null_message ctn cm j fu n Hwk Hpl Hw Hpj Hn) as [H1 H2].
    split; [exact H1|]. intros uf vf [Hvf|Hvf]; [congruence|now apply H2].
Qed.

(* the null of empty_behavior = NULL: exactly the second branch of oneOf [T, null] *)
Lemma empty_null_entry mn f fu n :
  c6_class_plain f = true -> empty_null f = true -> wt_entry sc f (FM []) = true -> plain_in sc (f_kind f) (FM []) = true ->
  walk sc no_side cs (f_kind f) (FM []) = [] -> 3 <= n ->
  validates P cst (S n) (rd (S fu) (convert_field sc no_side mn f)) JVNull = VOk true.
Proof.
  intros Hc Hen Hwt Hpl Hw Hn. unfold c6_class_plain in Hc. apply andb_prop in Hc as [Hp Hnl].
  apply wt_entry_cases in Hwt as [Es Hwc]. apply singularish_card in Es.
  destruct (f_kind f) as [| | | | | | | | | | | | | | | tn0 | ctn] eqn:Ek; try discriminate Hwc.
  assert (En : is_nullable f = false).
  { destruct (is_nullable f); [|reflexivity]. cbn [negb orb] in Hnl. rewrite Bool.andb_false_r in Hnl. discriminate Hnl. }
  rewrite (convert_field_plainish_sing sc mn f Hp Es), En, Hen, Ek. cbn [OpenApi.is_msg_kind andb]. rewrite (rd_oneof_null fu).
  destruct n as [|[|[|n]]]; try lia.
  assert (H1 : validates P cst (S (S (S n))) (rd fu (elem_node sc (KMessage ctn))) JVNull = VOk false).
  { destruct (str_eqb ctn ts_name) eqn:Ets.
    - apply str_eqb_eq in Ets. subst ctn. reflexivity.
    - rewrite (elem_node_message sc fu ctn Ets).
      destruct (child_component ctn [] Ets Hwc Hpl Hw) as [cmd [_ [_ Hfc]]].
      rewrite (validates_ref P cst _ _ _ _ Hfc), plain_object_rejects_null. reflexivity. }
  rewrite validates_S. cbn [map check_kw declared_props flat_map vcount fold_right]. rewrite H1. reflexivity.
Qed.

(* the null of an unset nullable field *)
Lemma nullable_null_entry mn f fu n :
  c6_class_plain f = true -> is_nullable f = true -> enum_inhabited sc (f_kind f) = true ->
  validates P cst (S n) (rd (S fu) (convert_field sc no_side mn f)) JVNull = VOk true.
Proof.
  intros Hc En Hinh. unfold c6_class_plain in Hc. apply andb_prop in Hc as [Hp Hnl].
  rewrite En in Hnl. cbn [negb orb] in Hnl. apply andb_prop in Hnl as [Es Hk].
  rewrite (convert_field_plainish_sing sc mn f Hp Es), En.
  unfold nullable_kind in Hk. apply Bool.negb_true_iff in Hk.
  destruct (is_scalar_kind (f_kind f)) eqn:Hsk.
  - rewrite (rd_nullable_node sc (S fu) _ Hsk). now apply null_kws_null.
  - destruct (f_kind f) as [| | | | | | | | | | | | | | | tn0 | ctn] eqn:Ek; try discriminate Hsk; [|discriminate Hk].
    destruct (find_enum (all_enums sc) tn0) as [e|] eqn:He.
    + rewrite (rd_nullable_enum_node sc (S fu) tn0 e He Hinh). apply null_enum_kws_null.
    + rewrite (rd_nullable_enum_missing sc (S fu) tn0 He). now apply null_kws_null.
Qed.
End PlainClass.

Lemma wt_need sc k v : wt sc k v = true -> 1 <= need v.
Proof. destruct v; try discriminate; intros _; [cbn; lia|rewrite need_FM; lia]. Qed.
Lemma wt_entry_need sc f x : wt_entry sc f x = true -> 1 <= need x.
Proof.
  intros H. apply wt_entry_cases in H. destruct x as [sx|cm|[|e l]|[|[k0 e] kv]].
  - cbn. lia.
  - rewrite need_FM. lia.
  - now destruct H as [_ [H _]].
  - destruct H as [_ [_ H]]. cbn [forallb] in H. apply andb_prop in H as [H _]. apply wt_need in H. rewrite need_FL. cbn [need_list]. lia.
  - now destruct H as [kk [_ [H _]]].
  - destruct H as [kk [_ [_ H]]]. cbn [forallb fst snd] in H. apply andb_prop in H as [H _]. apply andb_prop in H as [_ H].
    apply wt_need in H. rewrite need_FMap. cbn [need_map snd]. lia.
Qed.

Definition entries_of (ps : list piece) : list (str * json) :=
  flat_map (fun p => match p with
                     | PField k j => [(k, j)]
                     | PSpread pre kv => map (fun e => (pre ++ fst e, snd e)) kv
                     | PDisc k v => [(k, JStr v)]
                     end) ps.
Definition nulls_of_msg (md : message) (m : mval) : list (str * json) :=
  flat_map (fun f => match f_nullable f, mget m (f_name f) with
                     | Some true, None => [(json_name (f_name f), JNull)]
                     | _, _ => []
                     end) (m_fields md).

Section Messages.
Variable E : ExtLib.
Hypothesis EL : fprint_is_number E.
Variable sc : schema.
Variable P : vparams.
Hypothesis Hfmt : wire_formats_are_annotations P.
Variable cs : list (str * ynode).
Hypothesis Hts : find_message (all_messages sc) ts_name = None.
Let cst := doc_components reader12 cs.

(* the bytes_encoding and timestamp_format schemas carry formats (and one pattern) of their own *)
Definition codec_params (P0 : vparams) : Prop := codec_formats_are_annotations P0 /\ hex_pattern_matches_hex P0.
Definition plain_or_i64 (f : field) : bool := c6_class_plain f || c6_class_i64 f.

(* one populated field of a covered class, rendered by the documented mapping *)
Lemma spec_entry mn f x j fu n :
  c6_field_ok f = true -> plain_or_i64 f = true \/ codec_params P ->
  wt_entry sc f x = true -> plain_in sc (f_kind f) x = true ->
  walk sc no_side cs (f_kind f) x = [] -> mp_fval E sc (Some f) (f_kind f) x = ROk j -> need x <= n ->
  validates P cst (S n) (rd (S fu) (convert_field sc no_side mn f)) (wire_jv j) = VOk true /\
  (forall uf vf, empty_null f = false \/ need x <= vf ->
     und P cst uf vf (rd (S fu) (convert_field sc no_side mn f)) (wire_jv j) = 0).
Proof.
  intros Hok Hcp Hwt Hpl Hw Hj Hn. unfold c6_field_ok in Hok. apply andb_prop in Hok as [_ Hcl].
  pose proof (wt_entry_need sc f x Hwt) as Hn1.
  destruct (c6_class_plain f) eqn:Hpc; [now apply (plain_entry E EL sc P Hfmt cs Hts)|].
  destruct (c6_class_i64 f) eqn:Hi.
  - unfold c6_class_i64 in Hi. apply andb_prop in Hi as [Hi Hnn]. apply andb_prop in Hi as [Hi Hnm]. apply andb_prop in Hi as [Hk Hi].
    apply Bool.negb_true_iff in Hnn, Hnm.
    assert (Hmk : is_msgk (f_kind f) = false) by (destruct (f_kind f); try reflexivity; discriminate Hk).
    destruct (lift_scalar E sc P cs mn f Hmk Hnn Hnm (i64_scalar E sc P cs mn f Hk Hi) fu x j n Hwt Hj) as [H1 H2]; [lia|].
    split; [exact H1|]. intros uf vf _. now apply und_flat.
  - destruct Hcp as [Hcp|[Hfmt2 Hre]]; [unfold plain_or_i64 in Hcp; rewrite Hpc, Hi in Hcp; discriminate Hcp|].
    cbn [orb] in Hcl. apply Bool.orb_true_iff in Hcl as [Hb|Hts4].
    + unfold c6_class_bytes in Hb. apply andb_prop in Hb as [Hb Hnn]. apply andb_prop in Hb as [Hk Hnm].
      apply Bool.negb_true_iff in Hnn, Hnm.
      assert (Hkb : f_kind f = KBytes) by (destruct (f_kind f); try discriminate Hk; reflexivity).
      assert (Hmk : is_msgk (f_kind f) = false) by (now rewrite Hkb).
      destruct (lift_scalar E sc P cs mn f Hmk Hnn Hnm (bytes_scalar E sc P Hfmt Hfmt2 Hre cs mn f Hkb) fu x j n Hwt Hj) as [H1 H2]; [lia|].
      split; [exact H1|]. intros uf vf _. now apply und_flat.
    + unfold c6_class_ts in Hts4. apply andb_prop in Hts4 as [Ht Hen]. apply andb_prop in Ht as [Ht Hnn]. apply andb_prop in Ht as [Ht Hs].
      apply Bool.negb_true_iff in Hnn, Hen. destruct (tsfmt_of f) as [t|] eqn:Et; [|discriminate Ht].
      destruct (ts_entry E sc P Hfmt2 cs mn f t x j n (S fu) Et Hs Hnn Hen Hwt Hj) as [H1 H2].
      split; [exact H1|]. intros uf vf _. now apply und_leaf.
Qed.

Lemma mp_entry_cases md name f x ps :
  is_flatten f = false -> f_oneof f = None ->
  mp_entry E sc md name f x = ROk ps ->
  (ps = [PField (json_name name) JNull] /\ empty_null f = true /\ x = FM []) \/ ps = [] \/
  (exists j, mp_fval E sc (Some f) (f_kind f) x = ROk j /\ ps = [PField (json_name name) j]).
Proof.
  unfold mp_entry, is_flatten, empty_null, mp_oneof_of. intros Hfl Hoo. rewrite Hoo.
  destruct (f_empty f) as [[| | |]|]; destruct x as [sx|[|e0 cm]|l|kv]; intros H;
    try (apply rbind_ok in H as [j [Hj H]]; right; right; exists j; split; [exact Hj|];
         destruct (f_flatten f) as [[|]|]; try discriminate Hfl; now injection H as <-).
  - left. injection H as <-. now repeat split.
  - right. left. now injection H as <-.
Qed.

Lemma mp_msg_entries md m : forall ps,
  (forall f, In f (m_fields md) -> is_flatten f = false /\ f_oneof f = None) ->
  mp_msg E sc md m = ROk ps ->
  forall k v, In (k, v) (entries_of ps) ->
  exists name x f, In (name, x) m /\ find_field (m_fields md) name = Some f /\ k = json_name name /\
     ((v = JNull /\ empty_null f = true /\ x = FM []) \/ mp_fval E sc (Some f) (f_kind f) x = ROk v).
Proof.
  induction m as [|[name x] r IH]; intros ps Hsimple Hm k v Hin.
  - cbn in Hm. injection Hm as <-. destruct Hin.
  - cbn [mp_msg] in Hm. destruct (find_field (m_fields md) name) as [f|] eqn:Ef; [|discriminate Hm].
    apply rbind_ok in Hm as [ps1 [H1 Hm]]. apply rbind_ok in Hm as [t [Ht Hm]]. injection Hm as <-.
    unfold entries_of in Hin. rewrite flat_map_app in Hin. apply in_app_or in Hin as [Hin|Hin].
    + destruct (Hsimple f (find_field_in _ _ _ Ef)) as [Hfl Hoo].
      destruct (mp_entry_cases md name f x ps1 Hfl Hoo H1) as [[-> [He ->]]|[->|[j [Hj ->]]]].
      * destruct Hin as [Hin|[]]. injection Hin as <- <-. exists name, (FM []), f. repeat split; auto. now left.
      * destruct Hin.
      * destruct Hin as [Hin|[]]. injection Hin as <- <-. exists name, x, f. repeat split; auto. now left.
    + destruct (IH t Hsimple Ht k v Hin) as [n' [x' [f' [Hi [Hf' [Hk Hc]]]]]].
      exists n', x', f'. repeat split; auto. now right.
Qed.

Lemma nulls_entries md (m : mval) k v : In (k, v) (nulls_of_msg md m) ->
  exists f, In f (m_fields md) /\ is_nullable f = true /\ k = jname f /\ v = JNull.
Proof.
  unfold nulls_of_msg. intros H. apply in_flat_map in H as [f [Hf H]]. exists f. unfold is_nullable, jname.
  destruct (f_nullable f) as [[|]|]; try destruct H. destruct (mget m (f_name f)); [destruct H|]. destruct H as [H|[]].
  injection H as <- <-. repeat split; auto.
Qed.
End Messages.

Lemma c6_msg_ok_facts md : c6_msg_ok md = true ->
  (forall f, In f (m_fields md) -> c6_field_ok f = true) /\ existsb oneof_cfg (m_oneofs md) = false /\ is_root_unwrap md = false.
Proof.
  unfold c6_msg_ok. intros H. apply andb_prop in H as [H H3]. apply andb_prop in H as [H1 H2].
  apply Bool.negb_true_iff in H2, H3. rewrite forallb_forall in H1. auto.
Qed.

(* the component of a covered message is the plain object schema *)
Lemma c6_object_schema sc md : c6_msg_ok md = true -> object_schema sc no_side md = plain_object_schema sc no_side md.
Proof.
  intros H. destruct (c6_msg_ok_facts md H) as [Hf [Ho Hr]]. apply object_schema_plain; auto.
  apply existsb_none. intros f Hin. specialize (Hf f Hin).
  unfold c6_field_ok in Hf. apply andb_prop in Hf as [Hf _]. now apply Bool.negb_true_iff in Hf.
Qed.

Lemma field_ok_nullable_plain f : c6_field_ok f = true -> is_nullable f = true -> c6_class_plain f = true.
Proof.
  unfold c6_field_ok, c6_class_i64, c6_class_bytes, c6_class_ts. intros H Hn. rewrite Hn in H. cbn [negb] in H.
  rewrite !Bool.andb_false_r in H. cbn [andb] in H. rewrite !Bool.orb_false_r in H. now apply andb_prop in H as [_ H].
Qed.

Lemma field_ok_empty_null_plain sc f : c6_field_ok f = true -> empty_null f = true -> wt_entry sc f (FM []) = true ->
  c6_class_plain f = true.
Proof.
  unfold c6_field_ok. intros H He Hwt. apply andb_prop in H as [_ H]. apply wt_entry_cases in Hwt as [_ Hwt].
  destruct (f_kind f) as [| | | | | | | | | | | | | | | tn0 | tn] eqn:Hk; try discriminate Hwt.
  unfold c6_class_i64, c6_class_bytes, c6_class_ts in H. rewrite Hk, He in H. cbn [ProtoJson.is_int64_kind kind_eqb negb andb] in H.
  rewrite !Bool.andb_false_r in H. cbn [andb] in H. now rewrite !Bool.orb_false_r in H.
Qed.

Lemma kids_plain_in sc md m name x f :
  kids_plain sc md m = true -> In (name, x) m -> find_field (m_fields md) name = Some f -> plain_in sc (f_kind f) x = true.
Proof.
  unfold kids_plain. intros H Hin Hf. rewrite forallb_forall in H. specialize (H (name, x) Hin). cbn [fst snd] in H.
  now rewrite Hf in H.
Qed.

Theorem spec_message_conforms : forall (E : ExtLib) (sc : schema) (P : vparams) (cs : list (str * ynode))
    (tn : str) (md : message) (m : mval) (j : json),
  fprint_is_number E -> wire_formats_are_annotations P ->
  forallb plain_or_i64 (m_fields md) = true \/ codec_params P ->
  find_message (all_messages sc) ts_name = None -> str_eqb tn ts_name = false -> is_wkt_other tn = false ->
  find_message (all_messages sc) tn = Some md -> c6_msg_ok md = true -> nullable_enums_inhabited sc md = true ->
  wt sc (KMessage tn) (FM m) = true -> kids_plain sc md m = true ->
  defects_C06 sc no_side cs tn m = [] ->
  Mapping.to_json E sc tn m = ROk j ->
  (forall fuel, need (FM m) <= fuel ->
     validates P (doc_components reader12 cs) fuel (body_schema tn) (wire_jv j) = VOk true) /\
  (forall uf vf, existsb empty_null (m_fields md) = false \/ need (FM m) <= vf ->
     und P (doc_components reader12 cs) uf vf (body_schema tn) (wire_jv j) = 0).
Proof.
  intros E sc P cs tn md m j EL Hfmt Hcp Hts Htn Hwk Hfm Hmok Hinh Hwt Hkids Hd Hj.
  set (cst := doc_components reader12 cs).
  destruct (c6_msg_ok_facts md Hmok) as [Hfok [Hno Hnr]].
  rewrite wt_FM, Htn, Hwk, Hfm in Hwt. cbn [negb andb] in Hwt.
  apply andb_prop in Hwt as [Hwt Hwf]. apply andb_prop in Hwt as [Hok _].
  pose proof (defects_C06_nil_walk _ _ _ _ _ Hd) as Hw. rewrite walk_FM, Htn, Hfm in Hw.
  apply app_eq_nil in Hw as [Hmi Hwf']. destruct (msg_issues_nil _ _ _ _ _ Hmi) as [Hcomp Hmark].
  rewrite (find_message_name _ _ _ Hfm) in Hcomp.
  (* the documented form *)
  unfold Mapping.to_json in Hj. rewrite mp_fval_FM, Htn, Hwk, Hfm in Hj.
  apply rbind_ok in Hj as [ps [Hps Hj]]. unfold mp_finish in Hj. rewrite (no_root_unwrap md Hnr) in Hj.
  injection Hj as <-. fold (entries_of ps) (nulls_of_msg md m). rewrite need_FM.
  assert (Hsimple : forall f, In f (m_fields md) -> is_flatten f = false /\ f_oneof f = None).
  { intros f Hf. split; [|now apply (msg_ok_no_oneof md)].
    specialize (Hfok f Hf). unfold c6_field_ok in Hfok. apply andb_prop in Hfok as [Hfl _]. now apply Bool.negb_true_iff in Hfl. }
  (* every entry against its property, with the fuel the value needs *)
  assert (Hent : forall key v, In (key, v) (entries_of ps ++ nulls_of_msg md m) -> exists f, In f (m_fields md) /\ key = jname f /\
            forall n, need_fields m <= n ->
              validates P cst (S n) (rd 6 (convert_field sc no_side (m_name md) f)) (wire_jv v) = VOk true /\
              (forall uf vf, existsb empty_null (m_fields md) = false \/ need_fields m <= vf ->
                 und P cst uf vf (rd 6 (convert_field sc no_side (m_name md) f)) (wire_jv v) = 0)).
  { intros key v Hin. apply in_app_or in Hin as [Hin|Hin].
    - destruct (mp_msg_entries E sc md m ps Hsimple Hps key v Hin) as [name [x [f [Him [Hf [Hkey Hc]]]]]].
      destruct (find_field_spec _ _ _ Hf) as [Hinf Hfn].
      exists f. split; [exact Hinf|]. split; [unfold jname; now rewrite Hfn|].
      destruct (fields_in sc no_side cs md m name x f Hwf Hwf' Him Hf) as [Hwe [Hwk' Hnx]].
      pose proof (kids_plain_in sc md m name x f Hkids Him Hf) as Hpl.
      intros n Hn. destruct Hc as [[-> [Hen ->]]|Hmp].
      + split; [|intros uf vf _; now apply und_leaf].
        apply (empty_null_entry sc P cs (m_name md) f 5 n (field_ok_empty_null_plain sc f (Hfok f Hinf) Hen Hwe) Hen Hwe Hpl Hwk').
        rewrite need_FM in Hnx. lia.
      + assert (Hcpf : plain_or_i64 f = true \/ codec_params P).
        { destruct Hcp as [Hcp|Hcp]; [left|now right]. rewrite forallb_forall in Hcp. now apply Hcp. }
        destruct (spec_entry E EL sc P Hfmt cs Hts (m_name md) f x v 5 n (Hfok f Hinf) Hcpf Hwe Hpl Hwk' Hmp) as [H1 H2]; [lia|].
        split; [exact H1|]. intros uf vf Hvf. apply H2. destruct Hvf as [Hvf|Hvf]; [left|right; lia].
        exact (proj1 (existsb_false _ _) Hvf f Hinf).
    - destruct (nulls_entries md m key v Hin) as [f [Hinf [Hnl [Hkey ->]]]].
      exists f. split; [exact Hinf|]. split; [exact Hkey|]. intros n _.
      split; [|intros uf vf _; now apply und_leaf].
      apply (nullable_null_entry sc P cs (m_name md) f 5 n (field_ok_nullable_plain f (Hfok f Hinf) Hnl) Hnl).
      unfold nullable_enums_inhabited in Hinh. rewrite forallb_forall in Hinh. specialize (Hinh f Hinf).
      rewrite Hnl in Hinh. exact Hinh. }
  pose proof (c6_object_schema sc md Hmok) as Hobj.
  split.
  - intros [|[|[|n]]] Hfuel; try lia.
    apply (body_valid sc P cs tn md Hfm Hcomp Hobj Hok Hmark _ (S n)).
    intros key v Hin. destruct (Hent key v Hin) as [f [Hinf [Hkey Hv]]]. exists f. repeat split; auto.
    apply Hv. lia.
  - intros [|uf] vf Hvf; [reflexivity|].
    apply (body_und sc P cs tn md Hfm Hcomp Hobj Hok Hmark _ uf vf).
    intros key v Hin. destruct (Hent key v Hin) as [f [Hinf [Hkey Hv]]]. exists f. repeat split; auto.
    apply (Hv (need_fields m) (Nat.le_refl _)). destruct Hvf; [now left|right; lia].
Qed.

Lemma own_inv sc md ft : owner_of sc md = Own ft ->
  (ft <> FtUnwrapRoot -> is_root_unwrap md = false) /\
  (ft <> FtNullable -> existsb is_nullable (m_fields md) = false) /\
  (ft <> FtEmpty -> existsb (fun f => match empty_of f with Some _ => true | None => false end) (m_fields md) = false) /\
  (ft <> FtFlatten -> existsb is_flatten (m_fields md) = false) /\
  (ft <> FtOneof -> existsb oneof_cfg (m_oneofs md) = false).
Proof.
  intros Hown.
  assert (H : forall g, ft <> g -> feature_test sc md g = false)
    by (intros g Hne; apply (CodecBase.owner_excl sc md ft g Hown); congruence).
  exact (conj (H FtUnwrapRoot) (conj (H FtNullable) (conj (H FtEmpty) (conj (H FtFlatten) (H FtOneof))))).
Qed.

Lemma c6_msg_ok_intro sc md ft :
  owner_of sc md = Own ft -> ft <> FtUnwrapRoot -> ft <> FtOneof ->
  (forall f, In f (m_fields md) -> c6_field_ok f = true) -> c6_msg_ok md = true.
Proof.
  intros Hown H1 H2 Hf. destruct (own_inv sc md ft Hown) as [Hr [_ [_ [_ Ho]]]].
  unfold c6_msg_ok. rewrite (Hr H1), (Ho H2). cbn [negb]. rewrite !Bool.andb_true_r. now apply forallb_forall.
Qed.

(* a message without nullable fields (every owner but the nullable codec) *)
Lemma no_nullable_inhabited sc md : existsb is_nullable (m_fields md) = false -> nullable_enums_inhabited sc md = true.
Proof.
  intros H. unfold nullable_enums_inhabited. apply forallb_forall. intros f Hf.
  now rewrite (proj1 (existsb_false _ _) H f Hf).
Qed.
Lemma own_not_nullable_inhabited sc md ft : owner_of sc md = Own ft -> ft <> FtNullable -> nullable_enums_inhabited sc md = true.
Proof.
  intros Hown Hne. destruct (own_inv sc md ft Hown) as [_ [Hn _]]. apply no_nullable_inhabited. now apply Hn.
Qed.

(* the message owned by the codec of one feature, every field of a covered class: Codec.encode is the documented form
   (by the conforms theorem of the codec), and the documented form conforms *)
Theorem message_conforms_owned : forall (E : ExtLib) (sc : schema) (P : vparams) (cs : list (str * ynode))
    (tn : str) (md : message) (m : mval) (j : json) (ft : feature),
  fprint_is_number E -> wire_formats_are_annotations P ->
  forallb plain_or_i64 (m_fields md) = true \/ codec_params P ->
  find_message (all_messages sc) ts_name = None -> str_eqb tn ts_name = false -> is_wkt_other tn = false ->
  find_message (all_messages sc) tn = Some md -> owner_of sc md = Own ft -> ft <> FtUnwrapRoot -> ft <> FtOneof ->
  (forall f, In f (m_fields md) -> c6_field_ok f = true) ->
  ft <> FtNullable \/ nullable_enums_inhabited sc md = true ->
  encode E sc tn m = Mapping.to_json E sc tn m ->
  wt sc (KMessage tn) (FM m) = true -> kids_plain sc md m = true ->
  defects_C06 sc no_side cs tn m = [] ->
  (encode E sc tn m = ROk j \/ Mapping.to_json E sc tn m = ROk j) ->
  (forall fuel, need (FM m) <= fuel ->
     validates P (doc_components reader12 cs) fuel (body_schema tn) (wire_jv j) = VOk true) /\
  (forall uf vf, existsb empty_null (m_fields md) = false \/ need (FM m) <= vf ->
     und P (doc_components reader12 cs) uf vf (body_schema tn) (wire_jv j) = 0).
Proof.
  intros E sc P cs tn md m j ft EL Hfmt Hcp Hts Htn Hwk Hfm Hown Hnr Hno Hf Hinh Henc Hwt Hkids Hd Hj.
  apply (spec_message_conforms E sc P cs tn md m j EL Hfmt Hcp Hts Htn Hwk Hfm); auto.
  - now apply (c6_msg_ok_intro sc md ft).
  - destruct Hinh as [Hinh|Hinh]; [now apply (own_not_nullable_inhabited sc md ft)|exact Hinh].
  - destruct Hj as [Hj|Hj]; [now rewrite <- Henc|exact Hj].
Qed.

(* nullable = true sits on singular / optional fields of non-message kinds - what the generator admits
   (nullable.go:46-70: `optional` fields of every kind but a message, enums included; the schema of a nullable
   enum lists null among its values: rd_nullable_enum_node) - and the
   enum of a nullable enum field declares a value (protoc refuses an enum without values; without one the
   model publishes `enum: []`, which makeNullableSchema leaves empty: message_conforms_nullable_needs_inhabited) *)
Definition nullable_shape (sc : schema) (md : message) : bool :=
  forallb (fun f => negb (is_nullable f) || (singularish f && nullable_kind (f_kind f) && enum_inhabited sc (f_kind f))) (m_fields md).

Lemma nulplain_c6 f : nulplain_field f = true ->
  negb (is_nullable f) || (singularish f && nullable_kind (f_kind f)) = true ->
  c6_field_ok f = true /\ plain_or_i64 f = true /\ empty_null f = false.
Proof.
  intros H Hs. unfold c6_field_ok, plain_or_i64, c6_class_plain, sc_plainish, is_flatten, i64_number, empty_null. rewrite Hs.
  unfold nulplain_field in H. split_andb H. kill_none. cbn [is_none negb andb orb]. rewrite Bool.andb_false_r. repeat split; reflexivity.
Qed.
Lemma nullable_shape_facts sc md : nullable_shape sc md = true ->
  (forall f, In f (m_fields md) -> negb (is_nullable f) || (singularish f && nullable_kind (f_kind f)) = true) /\
  nullable_enums_inhabited sc md = true.
Proof.
  unfold nullable_shape, nullable_enums_inhabited. intros H. rewrite forallb_forall in H. split.
  - intros f Hf. specialize (H f Hf). destruct (is_nullable f); [|reflexivity]. cbn [negb orb] in H |- *.
    now apply andb_prop in H as [H _].
  - apply forallb_forall. intros f Hf. specialize (H f Hf). destruct (is_nullable f); [|reflexivity]. cbn [negb orb] in H |- *.
    now apply andb_prop in H as [_ H].
Qed.

Theorem message_conforms_nullable : forall (E : ExtLib) (sc : schema) (P : vparams) (cs : list (str * ynode))
    (tn : str) (md : message) (m : mval) (j : json),
  fprint_is_number E -> wire_formats_are_annotations P ->
  find_message (all_messages sc) ts_name = None -> str_eqb tn ts_name = false -> is_wkt_other tn = false ->
  find_message (all_messages sc) tn = Some md -> owner_of sc md = Own FtNullable ->
  nodup_str (map jn (m_fields md)) = true -> nulplain_msg md = true -> nullable_shape sc md = true ->
  wt sc (KMessage tn) (FM m) = true -> kids_plain sc md m = true ->
  defects_C06 sc no_side cs tn m = [] ->
  (encode E sc tn m = ROk j \/ Mapping.to_json E sc tn m = ROk j) ->
  (forall fuel, need (FM m) <= fuel ->
     validates P (doc_components reader12 cs) fuel (body_schema tn) (wire_jv j) = VOk true) /\
  (forall uf vf, und P (doc_components reader12 cs) uf vf (body_schema tn) (wire_jv j) = 0).
Proof.
  intros E sc P cs tn md m j EL Hfmt Hts Htn Hwk Hfm Hown Hnd Hmd Hshape Hwt Hkids Hd Hj.
  pose proof (conforms_nullable E sc tn md m Htn Hwk Hfm Hown Hnd Hmd Hkids) as Henc.
  unfold nulplain_msg in Hmd. apply andb_prop in Hmd as [Hf _]. rewrite forallb_forall in Hf.
  destruct (nullable_shape_facts sc md Hshape) as [Hshape' Hinh].
  assert (Hall : forall f, In f (m_fields md) -> c6_field_ok f = true /\ plain_or_i64 f = true /\ empty_null f = false)
    by (intros f Hin; apply nulplain_c6; auto).
  destruct (message_conforms_owned E sc P cs tn md m j FtNullable EL Hfmt) as [H1 H2]; auto; try discriminate.
  - left. apply forallb_forall. intros f Hin. now apply Hall.
  - intros f Hin. now apply Hall.
  - split; [exact H1|]. intros uf vf. apply H2. left. apply existsb_none. intros f Hin. now apply Hall.
Qed.

Lemma i64plain_c6 f : i64plain_field f = true -> c6_field_ok f = true /\ plain_or_i64 f = true /\ empty_null f = false.
Proof.
  intros H. unfold c6_field_ok, plain_or_i64, c6_class_plain, c6_class_i64, sc_plainish, is_flatten, is_nullable, empty_null.
  unfold i64plain_field, i64_effective in H. fold (i64_number f) in H.
  apply andb_prop in H as [H Hlast]. split_andb H. kill_none. cbn [is_none negb andb orb].
  rewrite !Bool.andb_true_r.
  destruct (ProtoJson.is_int64_kind (f_kind f) && i64_number f) eqn:Eb; rewrite ?Eb in Hlast; cbn [negb orb andb] in *;
    rewrite ?Hlast; repeat split; reflexivity.
Qed.

Theorem message_conforms_int64 : forall (E : ExtLib) (sc : schema) (P : vparams) (cs : list (str * ynode))
    (tn : str) (md : message) (m : mval) (j : json),
  fprint_is_number E -> wire_formats_are_annotations P ->
  find_message (all_messages sc) ts_name = None -> str_eqb tn ts_name = false -> is_wkt_other tn = false ->
  find_message (all_messages sc) tn = Some md -> owner_of sc md = Own FtInt64 ->
  buildable sc FtInt64 md = true ->
  nodup_str (map jn (m_fields md)) = true -> i64plain_msg md = true ->
  wt sc (KMessage tn) (FM m) = true -> kids_plain sc md m = true ->
  defects_C06 sc no_side cs tn m = [] ->
  (encode E sc tn m = ROk j \/ Mapping.to_json E sc tn m = ROk j) ->
  (forall fuel, need (FM m) <= fuel ->
     validates P (doc_components reader12 cs) fuel (body_schema tn) (wire_jv j) = VOk true) /\
  (forall uf vf, und P (doc_components reader12 cs) uf vf (body_schema tn) (wire_jv j) = 0).
Proof.
  intros E sc P cs tn md m j EL Hfmt Hts Htn Hwk Hfm Hown Hb Hnd Hmd Hwt Hkids Hd Hj.
  pose proof (conforms_int64 E sc tn md m Htn Hwk Hfm Hown Hb Hnd Hmd Hwt Hkids) as Henc.
  unfold i64plain_msg in Hmd. apply andb_prop in Hmd as [Hf _]. rewrite forallb_forall in Hf.
  assert (Hall : forall f, In f (m_fields md) -> c6_field_ok f = true /\ plain_or_i64 f = true /\ empty_null f = false)
    by (intros f Hin; apply i64plain_c6; auto).
  destruct (message_conforms_owned E sc P cs tn md m j FtInt64 EL Hfmt) as [H1 H2]; auto; try discriminate.
  - left. apply forallb_forall. intros f Hin. now apply Hall.
  - intros f Hin. now apply Hall.
  - left. discriminate.
  - split; [exact H1|]. intros uf vf. apply H2. left. apply existsb_none. intros f Hin. now apply Hall.
Qed.

Lemma wt_names_nodup sc tn md m :
  str_eqb tn ts_name = false -> is_wkt_other tn = false -> find_message (all_messages sc) tn = Some md ->
  wt sc (KMessage tn) (FM m) = true -> nodup_str (map fst m) = true.
Proof.
  intros Htn Hwk Hfm Hwt. rewrite wt_FM, Htn, Hwk, Hfm in Hwt. cbn [negb andb] in Hwt.
  apply andb_prop in Hwt as [Hwt _]. apply andb_prop in Hwt as [_ Hsorted]. exact (sorted_names_nodup_str md m Hsorted).
Qed.

Lemma bytesplain_c6 f : bytesplain_field f = true -> c6_field_ok f = true /\ empty_null f = false.
Proof.
  intros H. unfold c6_field_ok, c6_class_plain, c6_class_bytes, sc_plainish, is_flatten, is_nullable, empty_null, i64_number.
  unfold bytesplain_field in H. apply andb_prop in H as [H Hlast]. split_andb H. kill_none. cbn [is_none negb andb orb].
  rewrite !Bool.andb_true_r, Bool.andb_false_r. cbn [negb andb].
  apply Bool.orb_true_iff in Hlast as [Hn|Hk].
  - destruct (f_bytesenc f); [discriminate Hn|]. split; reflexivity.
  - rewrite Hk. rewrite !Bool.orb_true_r. split; reflexivity.
Qed.

Lemma bytes_kids_plain sc md m : bytesplain_msg md = true -> forallb (bytes_value_ok sc md) m = true -> kids_plain sc md m = true.
Proof.
  intros Hmd H. unfold bytesplain_msg in Hmd. apply andb_prop in Hmd as [Hf _]. rewrite forallb_forall in Hf.
  unfold kids_plain. rewrite forallb_forall in *. intros e He. specialize (H e He). unfold bytes_value_ok in H.
  destruct (find_field (m_fields md) (fst e)) as [f|] eqn:Ef; [|discriminate H].
  destruct (is_none (f_bytesenc f)) eqn:En; [exact H|].
  specialize (Hf f (find_field_in _ _ _ Ef)). unfold bytesplain_field in Hf. apply andb_prop in Hf as [_ Hlast].
  rewrite En in Hlast. cbn [orb] in Hlast. apply andb_prop in Hlast as [Hk _].
  destruct (f_kind f); try discriminate Hk. destruct (snd e) as [[]| | |]; try discriminate H. reflexivity.
Qed.

Theorem message_conforms_bytes : forall (E : ExtLib) (sc : schema) (P : vparams) (cs : list (str * ynode))
    (tn : str) (md : message) (m : mval) (j : json),
  fprint_is_number E -> wire_formats_are_annotations P -> codec_params P ->
  find_message (all_messages sc) ts_name = None -> str_eqb tn ts_name = false -> is_wkt_other tn = false ->
  find_message (all_messages sc) tn = Some md -> owner_of sc md = Own FtBytes ->
  buildable sc FtBytes md = true ->
  nodup_str (map jn (m_fields md)) = true -> bytesplain_msg md = true ->
  wt sc (KMessage tn) (FM m) = true -> forallb (bytes_value_ok sc md) m = true ->
  defects_C06 sc no_side cs tn m = [] ->
  (encode E sc tn m = ROk j \/ Mapping.to_json E sc tn m = ROk j) ->
  (forall fuel, need (FM m) <= fuel ->
     validates P (doc_components reader12 cs) fuel (body_schema tn) (wire_jv j) = VOk true) /\
  (forall uf vf, und P (doc_components reader12 cs) uf vf (body_schema tn) (wire_jv j) = 0).
Proof.
  intros E sc P cs tn md m j EL Hfmt Hcpar Hts Htn Hwk Hfm Hown Hb Hnd Hmd Hwt Hval Hd Hj.
  pose proof (conforms_bytes E sc tn md m Htn Hwk Hfm Hown Hb Hnd Hmd (wt_names_nodup sc tn md m Htn Hwk Hfm Hwt) Hval) as Henc.
  pose proof (bytes_kids_plain sc md m Hmd Hval) as Hkids.
  unfold bytesplain_msg in Hmd. apply andb_prop in Hmd as [Hf _]. rewrite forallb_forall in Hf.
  destruct (message_conforms_owned E sc P cs tn md m j FtBytes EL Hfmt (or_intror Hcpar)) as [H1 H2]; auto; try discriminate.
  - intros f Hin. now apply bytesplain_c6; auto.
  - left. discriminate.
  - split; [exact H1|]. intros uf vf. apply H2. left. apply existsb_none. intros f Hin. now apply bytesplain_c6; auto.
Qed.

Lemma ts_c6 f : tsplain_field f = true ->
  match tsfmt_of f with Some _ => plain_singular f | None => true end = true ->
  is_nullable f = false -> empty_of f = None -> is_flatten f = false ->
  c6_field_ok f = true /\ empty_null f = false.
Proof.
  intros Hp Hb Hnn He Hfl.
  assert (Hen : empty_null f = false).
  { unfold empty_of in He. unfold empty_null. destruct (f_empty f) as [[| | |]|]; try discriminate He; reflexivity. }
  split; [|exact Hen]. unfold c6_field_ok. rewrite Hfl. cbn [negb andb].
  unfold tsplain_field in Hp. destruct (tsfmt_of f) as [t|] eqn:Et.
  - assert (Hs : singularish f = true).
    { unfold plain_singular in Hb. unfold singularish. destruct (f_card f); try discriminate Hb; reflexivity. }
    unfold c6_class_ts. rewrite Et, Hs, Hnn, Hen. cbn [negb andb]. now rewrite !Bool.orb_true_r.
  - destruct (ctx_field_ok_facts f Hp) as [Hi [Hee [Hbb Htt]]].
    unfold c6_class_plain, sc_plainish, i64_number. rewrite Hi, Hee, Hbb, Htt, Hnn. cbn [is_none negb andb orb].
    now rewrite Bool.andb_false_r.
Qed.

Lemma ts_kids_plain sc md m : forallb (ts_entry_ok sc md) m = true -> kids_plain sc md m = true.
Proof.
  intros H. unfold kids_plain. rewrite forallb_forall in *. intros e He. specialize (H e He). unfold ts_entry_ok in H.
  destruct (find_field (m_fields md) (fst e)) as [f|] eqn:Ef; [|discriminate H].
  destruct (tsfmt_of f) as [t|] eqn:Et; [|exact H].
  destruct (tsfmt_of_inv f t Et) as [-> _].
  destruct (snd e) as [|tm| |]; try discriminate H. rewrite plain_in_FM. now rewrite str_eqb_refl.
Qed.

Theorem message_conforms_ts : forall (E : ExtLib) (sc : schema) (P : vparams) (cs : list (str * ynode))
    (tn : str) (md : message) (m : mval) (j : json),
  fprint_is_number E -> wire_formats_are_annotations P -> codec_params P ->
  find_message (all_messages sc) ts_name = None -> str_eqb tn ts_name = false -> is_wkt_other tn = false ->
  find_message (all_messages sc) tn = Some md -> owner_of sc md = Own FtTs ->
  buildable sc FtTs md = true ->
  nodup_str (map jn (m_fields md)) = true -> forallb tsplain_field (m_fields md) = true ->
  wt sc (KMessage tn) (FM m) = true -> forallb (ts_entry_ok sc md) m = true ->
  defects_C06 sc no_side cs tn m = [] ->
  (encode E sc tn m = ROk j \/ Mapping.to_json E sc tn m = ROk j) ->
  (forall fuel, need (FM m) <= fuel ->
     validates P (doc_components reader12 cs) fuel (body_schema tn) (wire_jv j) = VOk true) /\
  (forall uf vf, und P (doc_components reader12 cs) uf vf (body_schema tn) (wire_jv j) = 0).
Proof.
  intros E sc P cs tn md m j EL Hfmt Hcpar Hts Htn Hwk Hfm Hown Hb Hnd Hmd Hwt Hval Hd Hj.
  pose proof (conforms_ts E sc tn md m Htn Hwk Hfm Hown Hb Hnd Hmd (wt_names_nodup sc tn md m Htn Hwk Hfm Hwt) Hval) as Henc.
  pose proof (ts_kids_plain sc md m Hval) as Hkids.
  destruct (own_inv sc md FtTs Hown) as [_ [Hnul [Hemp [Hflat _]]]].
  specialize (Hnul ltac:(discriminate)). specialize (Hemp ltac:(discriminate)). specialize (Hflat ltac:(discriminate)).
  rewrite forallb_forall in Hmd. unfold buildable in Hb. rewrite forallb_forall in Hb.
  assert (Hall : forall f, In f (m_fields md) -> c6_field_ok f = true /\ empty_null f = false).
  { intros f Hin. apply ts_c6; auto.
    - exact (proj1 (existsb_false _ _) Hnul f Hin).
    - pose proof (proj1 (existsb_false _ _) Hemp f Hin) as He. cbn beta in He. destruct (empty_of f); [discriminate He|reflexivity].
    - exact (proj1 (existsb_false _ _) Hflat f Hin). }
  destruct (message_conforms_owned E sc P cs tn md m j FtTs EL Hfmt (or_intror Hcpar)) as [H1 H2]; auto; try discriminate.
  - intros f Hin. now apply Hall.
  - left. discriminate.
  - split; [exact H1|]. intros uf vf. apply H2. left. apply existsb_none. intros f Hin. now apply Hall.
Qed.

Lemma empplain_c6 f : empplain_field f = true -> c6_field_ok f = true /\ plain_or_i64 f = true.
Proof.
  intros H. unfold c6_field_ok, plain_or_i64, c6_class_plain, sc_plainish, is_flatten, is_nullable, i64_number.
  unfold empplain_field in H. split_andb H. kill_none. cbn [is_none negb andb orb]. rewrite Bool.andb_false_r. split; reflexivity.
Qed.

(* the reference walk looks below `oneOf [T, null]` only through the branches the value validates against:
   it needs the validation fuel of the value when a field carries empty_behavior = NULL *)
Theorem message_conforms_empty : forall (E : ExtLib) (sc : schema) (P : vparams) (cs : list (str * ynode))
    (tn : str) (md : message) (m : mval) (j : json),
  fprint_is_number E -> wire_formats_are_annotations P ->
  find_message (all_messages sc) ts_name = None -> str_eqb tn ts_name = false -> is_wkt_other tn = false ->
  find_message (all_messages sc) tn = Some md -> owner_of sc md = Own FtEmpty ->
  buildable sc FtEmpty md = true ->
  nodup_str (map jn (m_fields md)) = true -> empplain_msg md = true ->
  wt sc (KMessage tn) (FM m) = true -> kids_plain sc md m = true ->
  defects_C06 sc no_side cs tn m = [] ->
  (encode E sc tn m = ROk j \/ Mapping.to_json E sc tn m = ROk j) ->
  (forall fuel, need (FM m) <= fuel ->
     validates P (doc_components reader12 cs) fuel (body_schema tn) (wire_jv j) = VOk true) /\
  (forall uf vf, existsb empty_null (m_fields md) = false \/ need (FM m) <= vf ->
     und P (doc_components reader12 cs) uf vf (body_schema tn) (wire_jv j) = 0).
Proof.
  intros E sc P cs tn md m j EL Hfmt Hts Htn Hwk Hfm Hown Hb Hnd Hmd Hwt Hkids Hd Hj.
  pose proof (conforms_empty E sc tn md m Htn Hwk Hfm Hown Hb Hnd Hmd Hwt Hkids) as Henc.
  unfold empplain_msg in Hmd. apply andb_prop in Hmd as [Hf _]. rewrite forallb_forall in Hf.
  apply (message_conforms_owned E sc P cs tn md m j FtEmpty EL Hfmt); auto; try discriminate.
  - left. apply forallb_forall. intros f Hin. now apply empplain_c6; auto.
  - intros f Hin. now apply empplain_c6; auto.
  - left. discriminate.
Qed.

Open Scope Z_scope.
Definition k6q (n : string) : str := s "k.v1." ++ s n.
Definition K6 (n : string) : kind := KMessage (k6q n).
Definition k6msg (n : string) (fs : list field) : message :=
  {| m_name := k6q n; m_path := [s n]; m_fields := fs; m_oneofs := [] |}.
Definition k6rpc (n : string) : method :=
  {| md_name := s n; md_in := k6q n; md_out := k6q n; md_has_cfg := true; md_path := s "/" ++ s n; md_verb := Some 2%nat; md_headers := [] |}.
Definition k6_color : enum :=
  {| e_name := k6q "Color"; e_values := [ {| ev_name := s "COLOR_UNSPECIFIED"; ev_number := 0; ev_custom := None |};
                                          {| ev_name := s "COLOR_RED"; ev_number := 1; ev_custom := None |} ] |}.

(* an enum with enum_value custom strings, and one without values (refused by protoc; the corner the side
   condition enum_inhabited excludes) *)
Definition k6_shade : enum :=
  {| e_name := k6q "Shade"; e_values := [ {| ev_name := s "SHADE_UNSPECIFIED"; ev_number := 0; ev_custom := Some (s "none") |};
                                          {| ev_name := s "SHADE_DARK"; ev_number := 1; ev_custom := Some (s "dark") |} ] |}.
Definition k6_void : enum := {| e_name := k6q "Void"; e_values := [] |}.

Definition k6_leaf : message := k6msg "Leaf" [fld "a" 1 KString Singular; fld "n" 2 KInt64 Singular].
(* nullable: optional scalars of several kinds, next to un-annotated fields *)
Definition k6_nul : message :=
  k6msg "Nul" [set_nullable (fld "nick" 1 KString Optional); set_nullable (fld "age" 2 KUint32 Optional);
               set_nullable (fld "big" 3 KInt64 Optional); set_nullable (fld "ok" 4 KBool Optional);
               fld "id" 5 KString Singular; fld "leaf" 6 (K6 "Leaf") Singular; fld "tags" 7 KString Repeated].
(* int64 NUMBER: signed, unsigned, repeated, beside STRING-encoded and nested ones *)
Definition k6_nums : message :=
  k6msg "Nums" [set_i64 (fld "big" 1 KInt64 Singular); set_i64 (fld "ubig" 2 KUint64 Singular);
                set_i64 (fld "many" 3 KSint64 Repeated); fld "plain_big" 4 KInt64 Singular;
                fld "leaf" 5 (K6 "Leaf") Singular; fld "by_key" 6 (K6 "Leaf") (MapOf KString)].
(* bytes_encoding: the four encodings *)
Definition k6_blob : message :=
  k6msg "Blob" [set_bytes BEHex (fld "h" 1 KBytes Singular); set_bytes BEBase64Raw (fld "raw_b" 2 KBytes Optional);
                set_bytes BEBase64Url (fld "url_b" 3 KBytes Singular); set_bytes BEBase64UrlRaw (fld "url_raw" 4 KBytes Singular);
                fld "plain_b" 5 KBytes Singular; fld "id" 6 KString Singular; fld "leaf" 7 (K6 "Leaf") Singular].
(* timestamp_format: the three formats and an un-annotated Timestamp *)
Definition k6_times : message :=
  k6msg "Times" [set_ts TFUnixSeconds (fld "at_secs" 1 TS Singular); set_ts TFUnixMillis (fld "at_millis" 2 TS Singular);
                 set_ts TFDate (fld "on_day" 3 TS Singular); fld "plain_at" 4 TS Singular; fld "id" 5 KString Singular].
(* empty_behavior: the three behaviours, a Timestamp under NULL *)
Definition k6_emp : message :=
  k6msg "Emp" [set_empty EBPreserve (fld "keep_it" 1 (K6 "Leaf") Singular); set_empty EBNull (fld "nul_it" 2 (K6 "Leaf") Singular);
               set_empty EBNull (fld "nul_full" 3 (K6 "Leaf") Singular); set_empty EBOmit (fld "omit_it" 4 (K6 "Leaf") Singular);
               set_empty EBNull (fld "nul_at" 5 TS Singular); fld "id" 6 KString Singular].
(* nullable on an optional enum field *)
Definition k6_color_field : field := set_nullable (fld "color" 1 (KEnum (k6q "Color")) Optional).
Definition k6_nulenum : message := k6msg "NulEnum" [k6_color_field; fld "id" 2 KString Singular].
(* ... with enum_value custom strings, and with enum_encoding = NUMBER: the schemas makeNullableSchema extends likewise *)
Definition k6_shade_field : field := set_nullable (fld "shade" 1 (KEnum (k6q "Shade")) Optional).
Definition k6_colornum_field : field := set_nullable (set_enumnum (fld "color_num" 2 (KEnum (k6q "Color")) Optional)).
Definition k6_nulenum2 : message := k6msg "NulEnum2" [k6_shade_field; k6_colornum_field; fld "id" 3 KString Singular].
(* outside the side conditions of the nullable theorem *)
Definition k6_nulvoid : message :=
  k6msg "NulVoid" [set_nullable (fld "void" 1 (KEnum (k6q "Void")) Optional); fld "id" 2 KString Singular].
Definition k6_nulmsg : message := k6msg "NulMsg" [set_nullable (fld "leaf" 1 (K6 "Leaf") Optional); fld "id" 2 KString Singular].
Definition k6_nulrep : message := k6msg "NulRep" [set_nullable (fld "tags" 1 KString Repeated); fld "id" 2 KString Singular].
Definition k6_messages : list message :=
  [k6_leaf; k6_nul; k6_nums; k6_blob; k6_times; k6_emp; k6_nulenum; k6_nulmsg; k6_nulrep; k6_nulenum2; k6_nulvoid].

Definition k6_service : service :=
  {| sv_name := s "Svc"; sv_base := s "/k"; sv_headers := [];
     sv_methods := [k6rpc "Nul"; k6rpc "Nums"; k6rpc "Blob"; k6rpc "Times"; k6rpc "Emp"; k6rpc "NulEnum"; k6rpc "NulMsg"; k6rpc "NulRep";
                    k6rpc "NulEnum2"; k6rpc "NulVoid"] |}.
Definition k6s : schema :=
  [ {| fl_path := s "k/a.proto"; fl_package := s "k.v1"; fl_gopkg := s "k"; fl_generate := true;
       fl_messages := k6_messages; fl_enums := [k6_color; k6_shade; k6_void]; fl_services := [k6_service] |} ].
Definition k6doc : c06_doc := Eval vm_compute in prepare_C06 k6s no_side 0 0.

(* the hypotheses every codec theorem shares, on the document of service Svc *)
Definition k6_common (tn : str) (md : message) (m : mval) : Prop :=
  cd_ok k6doc = true /\ cd_tcs k6doc = doc_components reader12 (cd_cs k6doc) /\
  find_message (all_messages k6s) ts_name = None /\ str_eqb tn ts_name = false /\ is_wkt_other tn = false /\
  find_message (all_messages k6s) tn = Some md /\ nodup_str (map jn (m_fields md)) = true /\
  wt k6s (KMessage tn) (FM m) = true /\ defects_C06 k6s no_side (cd_cs k6doc) tn m = [].
(* what the model computes for the case (what predict_C06 evaluates) *)
Definition k6_verdict (tn : str) (m : mval) : res (json * vres * Z) :=
  match encode Ex k6s tn m with
  | ROk j => ROk (j, validates P06 (cd_tcs k6doc) c06_fuel (body_schema tn) (wire_jv j),
                  und_capped P06 (cd_tcs k6doc) (body_schema tn) (wire_jv j))
  | RErr e => RErr e
  | RUnm w => RUnm w
  end.

(* a conjunct shown by evaluation serves the conjuncts after it *)
Lemma conj_then (A B : Prop) : A -> (A -> B) -> A /\ B.
Proof. tauto. Qed.

(* the part of k6_common that speaks of the document alone, evaluated once *)
Lemma k6_common_intro tn md m :
  str_eqb tn ts_name = false /\ is_wkt_other tn = false /\
  find_message (all_messages k6s) tn = Some md /\ nodup_str (map jn (m_fields md)) = true /\
  wt k6s (KMessage tn) (FM m) = true /\ defects_C06 k6s no_side (cd_cs k6doc) tn m = [] ->
  k6_common tn md m.
Proof.
  assert (Hdoc : cd_ok k6doc = true /\ cd_tcs k6doc = doc_components reader12 (cd_cs k6doc) /\
                 find_message (all_messages k6s) ts_name = None) by (vm_compute; repeat split; reflexivity).
  intros H. unfold k6_common. repeat split; try apply Hdoc; apply H.
Qed.

Lemma P06_codec_params : codec_params P06.
Proof. split; [exact P06_codec_formats|exact P06_hex]. Qed.

(* nullable: one field set, three unset (sent as null), un-annotated neighbours *)
Definition nul_value : mval :=
  [(s "nick", vstr "n"); (s "id", vstr "i"); (s "leaf", FM [(s "a", vstr "x"); (s "n", vint 9)]); (s "tags", FL [vstr "t"])].
Definition nul_json : json :=
  JObj [(s "nick", JStr (s "n")); (s "id", JStr (s "i")); (s "leaf", JObj [(s "a", JStr (s "x")); (s "n", JStr (s "9"))]);
        (s "tags", JArr [JStr (s "t")]); (s "age", JNull); (s "big", JNull); (s "ok", JNull)].

Example message_conforms_nullable_nonvacuous :
  k6_common (k6q "Nul") k6_nul nul_value /\
  owner_of k6s k6_nul = Own FtNullable /\ nulplain_msg k6_nul = true /\ nullable_shape k6s k6_nul = true /\
  kids_plain k6s k6_nul nul_value = true /\
  encode Ex k6s (k6q "Nul") nul_value = ROk nul_json /\
  (forall fuel, (need (FM nul_value) <= fuel)%nat ->
     validates P06 (cd_tcs k6doc) fuel (body_schema (k6q "Nul")) (wire_jv nul_json) = VOk true) /\
  (forall uf vf, und P06 (cd_tcs k6doc) uf vf (body_schema (k6q "Nul")) (wire_jv nul_json) = 0%nat) /\
  k6_verdict (k6q "Nul") nul_value = ROk (nul_json, VOk true, 0).
Proof.
  apply conj_then; [apply k6_common_intro; vm_compute; repeat split; reflexivity|intros Hc].
  apply conj_then; [vm_compute; reflexivity|intros Hown].
  apply conj_then; [vm_compute; reflexivity|intros Hpl].
  apply conj_then; [vm_compute; reflexivity|intros Hsh].
  apply conj_then; [vm_compute; reflexivity|intros Hk].
  apply conj_then; [vm_compute; reflexivity|intros Henc].
  destruct Hc as [_ [Htcs [Hts [Htn [Hwk [Hfm [Hnd [Hwt Hd]]]]]]]]. rewrite Htcs.
  destruct (message_conforms_nullable Ex k6s P06 (cd_cs k6doc) (k6q "Nul") k6_nul nul_value nul_json Ex_fprint_is_number P06_formats
              Hts Htn Hwk Hfm Hown Hnd Hpl Hsh Hwt Hk Hd (or_introl Henc)) as [H1 H2].
  split; [exact H1|]. split; [exact H2|]. vm_compute. reflexivity.
Qed.

(* int64_encoding = NUMBER: beyond 2^53, the largest uint64, a repeated field with a zero element *)
Definition nums_value : mval :=
  [(s "big", vint (-9007199254740993)); (s "ubig", vint 18446744073709551615); (s "many", FL [vint 0; vint (-5)]);
   (s "plain_big", vint 7); (s "leaf", FM [(s "n", vint 3)]); (s "by_key", FMap [(VStr (s "k"), FM [(s "a", vstr "x")])])].
Definition nums_json : json :=
  JObj [(s "big", JNum (-9007199254740993)); (s "ubig", JNum 18446744073709551615); (s "many", JArr [JNum 0; JNum (-5)]);
        (s "plainBig", JStr (s "7")); (s "leaf", JObj [(s "n", JStr (s "3"))]); (s "byKey", JObj [(s "k", JObj [(s "a", JStr (s "x"))])])].

Example message_conforms_int64_nonvacuous :
  k6_common (k6q "Nums") k6_nums nums_value /\
  owner_of k6s k6_nums = Own FtInt64 /\ buildable k6s FtInt64 k6_nums = true /\ i64plain_msg k6_nums = true /\
  kids_plain k6s k6_nums nums_value = true /\
  encode Ex k6s (k6q "Nums") nums_value = ROk nums_json /\
  (forall fuel, (need (FM nums_value) <= fuel)%nat ->
     validates P06 (cd_tcs k6doc) fuel (body_schema (k6q "Nums")) (wire_jv nums_json) = VOk true) /\
  (forall uf vf, und P06 (cd_tcs k6doc) uf vf (body_schema (k6q "Nums")) (wire_jv nums_json) = 0%nat) /\
  k6_verdict (k6q "Nums") nums_value = ROk (nums_json, VOk true, 0).
Proof.
  apply conj_then; [apply k6_common_intro; vm_compute; repeat split; reflexivity|intros Hc].
  apply conj_then; [vm_compute; reflexivity|intros Hown].
  apply conj_then; [vm_compute; reflexivity|intros Hb].
  apply conj_then; [vm_compute; reflexivity|intros Hpl].
  apply conj_then; [vm_compute; reflexivity|intros Hk].
  apply conj_then; [vm_compute; reflexivity|intros Henc].
  destruct Hc as [_ [Htcs [Hts [Htn [Hwk [Hfm [Hnd [Hwt Hd]]]]]]]]. rewrite Htcs.
  destruct (message_conforms_int64 Ex k6s P06 (cd_cs k6doc) (k6q "Nums") k6_nums nums_value nums_json Ex_fprint_is_number P06_formats
              Hts Htn Hwk Hfm Hown Hb Hnd Hpl Hwt Hk Hd (or_introl Henc)) as [H1 H2].
  split; [exact H1|]. split; [exact H2|]. vm_compute. reflexivity.
Qed.

(* bytes_encoding: hex, base64 raw, base64url, base64url raw, beside default base64 *)
Definition blob_value : mval :=
  [(s "h", FS (VBytes [ch 105; ch 183])); (s "raw_b", FS (VBytes [ch 251])); (s "url_b", FS (VBytes [ch 251; ch 255; ch 254]));
   (s "url_raw", FS (VBytes [ch 251])); (s "plain_b", FS (VBytes [ch 255])); (s "id", vstr "i"); (s "leaf", FM [(s "a", vstr "x")])].
Definition blob_json : json :=
  JObj [(s "h", JStr (s "69b7")); (s "rawB", JStr (s "+w")); (s "urlB", JStr (s "-__-")); (s "urlRaw", JStr (s "-w"));
        (s "plainB", JStr (s "/w==")); (s "id", JStr (s "i")); (s "leaf", JObj [(s "a", JStr (s "x"))])].

Example message_conforms_bytes_nonvacuous :
  k6_common (k6q "Blob") k6_blob blob_value /\
  owner_of k6s k6_blob = Own FtBytes /\ buildable k6s FtBytes k6_blob = true /\ bytesplain_msg k6_blob = true /\
  forallb (bytes_value_ok k6s k6_blob) blob_value = true /\
  encode Ex k6s (k6q "Blob") blob_value = ROk blob_json /\
  (forall fuel, (need (FM blob_value) <= fuel)%nat ->
     validates P06 (cd_tcs k6doc) fuel (body_schema (k6q "Blob")) (wire_jv blob_json) = VOk true) /\
  (forall uf vf, und P06 (cd_tcs k6doc) uf vf (body_schema (k6q "Blob")) (wire_jv blob_json) = 0%nat) /\
  k6_verdict (k6q "Blob") blob_value = ROk (blob_json, VOk true, 0).
Proof.
  apply conj_then; [apply k6_common_intro; vm_compute; repeat split; reflexivity|intros Hc].
  apply conj_then; [vm_compute; reflexivity|intros Hown].
  apply conj_then; [vm_compute; reflexivity|intros Hb].
  apply conj_then; [vm_compute; reflexivity|intros Hpl].
  apply conj_then; [vm_compute; reflexivity|intros Hk].
  apply conj_then; [vm_compute; reflexivity|intros Henc].
  destruct Hc as [_ [Htcs [Hts [Htn [Hwk [Hfm [Hnd [Hwt Hd]]]]]]]]. rewrite Htcs.
  destruct (message_conforms_bytes Ex k6s P06 (cd_cs k6doc) (k6q "Blob") k6_blob blob_value blob_json Ex_fprint_is_number P06_formats
              P06_codec_params Hts Htn Hwk Hfm Hown Hb Hnd Hpl Hwt Hk Hd (or_introl Henc)) as [H1 H2].
  split; [exact H1|]. split; [exact H2|]. vm_compute. reflexivity.
Qed.

(* timestamp_format: negative seconds with nanos under each format *)
Definition times_value : mval :=
  [(s "at_secs", tsv (-5) 999999999); (s "at_millis", tsv (-2) 500999999); (s "on_day", tsv (-1) 7);
   (s "plain_at", tsv 1 5); (s "id", vstr "x")].
Definition times_json : json :=
  JObj [(s "atSecs", JNum (-5)); (s "atMillis", JNum (-1500)); (s "onDay", JStr (s "1969-12-31"));
        (s "plainAt", JStr (s "1970-01-01T00:00:01.000000005Z")); (s "id", JStr (s "x"))].

Example message_conforms_ts_nonvacuous :
  k6_common (k6q "Times") k6_times times_value /\
  owner_of k6s k6_times = Own FtTs /\ buildable k6s FtTs k6_times = true /\ forallb tsplain_field (m_fields k6_times) = true /\
  forallb (ts_entry_ok k6s k6_times) times_value = true /\
  encode Ex k6s (k6q "Times") times_value = ROk times_json /\
  (forall fuel, (need (FM times_value) <= fuel)%nat ->
     validates P06 (cd_tcs k6doc) fuel (body_schema (k6q "Times")) (wire_jv times_json) = VOk true) /\
  (forall uf vf, und P06 (cd_tcs k6doc) uf vf (body_schema (k6q "Times")) (wire_jv times_json) = 0%nat) /\
  k6_verdict (k6q "Times") times_value = ROk (times_json, VOk true, 0).
Proof.
  apply conj_then; [apply k6_common_intro; vm_compute; repeat split; reflexivity|intros Hc].
  apply conj_then; [vm_compute; reflexivity|intros Hown].
  apply conj_then; [vm_compute; reflexivity|intros Hb].
  apply conj_then; [vm_compute; reflexivity|intros Hpl].
  apply conj_then; [vm_compute; reflexivity|intros Hk].
  apply conj_then; [vm_compute; reflexivity|intros Henc].
  destruct Hc as [_ [Htcs [Hts [Htn [Hwk [Hfm [Hnd [Hwt Hd]]]]]]]]. rewrite Htcs.
  destruct (message_conforms_ts Ex k6s P06 (cd_cs k6doc) (k6q "Times") k6_times times_value times_json Ex_fprint_is_number P06_formats
              P06_codec_params Hts Htn Hwk Hfm Hown Hb Hnd Hpl Hwt Hk Hd (or_introl Henc)) as [H1 H2].
  split; [exact H1|]. split; [exact H2|]. vm_compute. reflexivity.
Qed.

(* empty_behavior: PRESERVE / NULL / OMIT on empty children, NULL on a non-empty child and on a Timestamp *)
Definition emp_value : mval :=
  [(s "keep_it", FM []); (s "nul_it", FM []); (s "nul_full", FM [(s "a", vstr "f")]); (s "omit_it", FM []);
   (s "nul_at", tsv 5 0); (s "id", vstr "i")].
Definition emp_json : json :=
  JObj [(s "keepIt", JObj []); (s "nulIt", JNull); (s "nulFull", JObj [(s "a", JStr (s "f"))]);
        (s "nulAt", JStr (s "1970-01-01T00:00:05Z")); (s "id", JStr (s "i"))].

Example message_conforms_empty_nonvacuous :
  k6_common (k6q "Emp") k6_emp emp_value /\
  owner_of k6s k6_emp = Own FtEmpty /\ buildable k6s FtEmpty k6_emp = true /\ empplain_msg k6_emp = true /\
  kids_plain k6s k6_emp emp_value = true /\
  encode Ex k6s (k6q "Emp") emp_value = ROk emp_json /\
  (forall fuel, (need (FM emp_value) <= fuel)%nat ->
     validates P06 (cd_tcs k6doc) fuel (body_schema (k6q "Emp")) (wire_jv emp_json) = VOk true) /\
  (forall uf vf, (need (FM emp_value) <= vf)%nat -> und P06 (cd_tcs k6doc) uf vf (body_schema (k6q "Emp")) (wire_jv emp_json) = 0%nat) /\
  need (FM emp_value) = 7%nat /\
  k6_verdict (k6q "Emp") emp_value = ROk (emp_json, VOk true, 0).
Proof.
  apply conj_then; [apply k6_common_intro; vm_compute; repeat split; reflexivity|intros Hc].
  apply conj_then; [vm_compute; reflexivity|intros Hown].
  apply conj_then; [vm_compute; reflexivity|intros Hb].
  apply conj_then; [vm_compute; reflexivity|intros Hpl].
  apply conj_then; [vm_compute; reflexivity|intros Hk].
  apply conj_then; [vm_compute; reflexivity|intros Henc].
  destruct Hc as [_ [Htcs [Hts [Htn [Hwk [Hfm [Hnd [Hwt Hd]]]]]]]]. rewrite Htcs.
  destruct (message_conforms_empty Ex k6s P06 (cd_cs k6doc) (k6q "Emp") k6_emp emp_value emp_json Ex_fprint_is_number P06_formats
              Hts Htn Hwk Hfm Hown Hb Hnd Hpl Hwt Hk Hd (or_introl Henc)) as [H1 H2].
  split; [exact H1|]. split; [intros uf vf Hvf; apply H2; now right|]. split; vm_compute; reflexivity.
Qed.

(* `optional Color color = 1 [(sebuf.http.nullable) = true]` passes annotations.ValidateNullableAnnotation
   (nullable.go:46-70 refuses only non-optional and message fields); httpgen/nullable.go:147-156 sends "color": null when
   the field is unset.  Since /repo 5062ef6 makeNullableSchema (openapiv3/types.go:101-105) appends "null" to `type` AND a
   !!null member to every non-empty `enum`; before it `enum` was left as it was and {type: [string, null],
   enum: [COLOR_UNSPECIFIED, COLOR_RED]} rejected that null (finding nullable-enum-null-not-in-enum).  The message is an
   instance of message_conforms_nullable, with the field unset and with it set. *)
Definition nulenum_unset : mval := [(s "id", vstr "x")].
Definition nulenum_unset_json : json := JObj [(s "id", JStr (s "x")); (s "color", JNull)].
Definition nulenum_set : mval := [(s "color", FS (VEnum 1)); (s "id", vstr "x")].
Definition nulenum_set_json : json := JObj [(s "color", JStr (s "COLOR_RED")); (s "id", JStr (s "x"))].

Example message_conforms_nullable_enum_nonvacuous :
  owner_of k6s k6_nulenum = Own FtNullable /\ nulplain_msg k6_nulenum = true /\ nullable_shape k6s k6_nulenum = true /\
  (k6_common (k6q "NulEnum") k6_nulenum nulenum_unset /\ kids_plain k6s k6_nulenum nulenum_unset = true /\
   encode Ex k6s (k6q "NulEnum") nulenum_unset = ROk nulenum_unset_json /\
   (forall fuel, (need (FM nulenum_unset) <= fuel)%nat ->
      validates P06 (cd_tcs k6doc) fuel (body_schema (k6q "NulEnum")) (wire_jv nulenum_unset_json) = VOk true) /\
   (forall uf vf, und P06 (cd_tcs k6doc) uf vf (body_schema (k6q "NulEnum")) (wire_jv nulenum_unset_json) = 0%nat) /\
   k6_verdict (k6q "NulEnum") nulenum_unset = ROk (nulenum_unset_json, VOk true, 0)) /\
  (k6_common (k6q "NulEnum") k6_nulenum nulenum_set /\ kids_plain k6s k6_nulenum nulenum_set = true /\
   encode Ex k6s (k6q "NulEnum") nulenum_set = ROk nulenum_set_json /\
   (forall fuel, (need (FM nulenum_set) <= fuel)%nat ->
      validates P06 (cd_tcs k6doc) fuel (body_schema (k6q "NulEnum")) (wire_jv nulenum_set_json) = VOk true) /\
   (forall uf vf, und P06 (cd_tcs k6doc) uf vf (body_schema (k6q "NulEnum")) (wire_jv nulenum_set_json) = 0%nat) /\
   k6_verdict (k6q "NulEnum") nulenum_set = ROk (nulenum_set_json, VOk true, 0)).
Proof.
  apply conj_then; [vm_compute; reflexivity|intros Hown].
  apply conj_then; [vm_compute; reflexivity|intros Hpl].
  apply conj_then; [vm_compute; reflexivity|intros Hsh].
  split.
  all: apply conj_then; [apply k6_common_intro; vm_compute; repeat split; reflexivity|intros Hc].
  all: apply conj_then; [vm_compute; reflexivity|intros Hk].
  all: apply conj_then; [vm_compute; reflexivity|intros Henc].
  all: destruct Hc as [_ [Htcs [Hts [Htn [Hwk [Hfm [Hnd [Hwt Hd]]]]]]]]; rewrite Htcs.
  all: destruct (message_conforms_nullable Ex k6s P06 (cd_cs k6doc) (k6q "NulEnum") k6_nulenum _ _ Ex_fprint_is_number P06_formats
                   Hts Htn Hwk Hfm Hown Hnd Hpl Hsh Hwt Hk Hd (or_introl Henc)) as [H1 H2].
  all: split; [exact H1|]; split; [exact H2|]; vm_compute; reflexivity.
Qed.

(* what is published and what it admits: {type: [string, null], enum: [names..., null]}; the null and each name validate,
   any other string does not.  Likewise with enum_value custom strings and with enum_encoding = NUMBER (a schema with an
   `enum` keyword whatever its members): null joins the list. *)
Example nullable_enum_null_validates :
  let sch := typed (convert_field k6s no_side (k6q "NulEnum") k6_color_field) in
  convert_field k6s no_side (k6q "NulEnum") k6_color_field
    = YMap [(s "type", YSeq [YGoStr (s "string"); YGoStr (s "null")]);
            (s "enum", YSeq [YPlain (s "COLOR_UNSPECIFIED"); YPlain (s "COLOR_RED"); YNull])] /\
  sch = SObj [KwType [TString; TNull]; KwEnum [JVStr (s "COLOR_UNSPECIFIED"); JVStr (s "COLOR_RED"); JVNull]] /\
  schema_of_jv schema_fuel (denote reader11 (convert_field k6s no_side (k6q "NulEnum") k6_color_field)) = sch /\
  validates P06 (cd_tcs k6doc) c06_fuel sch JVNull = VOk true /\
  validates P06 (cd_tcs k6doc) c06_fuel sch (JVStr (s "COLOR_UNSPECIFIED")) = VOk true /\
  validates P06 (cd_tcs k6doc) c06_fuel sch (JVStr (s "COLOR_RED")) = VOk true /\
  validates P06 (cd_tcs k6doc) c06_fuel sch (JVStr (s "COLOR_BLUE")) = VOk false /\
  defects_C06 k6s no_side (cd_cs k6doc) (k6q "NulEnum") nulenum_unset = [] /\
  validates P06 (cd_tcs k6doc) c06_fuel (body_schema (k6q "NulEnum")) (wire_jv nulenum_unset_json) = VOk true /\
  typed (convert_field k6s no_side (k6q "NulEnum2") k6_shade_field)
    = SObj [KwType [TString; TNull]; KwEnum [JVStr (s "none"); JVStr (s "dark"); JVNull]] /\
  typed (convert_field k6s no_side (k6q "NulEnum2") k6_colornum_field)
    = SObj [KwType [TInteger; TNull]; KwEnum [JVNum (dec_of_Z 0); JVNum (dec_of_Z 1); JVNull]] /\
  k6_verdict (k6q "NulEnum2") [(s "id", vstr "x")]
    = ROk (JObj [(s "id", JStr (s "x")); (s "shade", JNull); (s "colorNum", JNull)], VOk true, 0).
Proof. vm_compute. repeat split; reflexivity. Qed.

(* an enum WITHOUT values (protoc and protodesc refuse it: "enums must contain at least one value"; no real schema has
   one): the model publishes `enum: []`, makeNullableSchema extends only a non-empty list (types.go:103), and the null of
   the unset field matches no member.  Every other hypothesis of message_conforms_nullable holds. *)
Example message_conforms_nullable_needs_inhabited :
  let m := [(s "id", vstr "x")] in
  let j := JObj [(s "id", JStr (s "x")); (s "void", JNull)] in
  k6_common (k6q "NulVoid") k6_nulvoid m /\
  owner_of k6s k6_nulvoid = Own FtNullable /\ nulplain_msg k6_nulvoid = true /\ kids_plain k6s k6_nulvoid m = true /\
  nullable_shape k6s k6_nulvoid = false /\ nullable_enums_inhabited k6s k6_nulvoid = false /\
  forallb (fun f => negb (is_nullable f) || (singularish f && nullable_kind (f_kind f))) (m_fields k6_nulvoid) = true /\
  encode Ex k6s (k6q "NulVoid") m = ROk j /\
  typed (convert_field k6s no_side (k6q "NulVoid") (set_nullable (fld "void" 1 (KEnum (k6q "Void")) Optional)))
    = SObj [KwType [TString; TNull]; KwEnum []] /\
  validates P06 (cd_tcs k6doc) c06_fuel (body_schema (k6q "NulVoid")) (wire_jv j) = VOk false.
Proof. intros m j. split; [apply k6_common_intro|]; vm_compute; repeat split; reflexivity. Qed.

(* nullable on a message field: makeNullableSchema finds no `type` beside the $ref and changes nothing, null is rejected by
   the referenced object schema.  (The generator itself refuses this placement, nullable.go:60-67.) *)
Example message_conforms_nullable_needs_nonmessage :
  let m := [(s "id", vstr "x")] in
  let j := JObj [(s "id", JStr (s "x")); (s "leaf", JNull)] in
  k6_common (k6q "NulMsg") k6_nulmsg m /\
  owner_of k6s k6_nulmsg = Own FtNullable /\ nulplain_msg k6_nulmsg = true /\ kids_plain k6s k6_nulmsg m = true /\
  nullable_shape k6s k6_nulmsg = false /\
  encode Ex k6s (k6q "NulMsg") m = ROk j /\
  validates P06 (cd_tcs k6doc) c06_fuel (body_schema (k6q "NulMsg")) (wire_jv j) = VOk false.
Proof. intros m j. split; [apply k6_common_intro|]; vm_compute; repeat split; reflexivity. Qed.

(* nullable on a repeated field: convertField returns the array schema before it looks at nullable (types.go:30-45), the
   unset field is still sent as null.  (Refused by the generator as well: not an `optional` field.) *)
Example message_conforms_nullable_needs_singular :
  let m := [(s "id", vstr "x")] in
  let j := JObj [(s "id", JStr (s "x")); (s "tags", JNull)] in
  k6_common (k6q "NulRep") k6_nulrep m /\
  owner_of k6s k6_nulrep = Own FtNullable /\ nulplain_msg k6_nulrep = true /\ kids_plain k6s k6_nulrep m = true /\
  nullable_shape k6s k6_nulrep = false /\
  encode Ex k6s (k6q "NulRep") m = ROk j /\
  validates P06 (cd_tcs k6doc) c06_fuel (body_schema (k6q "NulRep")) (wire_jv j) = VOk false.
Proof. intros m j. split; [apply k6_common_intro|]; vm_compute; repeat split; reflexivity. Qed.

(* empty_behavior = NULL: the walk for undescribed properties enters `oneOf [T, null]` only through a branch the value
   validates against, so with too little validation fuel the keys of a non-empty child count as undescribed
   (the correspondence run uses c06_fuel = 120) *)
Example message_conforms_empty_needs_fuel :
  und P06 (cd_tcs k6doc) und_fuel 2 (body_schema (k6q "Emp")) (wire_jv emp_json) = 1%nat /\
  und P06 (cd_tcs k6doc) und_fuel 3 (body_schema (k6q "Emp")) (wire_jv emp_json) = 0%nat /\
  existsb empty_null (m_fields k6_emp) = true.
Proof. vm_compute. repeat split; reflexivity. Qed.

(* an epoch Timestamp under empty_behavior = NULL is sent as null and validates as well *)
Example message_conforms_empty_null_timestamp :
  k6_verdict (k6q "Emp") [(s "nul_at", FM []); (s "id", vstr "i")] = ROk (JObj [(s "nulAt", JNull); (s "id", JStr (s "i"))], VOk true, 0).
Proof. vm_compute. reflexivity. Qed.
Close Scope Z_scope.
