(* Int64Conforms.v — C05 (Impl = Spec) for the int64 NUMBER codec: a top-level message whose only annotations are
   int64_encoding options (NUMBER on singular / repeated 64-bit fields; STRING, UNSPECIFIED, or an option
   on a field it does not apply to, anywhere), with un-annotated children, is sent exactly as the
   documented mapping says, for all well-typed values.  NUMBER on a map with 64-bit values is excluded:
   the emitter skips map fields (encoding.go:22-54: isInt64Type looks at the field's own kind) — refutation at the end. *)
From Sebuf Require Import CodecCases.
From SebufProofs Require Import ProtoJsonFacts NullableFacts.
From SebufProofs Require Import MappingFacts ConformsBase Int64Facts.
From Coq Require Import ZArith List.
Import ListNotations.

Open Scope Z_scope.

(* the option asks for numbers and the field holds 64-bit integers *)
Definition i64_effective (f : field) : bool :=
  is_int64_kind (f_kind f) && match f_int64 f with Some I64Number => true | _ => false end.

(* no annotation other than int64_encoding, and NUMBER is not put on a map *)
Definition i64plain_field (f : field) : bool :=
  negb (f_unwrap f) && is_none (f_enumenc f) && is_none (f_nullable f) && is_none (f_empty f) &&
  is_none (f_tsfmt f) && is_none (f_bytesenc f) && is_none (f_oneof_value f) && is_none (f_flatten f) &&
  is_none (f_flatten_prefix f) && (negb (i64_effective f) || negb (is_map f)).
Definition i64plain_msg (md : message) : bool :=
  forallb i64plain_field (m_fields md) && forallb (fun o => negb (o_has_cfg o)) (m_oneofs md).

Lemma i64plain_facts f : i64plain_field f = true ->
  f_enumenc f = None /\ f_tsfmt f = None /\ f_bytesenc f = None /\ is_number_i64 f = i64_effective f.
Proof.
  unfold i64plain_field.
  intros [[[[[[[[[_ He]%andb_prop _]%andb_prop _]%andb_prop Ht]%andb_prop Hb]%andb_prop _]%andb_prop _]%andb_prop
            _]%andb_prop Hlast]%andb_prop.
  repeat split; try (apply is_none_true; assumption).
  unfold is_number_i64, i64_effective in *.
  destruct (is_int64_kind (f_kind f)); [|reflexivity].
  destruct (is_map f); [|destruct (f_int64 f) as [[| |]|]; reflexivity].
  destruct (f_int64 f) as [[| |]|]; try reflexivity. discriminate Hlast.
Qed.

Lemma i64plain_inert f : i64plain_field f = true -> is_number_i64 f = false -> inert_at f (f_kind f) = true.
Proof.
  intros H En. destruct (i64plain_facts f H) as [He [Ht [Hb Heff]]]. unfold i64_effective in Heff.
  unfold inert_at. rewrite <- Heff, En, He, Ht, Hb. destruct (f_kind f); try reflexivity. apply Bool.orb_true_r.
Qed.

(* Spec side: a value under a field whose int64_encoding option has no effect is proto3 JSON *)
Section Plain64.
Variable E : ExtLib.
Variable sc : schema.

Definition ctx_ok64 (ctx : option field) (k : kind) : Prop :=
  match ctx with
  | Some f => f_enumenc f = None /\ f_bytesenc f = None /\ f_tsfmt f = None /\
              (is_int64_kind k && match f_int64 f with Some I64Number => true | _ => false end) = false
  | None => True
  end.

Theorem mapping_plain64 : forall v ctx k,
  ctx_ok64 ctx k -> plain_in sc k v = true -> mp_fval E sc ctx k v = pj_fval E sc k v.
Proof.
  intros v [f|] k Hc Hp; [|apply mapping_plain_none; exact Hp].
  destruct Hc as [He [Hb [Ht Hi]]]. apply mapping_plain_inert; [|exact Hp].
  unfold inert_at. rewrite Hi, He, Hb, Ht. destruct k; try reflexivity. apply Bool.orb_true_r.
Qed.

(* Spec side of a NUMBER field *)
Lemma mp_scalar_num f z : is_number_i64 f = true -> mp_scalar E sc (Some f) (f_kind f) (VInt z) = ROk (JNum z).
Proof.
  intros Hn. destruct (number_i64_facts f Hn) as [Hk [_ Hi]]. rewrite mp_scalar_int, Hk, Hi. reflexivity.
Qed.
Lemma mp_list_num f zs : is_number_i64 f = true ->
  mp_list E sc (Some f) (f_kind f) (map vint64 zs) = ROk (map JNum zs).
Proof.
  intros Hn. induction zs as [|z r IH]; [reflexivity|].
  cbn [map mp_list]. unfold vint64 at 1. rewrite mp_fval_FS, (mp_scalar_num f z Hn), IH. reflexivity.
Qed.
Lemma mp_num f x : is_number_i64 f = true -> shape f x ->
  mp_fval E sc (Some f) (f_kind f) x = ROk (num_json x).
Proof.
  intros Hn [[_ [z [Hx _]]]|[_ [zs [Hx _]]]]; subst x.
  - rewrite mp_fval_FS. apply mp_scalar_num. exact Hn.
  - rewrite mp_fval_FL, (mp_list_num f zs Hn). simpl. rewrite map_num_elem. reflexivity.
Qed.
End Plain64.

Section Conforms.
Variable E : ExtLib.
Variable sc : schema.

Theorem conforms_int64 : forall tn md m,
  str_eqb tn ts_name = false -> is_wkt_other tn = false ->
  find_message (all_messages sc) tn = Some md -> owner_of sc md = Own FtInt64 ->
  buildable sc FtInt64 md = true ->
  nodup_str (map jn (m_fields md)) = true ->
  i64plain_msg md = true ->
  wt sc (KMessage tn) (FM m) = true ->
  forallb (fun e => match find_field (m_fields md) (fst e) with
                    | Some f => plain_in sc (f_kind f) (snd e)
                    | None => false end) m = true ->
  encode E sc tn m = to_json E sc tn m.
Proof.
  intros tn md m Hts Hwk Hfm Hown Hb Hnd Hmd Hwt Hch.
  destruct (wt_message sc tn m Hts Hwt) as [_ [md' [Hfm' [_ [_ [Hsorted Hwf]]]]]]. assert (md' = md) by congruence. subst md'.
  unfold i64plain_msg in Hmd. apply andb_prop in Hmd. destruct Hmd as [Hf _]. rewrite forallb_forall in Hf.
  apply (conforms_keylocal E sc FtInt64 tn md m eq_refl Hts Hwk Hfm Hown Hb Hnd (wt_fields_declared sc md m Hwf)).
  intros n x f Hin Hfd Hinf Hname Hfl Hoo Hem. specialize (Hem ltac:(discriminate)).
  destruct (wt_fields_in sc md m n x Hwf Hin) as [f' [Hfd' Hw]]. assert (f' = f) by congruence. subst f'.
  pose proof (sorted_mget md m n x Hsorted Hin) as Hm. rewrite <- Hname in Hm.
  cbn [act_of]. destruct (is_number_i64 f) eqn:En.
  - (* a NUMBER field: both sides write the numbers *)
    pose proof (shape_of_wt sc md f x Hb Hinf En Hw) as Hsh. destruct (number_i64_facts f En) as [Hk _].
    rewrite (mp_entry_default E sc md n f x Hem Hfl Hoo), (mp_num E sc f x En Hsh), (pj_num E sc f x Hk Hsh).
    rewrite (act_int64_shape m f x En Hm Hsh). reflexivity.
  - assert (Ha : act_int64 m f = None) by (unfold act_int64; rewrite En; reflexivity). rewrite Ha.
    exact (mp_entry_keep E sc md n f x Hem Hfl Hoo (i64plain_inert f (Hf f Hinf) En) (plain_children_in sc md m n x f Hch Hin Hfd)).
Qed.
End Conforms.
Close Scope Z_scope.

From SebufProofs Require Import CodecExamples.
Open Scope Z_scope.

Example conforms_int64_nonvacuous :
  exists md,
    find_message (all_messages i64s) (q "Wide") = Some md /\ owner_of i64s md = Own FtInt64 /\
    buildable i64s FtInt64 md = true /\ nodup_str (map jn (m_fields md)) = true /\ i64plain_msg md = true /\
    wt i64s (KMessage (q "Wide")) (FM wide_val) = true /\
    forallb (fun e => match find_field (m_fields md) (fst e) with
                      | Some f => plain_in i64s (f_kind f) (snd e)
                      | None => false end) wide_val = true /\
    encode Ex i64s (q "Wide") wide_val = ROk wide_json /\ to_json Ex i64s (q "Wide") wide_val = ROk wide_json.
Proof. eexists. split; [reflexivity|]. vm_compute. repeat split. Qed.

(* a value that lists a zero singular field is not a proto3 value ([wt_entry] asks that a listed scalar be populated); MarshalJSON deletes the key
   (`if x.Big == 0 { delete(raw, "big") }`), the mapping applied to that non-canonical term does not *)
Example conforms_int64_needs_wt :
  let m := [(s "big", vint 0)] in
  exists md,
    find_message (all_messages xs) (q "Nums") = Some md /\ owner_of xs md = Own FtInt64 /\
    buildable xs FtInt64 md = true /\ nodup_str (map jn (m_fields md)) = true /\ i64plain_msg md = true /\
    forallb (fun e => match find_field (m_fields md) (fst e) with
                      | Some f => plain_in xs (f_kind f) (snd e)
                      | None => false end) m = true /\
    wt xs (KMessage (q "Nums")) (FM m) = false /\
    encode Ex xs (q "Nums") m = ROk (JObj []) /\ to_json Ex xs (q "Nums") m = ROk (JObj [(s "big", JNum 0)]).
Proof. eexists. split; [reflexivity|]. vm_compute. repeat split. Qed.

(* NUMBER on a map with 64-bit values: the emitter skips map fields, the server sends strings
   (defect class annotation-on-map-field-skipped:int64-number, C05_refuted_map_int64) *)
Example conforms_int64_needs_nonmap :
  let m := [(s "by_k", FMap [(VStr (s "k"), vint 5)])] in
  exists md,
    find_message (all_messages xs) (q "NumMap") = Some md /\ owner_of xs md = Own FtInt64 /\
    buildable xs FtInt64 md = true /\ nodup_str (map jn (m_fields md)) = true /\
    wt xs (KMessage (q "NumMap")) (FM m) = true /\
    forallb (fun e => match find_field (m_fields md) (fst e) with
                      | Some f => plain_in xs (f_kind f) (snd e)
                      | None => false end) m = true /\
    i64plain_msg md = false /\
    encode Ex xs (q "NumMap") m = ROk (JObj [(s "byK", JObj [(s "k", JStr (s "5"))])]) /\
    to_json Ex xs (q "NumMap") m = ROk (JObj [(s "byK", JObj [(s "k", JNum 5)])]).
Proof. eexists. split; [reflexivity|]. vm_compute. repeat split. Qed.

(* NUMBER on an `optional` 64-bit field: the emitted MarshalJSON does not compile (C13); the model declines *)
Example conforms_int64_needs_buildable :
  let m := [(s "o", vint 5)] in
  exists md w,
    find_message (all_messages i64s) (q "Opt") = Some md /\ owner_of i64s md = Own FtInt64 /\
    nodup_str (map jn (m_fields md)) = true /\ i64plain_msg md = true /\
    wt i64s (KMessage (q "Opt")) (FM m) = true /\
    buildable i64s FtInt64 md = false /\
    encode Ex i64s (q "Opt") m = RUnm w /\ to_json Ex i64s (q "Opt") m = ROk (JObj [(s "o", JNum 5)]).
Proof. eexists. eexists. split; [reflexivity|]. vm_compute. repeat split; reflexivity. Qed.
Close Scope Z_scope.
