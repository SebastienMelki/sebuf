(* ErrorsFacts.v — C10, error responses.  Server side: the status, content type and body of serve_error
   are the documented ones outside the defect classes (server_documented, status_body).  Wire: a
   ValidationError / Error body read back by the client's parsers is the value written (the _roundtrip
   lemmas, parse_validation_own, parse_error_own).  Client side: what the Go client returns for each status (client_go_400, client_sound), the
   two ends composed (call_validation, call_error), and the TS server / TS client counterparts. *)
From Sebuf Require Import Text Num Schema Json Headers Errors.

Lemma unwrapped_is_error e :
  wraps_custom (HWrap e) = false -> wraps_validation (HWrap e) = false -> exists t, documented_msg e = PError t.
Proof.
  induction e as [m|m|vs|c|e IH]; cbn; intros C V; try discriminate; eauto.
  destruct (IH C V) as [t Ht]. rewrite Ht. eauto.
Qed.

Lemma documented_is_final e :
  wraps_custom e = false -> wraps_validation e = false -> documented_msg e = handler_final e.
Proof.
  destruct e as [m|m|vs|c|e]; cbn; intros C V; try reflexivity.
  destruct (unwrapped_is_error e C V) as [t Ht]. now rewrite Ht.
Qed.

Lemma app_nil_both {A} (a b : list A) : a ++ b = [] -> a = [] /\ b = [].
Proof. apply app_eq_nil. Qed.

Lemma server_documented src ct :
  server_defects src None ct = [] ->
  serve_error src None ct = documented_response (documented_final src) None ct.
Proof.
  unfold server_defects. intros D. apply app_eq_nil in D as [D1 _].
  unfold serve_error, write_error, documented_response. 
  assert (E : final_of src = documented_final src).
  { destruct src as [vs|vs|e]; try reflexivity. cbn in *. apply app_eq_nil in D1 as [Dc Dv].
    symmetry. apply documented_is_final.
    - destruct (wraps_custom e); [discriminate|reflexivity].
    - destruct (wraps_validation e); [discriminate|reflexivity]. }
  now rewrite E.
Qed.

Lemma codec_irrelevant c : codec_matters c = false -> custom_json false c = custom_json true c.
Proof.
  unfold codec_matters, custom_json. intros H. f_equal.
  induction (cm_fields c) as [|f r IH]; cbn in *; [reflexivity|].
  apply orb_false_iff in H as [Hf Hr]. rewrite (IH Hr). f_equal.
  destruct f as [n nm v|n nm v|n nm num v]; try reflexivity. cbn.
  destruct num; [|reflexivity]. apply negb_false_iff in Hf. now rewrite Hf.
Qed.

Lemma status_body src ct :
  server_defects src None ct = [] ->
  let r := serve_error src None ct in
  r_status r = default_status (documented_final src) /\
  r_body r = BMsg (documented_final src) /\
  r_enc r = server_enc ct /\ r_ct r = ct_of_enc (server_enc ct) /\
  (forall c, r_body r = BMsg (PCustom c) -> r_enc r = EJson -> custom_json false c = custom_json true c).
Proof.
  intros D. cbv zeta. pose proof (server_documented _ _ D) as E.
  split; [now rewrite E|]. split; [now rewrite E|]. split; [now rewrite E|]. split; [now rewrite E|].
  intros c Hb He. apply codec_irrelevant.
  unfold server_defects in D. apply app_eq_nil in D as [_ D]. apply app_eq_nil in D as [_ D].
  rewrite He, Hb in D. cbn in D. destruct (codec_matters c); [discriminate|reflexivity].
Qed.

Lemma violation_roundtrip fd :
  json_as_violation (JObj ((match fst fd with [] => [] | f => [(s "field", JStr f)] end) ++
                           (match snd fd with [] => [] | d => [(s "description", JStr d)] end))) = Some fd.
Proof.
  destruct fd as [[|a f] [|b d]]; reflexivity.
Qed.

Lemma violations_roundtrip vs :
  all_some (map json_as_violation
    (map (fun fd => JObj ((match fst fd with [] => [] | f => [(s "field", JStr f)] end) ++
                          (match snd fd with [] => [] | d => [(s "description", JStr d)] end))) vs)) = Some vs.
Proof.
  induction vs as [|fd r IH]; [reflexivity|].
  cbn [map all_some]. rewrite violation_roundtrip, IH. reflexivity.
Qed.

Lemma json_validation_roundtrip vs : json_as_validation (pmsg_pj (PValidation vs)) = Some vs.
Proof.
  destruct vs as [|fd r]; [reflexivity|]. unfold pmsg_pj, json_as_validation.
  change (is_s (s "violations") "violations") with true. cbv iota. apply violations_roundtrip.
Qed.

Lemma enc_eqb_refl e : enc_eqb e e = true.
Proof. destruct e; reflexivity. Qed.

(* handleErrorResponse, by status: below 400 no error; at 400 a ValidationError if the body parses as one;
   otherwise (and above 400) whatever the body gives as a sebuf Error *)
Definition client_generic (ct : str) (r : response) : cresult :=
  match parse_error (client_enc ct) r with
  | WR m => CRError m
  | WRFail => CROther (r_status r)
  | WRUnmodelled => CRUnmodelled
  end.

Lemma client_go_400 ct r : r_status r = 400%Z ->
  client_go ct r = match parse_validation (client_enc ct) r with
                   | WR vs => CRValidation vs
                   | WRFail => client_generic ct r
                   | WRUnmodelled => CRUnmodelled
                   end.
Proof. intros S. unfold client_go, client_generic. rewrite S. reflexivity. Qed.

Lemma client_go_above ct r : (400 < r_status r)%Z -> client_go ct r = client_generic ct r.
Proof.
  intros S. unfold client_go.
  destruct (Z.ltb_spec (r_status r) 400); [lia|]. destruct (Z.eqb_spec (r_status r) 400); [lia|reflexivity].
Qed.

Lemma parse_validation_own de r vs :
  enc_eqb de (r_enc r) = true -> r_body r = BMsg (PValidation vs) -> parse_validation de r = WR vs.
Proof.
  intros E B. unfold parse_validation. rewrite B, E. destruct de; [now rewrite json_validation_roundtrip|reflexivity].
Qed.

Lemma json_error_roundtrip m : json_as_error (pmsg_pj (PError m)) = Some (etext_string m).
Proof. unfold pmsg_pj. destruct (etext_string m); reflexivity. Qed.

Lemma parse_error_own de r m :
  enc_eqb de (r_enc r) = true -> r_body r = BMsg (PError m) -> parse_error de r = WR (etext_string m).
Proof.
  intros E B. unfold parse_error. rewrite B, E. destruct de; [now rewrite json_error_roundtrip|reflexivity].
Qed.

Lemma client_validation ct r vs :
  client_enc ct = r_enc r -> r_status r = 400%Z -> r_body r = BMsg (PValidation vs) ->
  client_go ct r = CRValidation vs.
Proof.
  intros E S B. rewrite (client_go_400 ct r S), (parse_validation_own _ r vs); [reflexivity| |exact B].
  rewrite E. apply enc_eqb_refl.
Qed.

Lemma client_error ct r m :
  client_enc ct = r_enc r -> (400 < r_status r)%Z -> r_body r = BMsg (PError m) ->
  client_go ct r = CRError (etext_string m).
Proof.
  intros E S B. rewrite (client_go_above ct r S). unfold client_generic.
  rewrite (parse_error_own _ r m); [reflexivity| |exact B]. rewrite E. apply enc_eqb_refl.
Qed.

(* without client-side defect classes: a validation result is exactly the server's 400 violation list, an
   "other" result carries the status, and a bare *sebufhttp.Error (no status) does not occur *)
Lemma client_sound ct r :
  client_defects ct r = [] -> (400 <= r_status r)%Z ->
  match client_go ct r with
  | CRValidation vs => r_status r = 400%Z /\ r_body r = BMsg (PValidation vs)
  | CROther st => st = r_status r
  | CRError _ => False
  | CRNotError => False
  | CRUnmodelled => True
  end.
Proof.
  unfold client_defects. intros D S.
  destruct (Z.ltb_spec (r_status r) 400) as [L|_]; [lia|].
  apply app_eq_nil in D as [De D]. apply app_eq_nil in D as [Dd Dm].
  assert (E : enc_eqb (client_enc ct) (r_enc r) = true) by (destruct (enc_eqb (client_enc ct) (r_enc r)); [reflexivity|discriminate]).
  (* the generic reading never yields a bare Error: that would be the class DClientDropsStatus *)
  assert (G : client_go ct r = client_generic ct r ->
              match client_go ct r with CROther st => st = r_status r | CRUnmodelled => True | _ => False end).
  { intros C. rewrite C in Dd |- *. unfold client_generic in *. destruct (parse_error (client_enc ct) r); [discriminate Dd|reflexivity|exact I]. }
  destruct (Z.eq_dec (r_status r) 400) as [S4|S4].
  2:{ specialize (G (client_go_above ct r ltac:(lia))). destruct (client_go ct r); try contradiction; exact G. }
  pose proof (client_go_400 ct r S4) as C.
  destruct (parse_validation (client_enc ct) r) as [vs| |] eqn:PV.
  - rewrite C in Dm |- *. split; [exact S4|].
    destruct (body_is_validation (r_body r)) eqn:BV; [|destruct (body_is_empty r); discriminate Dm].
    destruct (r_body r) as [[m|vs'|c]|x] eqn:B; try discriminate BV.
    rewrite (parse_validation_own _ r vs' E B) in PV. now injection PV as ->.
  - specialize (G C). destruct (client_go ct r); try contradiction; exact G.
  - now rewrite C.
Qed.

(* a whole call: request and response side use the same effective content type *)
Lemma serve_error_enc src h ct : r_enc (serve_error src h ct) = server_enc ct.
Proof.
  unfold serve_error, write_error. destruct h as [hk|]; [|reflexivity].
  destruct (hk_write hk); [reflexivity|]. destruct (hk_status hk); reflexivity.
Qed.

Lemma call_validation src h cl ca vs :
  let ct := effective_ct cl ca in
  client_enc ct = server_enc ct ->
  r_status (serve_error src h ct) = 400%Z -> r_body (serve_error src h ct) = BMsg (PValidation vs) ->
  go_call_outcome src h cl ca = CRValidation vs.
Proof. cbv zeta. intros E S B. apply client_validation; auto. now rewrite serve_error_enc. Qed.

Lemma call_error src h cl ca m :
  let ct := effective_ct cl ca in
  client_enc ct = server_enc ct ->
  (400 < r_status (serve_error src h ct))%Z -> r_body (serve_error src h ct) = BMsg (PError m) ->
  go_call_outcome src h cl ca = CRError (etext_string m).
Proof. cbv zeta. intros E S B. apply client_error; auto. now rewrite serve_error_enc. Qed.

Lemma effective_override cl c0 c : effective_ct cl (Some (c0 :: c)) = c0 :: c.
Proof. reflexivity. Qed.
Lemma effective_default cl : effective_ct cl None = client_default cl /\ effective_ct cl (Some []) = client_default cl.
Proof. split; reflexivity. Qed.

Lemma first_failure_minimal l : forall st src,
  first_failure l = Some (st, src) ->
  In (st, src) l /\ forall st' src', In (st', src') l -> stage_rank st <= stage_rank st'.
Proof.
  induction l as [|[sx srx] r IH]; intros st src; [discriminate|].
  cbn [first_failure fst]. destruct (first_failure r) as [[sy sry]|] eqn:F.
  - destruct (IH _ _ eq_refl) as [Hin Hmin]. cbn [fst].
    destruct (Nat.leb (stage_rank sx) (stage_rank sy)) eqn:L; intros H; inversion H; subst.
    + apply Nat.leb_le in L. split; [left; reflexivity|].
      intros st' src' [E|Hr]; [inversion E; subst; lia|]. specialize (Hmin _ _ Hr). lia.
    + apply Nat.leb_gt in L. split; [right; exact Hin|].
      intros st' src' [E|Hr]; [inversion E; subst; lia|]. eauto.
  - intros H; inversion H; subst. split; [left; reflexivity|].
    intros st' src' [E|Hr]; [inversion E; subst; lia|].
    destruct r as [|y r']; [destruct Hr|]. cbn in F.
    destruct (first_failure r'); [destruct (Nat.leb _ _)|]; discriminate.
Qed.

Lemma first_failure_some l x : In x l -> exists y, first_failure l = Some y.
Proof.
  destruct l as [|a r]; [intros []|]. intros _. cbn. destruct (first_failure r); [destruct (Nat.leb _ _)|]; eauto.
Qed.

Lemma ts_server_validation_wins vs on_error :
  ts_server_error (TValidation vs) on_error =
  {| ts_status := 400; ts_body := JObj [(s "violations", ts_violations_json vs)]; ts_hooked := false |}.
Proof. reflexivity. Qed.

(* the Go server's 400 for a non-empty violation list is a ValidationError for the TS client *)
Lemma ts_client_go_validation vs : vs <> [] ->
  exists v, ts_client 400 (Some (pmsg_pj (PValidation vs))) = TSValidation v.
Proof. destruct vs as [|fd r]; [congruence|]. intros _. cbn. eauto. Qed.

Lemma rep_str_length n u : List.length (rep_str n u) = n * List.length u.
Proof. induction n as [|n IH]; [reflexivity|]. cbn. now rewrite app_length, IH. Qed.
Lemma sized_text_length n : List.length (sized_text n) = 64 * n.
Proof. unfold sized_text. rewrite rep_str_length. change (List.length unit64) with 64. lia. Qed.
(* the digest used to compare long texts / long lists leaves every short document alone *)
Fixpoint short_json (j : json) : bool :=
  match j with
  | JStr x => Nat.leb (List.length x) long_limit
  | JArr l => Nat.leb (List.length l) long_array_limit &&
              (fix go (l : list json) : bool := match l with [] => true | x :: r => short_json x && go r end) l
  | JObj kv => (fix go (l : list (str * json)) : bool := match l with [] => true | (k, v) :: r => short_json v && go r end) kv
  | _ => true
  end.

Fixpoint digest_json_short (j : json) : short_json j = true -> digest_json j = j.
Proof.
  destruct j as [| b | z | x | l | kv]; intros H; try reflexivity.
  - cbn [short_json] in H. apply Nat.leb_le in H. cbn [digest_json].
    destruct (Nat.ltb_spec long_limit (List.length x)); [lia|reflexivity].
  - cbn [short_json] in H. apply andb_true_iff in H as [H1 H2]. apply Nat.leb_le in H1.
    cbn [digest_json]. destruct (Nat.ltb_spec long_array_limit (List.length l)) as [Hlt|Hle]; [lia|]. f_equal.
    clear H1 Hle. revert H2. induction l as [|a r IH]; intros H2; [reflexivity|].
    apply andb_true_iff in H2 as [Ha Hr]. rewrite (digest_json_short a Ha). f_equal. apply IH. exact Hr.
  - cbn [short_json] in H. cbn [digest_json]. f_equal.
    revert H. induction kv as [|[k v] r IH]; intros H; [reflexivity|].
    apply andb_true_iff in H as [Hv Hr]. rewrite (digest_json_short v Hv). f_equal. apply IH. exact Hr.
Qed.

(* and a long text is told apart by its length *)
Lemma digest_long_string x : long_limit < List.length x ->
  digest_json (JStr x) = long_mark (s "$long-string") (List.length x) (str_hash x).
Proof. intros H. cbn [digest_json]. destruct (Nat.ltb_spec long_limit (List.length x)); [reflexivity|lia]. Qed.

Lemma ts_client_total st body :
  (exists v, ts_client st body = TSValidation v /\ st = 400%Z /\
             exists kv, body = Some (JObj kv) /\ assoc_json (s "violations") kv = Some v /\ js_truthy v = true)
  \/ ts_client st body = TSApi st body.
Proof.
  unfold ts_client. destruct (Z.eqb_spec st 400) as [->|Hne]; [|now right].
  destruct body as [[| | | | |kv]|]; try now right.
  destruct (assoc_json (s "violations") kv) as [v|] eqn:E; [|now right].
  destruct (js_truthy v) eqn:T; [|now right].
  left. exists v. repeat split. exists kv. repeat split; assumption.
Qed.
