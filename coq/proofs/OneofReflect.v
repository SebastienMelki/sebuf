(* OneofReflect.v — encoding/json (reflection) on a protoc-gen-go struct WITHOUT a codec of its own, as the
   discriminated-oneof codec uses it for a message variant:
     gj form  : json.Marshal(variant)   (flattened oneof, MarshalJSON side and the re-marshal of UnmarshalJSON)
     gj_un    : json.Unmarshal(.., variant) of the gj form (flattened) or of the protojson form (non-flattened)
     pj_un    : protojson.Unmarshal of the gj form (what the parent's final protojson.Unmarshal sees). *)
From Coq Require Import ZArith List Permutation.
From Sebuf Require Import CodecCases.
From SebufProofs Require Import TextFacts CodecTextFacts ProtoJsonFacts CodecBase.
From SebufProofs Require NullableFacts.
From SebufProofs Require Import OneofPj ClashFacts.
From SebufProofs Require Export GoJsonFacts.
Import ListNotations.

Open Scope Z_scope.

Lemma rall_map_ok {A B} (g : A -> res B) (h : A -> B) l :
  (forall a, In a l -> g a = ROk (h a)) -> rall (map g l) = ROk (map h l).
Proof. exact (rall_map_pointwise g h l). Qed.
Lemma rall_ok_ex {A} (l : list (res A)) : (forall x, In x l -> exists a, x = ROk a) -> exists r, rall l = ROk r.
Proof.
  induction l as [|x r IH]; intros H; [exists []; reflexivity|].
  destruct (H x (or_introl eq_refl)) as [a Ha]. destruct IH as [t Ht]; [intros y Hy; apply H; right; exact Hy|].
  exists (a :: t). cbn [rall]. rewrite Ha. cbn [rbind]. rewrite Ht. reflexivity.
Qed.

Section Reflect.
Variable E : ExtLib.
Hypothesis EL : ExtLaws E.
Variable sc : schema.

(* kinds whose encoding/json form both json.Unmarshal and protojson read back *)
Definition gj_kind_ok (k : kind) : bool := negb (is_msgk k) && negb (enum_with_codec sc k).

Lemma gj_kind_ok_inv k : gj_kind_ok k = true -> is_msgk k = false /\ enum_with_codec sc k = false.
Proof.
  unfold gj_kind_ok. intros H. apply andb_prop in H. destruct H as [H1 H2].
  split; apply Bool.negb_true_iff; assumption.
Qed.

(* scalar kinds that protojson and encoding/json write alike (finite floats only) *)
Definition pj_kind_ok (k : kind) : bool :=
  match k with
  | KBool | KString | KBytes | KDouble | KFloat | KInt32 | KSint32 | KSfixed32 | KUint32 | KFixed32 => true
  | _ => false
  end.
Lemma pj_kind_gj k : pj_kind_ok k = true -> gj_kind_ok k = true.
Proof. destruct k; try discriminate; reflexivity. Qed.

Lemma pj_scalar_eq_gj k v : pj_kind_ok k = true -> float_special k (FS v) = false ->
  pj_scalar E sc k v = gj_scalar E sc k v.
Proof.
  intros Hk Hf. destruct k; try discriminate Hk; destruct v as [z|b|x|x|b|n]; try reflexivity.
  - cbn [float_special] in Hf. cbn [pj_scalar gj_scalar]. unfold float_json. destruct (fclassify true b); try discriminate Hf. reflexivity.
  - cbn [float_special] in Hf. cbn [pj_scalar gj_scalar]. unfold float_json. destruct (fclassify false b); try discriminate Hf. reflexivity.
Qed.

(* protojson reads what encoding/json wrote: most kinds are written alike; a 64-bit integer and an enum without
   MarshalJSON are written as numbers, which protojson accepts beside its own strings *)
Lemma gj_scalar_pj_reads k v j :
  gj_kind_ok k = true -> wt_scalar sc k v = true -> float_special k (FS v) = false ->
  gj_scalar E sc k v = ROk j -> pj_unscalar E sc k j = ROk v.
Proof.
  intros Hk Hwt Hfs Hj. destruct (gj_kind_ok_inv k Hk) as [Hm Hc].
  destruct (pj_kind_ok k) eqn:Epk.
  - rewrite <- (pj_scalar_eq_gj k v Epk Hfs) in Hj. exact (scalar_rt E EL sc k v j Hm Hwt Hj).
  - destruct k; try discriminate Epk; try discriminate Hm; destruct v as [z|b|x|x|b|n]; try discriminate Hwt;
      cbn [gj_scalar is_int32_kind is_int64_kind orb] in Hj.
    1-5: inversion Hj; subst j; cbn [pj_unscalar int_of_json]; cbn [wt_scalar is_int32_kind is_int64_kind orb andb] in Hwt;
         rewrite Hwt; reflexivity.
    cbn [wt_scalar] in Hwt. unfold gj_enum in Hj. cbn [enum_with_codec] in Hc. cbn [pj_unscalar]. unfold enum_of_json.
    destruct (find_enum (all_enums sc) tn) as [e|]; [|discriminate Hwt]. rewrite Hc in Hj. inversion Hj; subst j.
    unfold enum_rt in Hwt. apply andb_prop in Hwt. rewrite (proj1 Hwt). reflexivity.
Qed.

Lemma gj_scalar_noerr k v e :
  wt_scalar sc k v = true -> float_special k (FS v) = false -> gj_scalar E sc k v <> RErr e.
Proof.
  intros Hwt Hfs H.
  destruct v as [z|b|x|x|b|n]; destruct k; cbn in Hwt; try discriminate Hwt; cbn [gj_scalar is_int32_kind is_int64_kind orb] in H; try discriminate H.
  - cbn [float_special] in Hfs. destruct (fclassify true b); try discriminate Hfs. destruct (x_fprint E true b); discriminate H.
  - cbn [float_special] in Hfs. destruct (fclassify false b); try discriminate Hfs. destruct (x_fprint E false b); discriminate H.
  - unfold gj_enum in H. destruct (find_enum (all_enums sc) tn); [|discriminate H]. destruct (enum_codec e0); [destruct (ev_by_number _ _)|]; discriminate H.
Qed.

(* a populated field of a reflected struct: kind readable back, floats finite, no bool-keyed map *)
Definition gj_entry_ok (f : field) (x : fval) : bool :=
  gj_kind_ok (f_kind f) && negb (nonfinite_in (f_kind f) x) &&
  negb (match f_card f with MapOf KBool => true | _ => false end).

Lemma gj_entry_ok_inv f x : gj_entry_ok f x = true ->
  gj_kind_ok (f_kind f) = true /\ nonfinite_in (f_kind f) x = false /\
  forall kk, f_card f = MapOf kk -> kind_eqb kk KBool = false.
Proof.
  unfold gj_entry_ok. intros H. apply andb_prop in H. destruct H as [H Hbm]. apply andb_prop in H. destruct H as [Hk Hnf].
  split; [exact Hk|]. split; [apply Bool.negb_true_iff; exact Hnf|].
  intros kk Hc. rewrite Hc in Hbm. destruct kk; try reflexivity. discriminate Hbm.
Qed.

Lemma elems_scalar f x y : is_msgk (f_kind f) = false -> wt_entry sc f x = true -> In y (elems x) ->
  exists sx, y = FS sx /\ wt_scalar sc (f_kind f) sx = true.
Proof. intros Hm Hwe Hy. exact (wt_nonmsg_scalar sc (f_kind f) y Hm (wt_entry_elems sc f x y Hwe Hy)). Qed.

Lemma nonfinite_elems k x y : nonfinite_in k x = false -> In y (elems x) -> nonfinite_in k y = false.
Proof.
  destruct x as [sx|cm|l|kv]; cbn [elems]; intros H Hy.
  - destruct Hy as [<-|[]]. exact H.
  - destruct Hy as [<-|[]]. exact H.
  - exact (nonfinite_FL_in k l y H Hy).
  - apply in_map_iff in Hy. destruct Hy as [[key y'] [Hy' Hy]]. cbn [snd] in Hy'. subst y'.
    exact (nonfinite_FMap_in k kv key y H Hy).
Qed.

Lemma u_elems_F2 k l js : Forall2 (fun y b => pj_un E sc k b = ROk y) l js -> u_elems E sc k js = ROk l.
Proof.
  induction 1 as [|y b r t Hyb _ IH]; [reflexivity|]. cbn [u_elems]. rewrite Hyb. cbn [rbind].
  fold (u_elems E sc k). rewrite IH. reflexivity.
Qed.
Lemma u_ents_F2 kk k kv es :
  Forall2 (fun e e' => key_of_text kk (fst e') = ROk (fst e) /\ pj_un E sc k (snd e') = ROk (snd e)) kv es ->
  u_ents E sc kk k es = ROk kv.
Proof.
  induction 1 as [|[key y] [kt b] r t [Hk Hyb] _ IH]; [reflexivity|]. cbn [fst snd] in Hk, Hyb. cbn [u_ents].
  rewrite Hk. cbn [rbind]. rewrite Hyb. cbn [rbind]. fold (u_ents E sc kk k). rewrite IH. reflexivity.
Qed.

Lemma Forall2_impl_in {A B} (P Q : A -> B -> Prop) l l' :
  Forall2 P l l' -> (forall a b, In a l -> In b l' -> P a b -> Q a b) -> Forall2 Q l l'.
Proof.
  induction 1 as [|a b r r' Hab _ IH]; intros H; constructor.
  - apply H; [left; reflexivity|left; reflexivity|exact Hab].
  - apply IH. intros a' b' Ha Hb. apply H; right; assumption.
Qed.

Lemma gj_key_rt kk key t : wt_key kk key = true -> gj_key_text key = ROk t -> key_of_text kk t = ROk key.
Proof. intros Hw Ht. exact (key_rt kk key t Hw (gj_key_text_pj key t Ht)). Qed.
Lemma gj_key_noerr kk key e : wt_key kk key = true -> kind_eqb kk KBool = false -> gj_key_text key <> RErr e.
Proof.
  intros Hw Hb H. destruct key; cbn in H; try discriminate H. destruct kk; cbn in Hw; try discriminate Hw. discriminate Hb.
Qed.

Lemma gj_value_good f x j n :
  gj_entry_ok f x = true -> wt_entry sc f x = true -> gj_fval E sc (f_kind f) x = ROk j ->
  un_value E sc (S n) f j = ROk (Some x) /\ u_value E sc f j = ROk (Some x) /\ j <> JNull.
Proof.
  intros Hok Hw Hj. destruct (gj_entry_ok_inv f x Hok) as [Hk [Hnf _]]. destruct (gj_kind_ok_inv _ Hk) as [Hm Hc].
  destruct (scalar_value_rt E EL sc n f x j Hm Hw (fun z _ => enum_back_no_codec sc _ z Hc) Hj) as [Hun Hnn].
  split; [exact Hun|]. split; [|exact Hnn].
  (* protojson, element by element *)
  assert (Hel : forall y b, In y (elems x) -> gj_fval E sc (f_kind f) y = ROk b -> pj_un E sc (f_kind f) b = ROk y).
  { intros y b Hy Hb. destruct (elems_scalar f x y Hm Hw Hy) as [sx [-> Hsx]]. rewrite gj_fval_FS in Hb.
    rewrite (pj_un_scalar E sc _ b Hm), (gj_scalar_pj_reads _ sx b Hk Hsx (nonfinite_elems _ x _ Hnf Hy) Hb). reflexivity. }
  pose proof (wt_entry_card sc f x Hw) as Hcard. unfold u_value. revert Hcard Hel. 
  destruct (f_card f) as [| | |kk]; intros Hcard Hel.
  - destruct j; try (exfalso; apply Hnn; reflexivity); rewrite (Hel x _ (elems_self sc _ x Hcard) Hj); reflexivity.
  - destruct j; try (exfalso; apply Hnn; reflexivity); rewrite (Hel x _ (elems_self sc _ x Hcard) Hj); reflexivity.
  - destruct Hcard as [l [-> _]]. rewrite gj_fval_FL, gj_list_rall in Hj. apply rbind_ok in Hj. destruct Hj as [js [Hjs Hj]].
    inversion Hj; subst j. rewrite (u_elems_F2 (f_kind f) l js); [reflexivity|].
    apply (Forall2_impl_in _ _ l js (rall_ok _ l js Hjs)). intros y b Hy _ Hb. exact (Hel y b Hy Hb).
  - destruct Hcard as [kv [-> [Hs HF]]]. rewrite gj_fval_FMap, gj_map_rall in Hj. apply rbind_ok in Hj. destruct Hj as [es [Hes Hj]].
    inversion Hj; subst j. rewrite (u_ents_F2 kk (f_kind f) kv es).
    + cbn [rbind]. rewrite (sorted_key_no_dup _ Hs), (sorted_key_sort _ Hs). reflexivity.
    + apply (Forall2_impl_in _ _ kv es (rall_ok _ kv es Hes)). intros [key y] [kt b] Hy _ Hb. cbn [fst snd].
      unfold gj_entry in Hb. cbn [fst snd] in Hb. apply rbind_ok in Hb. destruct Hb as [kt' [Hkt Hb]].
      apply rbind_ok in Hb. destruct Hb as [b' [Hb' Hb]]. inversion Hb; subst kt' b'.
      split; [exact (gj_key_rt kk key kt (proj1 (HF key y Hy)) Hkt)|].
      apply (Hel y b); [|exact Hb']. cbn [elems]. apply in_map_iff. exists (key, y). split; [reflexivity|exact Hy].
Qed.

Lemma gj_value_noerr f x e :
  gj_entry_ok f x = true -> wt_entry sc f x = true -> gj_fval E sc (f_kind f) x <> RErr e.
Proof.
  intros Hok Hw H. destruct (gj_entry_ok_inv f x Hok) as [Hk [Hnf Hbm]]. destruct (gj_kind_ok_inv _ Hk) as [Hm _].
  assert (Hel : forall y, In y (elems x) -> gj_fval E sc (f_kind f) y <> RErr e).
  { intros y Hy Hy'. destruct (elems_scalar f x y Hm Hw Hy) as [sx [-> Hsx]]. rewrite gj_fval_FS in Hy'.
    exact (gj_scalar_noerr _ sx e Hsx (nonfinite_elems _ x _ Hnf Hy) Hy'). }
  pose proof (wt_entry_card sc f x Hw) as Hcard. revert Hcard Hbm. destruct (f_card f) as [| | |kk]; intros Hcard Hbm.
  - exact (Hel x (elems_self sc _ x Hcard) H).
  - exact (Hel x (elems_self sc _ x Hcard) H).
  - destruct Hcard as [l [-> _]]. rewrite gj_fval_FL, gj_list_rall in H.
    apply rbind_not_err in H. destruct H as [H|[js [_ H]]]; [|discriminate H].
    apply rall_err_in, in_map_iff in H. destruct H as [y [Hre Hy]]. exact (Hel y Hy Hre).
  - destruct Hcard as [kv [-> [_ HF]]]. rewrite gj_fval_FMap, gj_map_rall in H.
    apply rbind_not_err in H. destruct H as [H|[es [_ H]]]; [|discriminate H].
    apply rall_err_in, in_map_iff in H. destruct H as [[key y] [Hre Hy]].
    unfold gj_entry in Hre. cbn [fst snd] in Hre. apply rbind_not_err in Hre.
    destruct Hre as [Hre|[kt [_ Hre]]]; [exact (gj_key_noerr kk key e (proj1 (HF key y Hy)) (Hbm kk eq_refl) Hre)|].
    apply rbind_not_err in Hre. destruct Hre as [Hre|[b [_ Hre]]]; [|discriminate Hre].
    apply (Hel y); [|exact Hre]. cbn [elems]. apply in_map_iff. exists (key, y). split; [reflexivity|exact Hy].
Qed.

(* the protojson form of the same kinds, read by encoding/json (non-flattened variant) *)
Lemma m_list_eq_gj k l :
  (forall y, In y l -> exists sx, y = FS sx /\ pj_scalar E sc k sx = gj_scalar E sc k sx) ->
  m_list E sc k l = gj_list E sc k l.
Proof.
  induction l as [|y r IH]; intros H; [reflexivity|]. cbn [m_list gj_list].
  destruct (H y (or_introl eq_refl)) as [sx [-> Hsx]]. rewrite pj_fval_FS, gj_fval_FS, Hsx.
  fold (m_list E sc k r). fold (gj_list E sc k r). rewrite IH; [reflexivity|]. intros z Hz. apply H. right. exact Hz.
Qed.
Lemma m_map_eq_gj k kv :
  (forall key y, In (key, y) kv -> key_text key = gj_key_text key /\
                                   exists sx, y = FS sx /\ pj_scalar E sc k sx = gj_scalar E sc k sx) ->
  m_map E sc k kv = gj_map E sc k kv.
Proof.
  induction kv as [|[key y] r IH]; intros H; [reflexivity|]. cbn [m_map gj_map].
  destruct (H key y (or_introl eq_refl)) as [Hkey [sx [-> Hsx]]]. rewrite pj_fval_FS, gj_fval_FS, Hsx, Hkey.
  fold (m_map E sc k r). fold (gj_map E sc k r). rewrite IH; [reflexivity|]. intros k' z Hz. apply (H k' z). right. exact Hz.
Qed.

Lemma pj_value_un f x j n :
  pj_kind_ok (f_kind f) = true -> nonfinite_in (f_kind f) x = false ->
  negb (match f_card f with MapOf KBool => true | _ => false end) = true -> wt_entry sc f x = true ->
  pj_fval E sc (f_kind f) x = ROk j -> un_value E sc (S n) f j = ROk (Some x).
Proof.
  intros Hk Hnf Hbm Hw Hj. destruct (gj_kind_ok_inv _ (pj_kind_gj _ Hk)) as [Hm Hc].
  assert (Hel : forall y, In y (elems x) -> exists sx, y = FS sx /\ pj_scalar E sc (f_kind f) sx = gj_scalar E sc (f_kind f) sx).
  { intros y Hy. destruct (elems_scalar f x y Hm Hw Hy) as [sx [-> _]]. exists sx. split; [reflexivity|].
    exact (pj_scalar_eq_gj _ sx Hk (nonfinite_elems _ x _ Hnf Hy)). }
  assert (Heq : pj_fval E sc (f_kind f) x = gj_fval E sc (f_kind f) x).
  { pose proof (wt_entry_card sc f x Hw) as Hcard. revert Hcard Hbm. destruct (f_card f) as [| | |kk]; intros Hcard Hbm.
    - destruct (Hel x (elems_self sc _ x Hcard)) as [sx [-> Hsx]]. rewrite pj_fval_FS, gj_fval_FS. exact Hsx.
    - destruct (Hel x (elems_self sc _ x Hcard)) as [sx [-> Hsx]]. rewrite pj_fval_FS, gj_fval_FS. exact Hsx.
    - destruct Hcard as [l [-> _]]. rewrite pj_fval_FL, gj_fval_FL, (m_list_eq_gj _ l Hel). reflexivity.
    - destruct Hcard as [kv [-> [_ HF]]]. rewrite pj_fval_FMap, gj_fval_FMap, (m_map_eq_gj _ kv); [reflexivity|].
      intros key y Hy. split.
      + destruct (HF key y Hy) as [Hwk _]. destruct key; try reflexivity. destruct kk; try discriminate Hwk. discriminate Hbm.
      + apply Hel. cbn [elems]. apply in_map_iff. exists (key, y). split; [reflexivity|exact Hy]. }
  rewrite Heq in Hj. exact (proj1 (scalar_value_rt E EL sc n f x j Hm Hw (fun z _ => enum_back_no_codec sc _ z Hc) Hj)).
Qed.

Definition empty_bytes (x : fval) : bool := match x with FS (VBytes []) => true | _ => false end.

Definition gj_ent (md : message) (e : str * fval) (e' : str * json) : Prop :=
  exists f, find_field (m_fields md) (fst e) = Some f /\ fst e' = fst e /\
            gj_fval E sc (f_kind f) (snd e) = ROk (snd e').

Lemma gj_msg_entries md m :
  forallb (fun e => negb (empty_bytes (snd e))) m = true ->
  forall ckv, gj_msg E sc md m = ROk ckv -> Forall2 (gj_ent md) m ckv.
Proof.
  induction m as [|[name x] r IH]; intros Hne ckv H.
  - cbn in H. inversion H. constructor.
  - cbn [forallb snd] in Hne. apply andb_prop in Hne. destruct Hne as [Hx Hr]. apply Bool.negb_true_iff in Hx.
    destruct (find_field (m_fields md) name) as [f|] eqn:Ef; [|cbn [gj_msg] in H; rewrite Ef in H; discriminate H].
    rewrite (gj_msg_cons E sc md name x r f Ef Hx) in H.
    apply rbind_ok in H. destruct H as [j [Hj H]]. apply rbind_ok in H. destruct H as [t [Ht H]]. inversion H; subst ckv.
    constructor; [|apply IH; assumption]. exists f. cbn [fst snd]. auto.
Qed.

Lemma gj_msg_noerr md m e :
  (forall name x, In (name, x) m -> exists f, find_field (m_fields md) name = Some f /\ empty_bytes x = false /\
                                              gj_fval E sc (f_kind f) x <> RErr e) ->
  gj_msg E sc md m <> RErr e.
Proof.
  induction m as [|[name x] r IH]; intros Hall H; [discriminate H|].
  destruct (Hall name x (or_introl eq_refl)) as [f [Hf [He Hne]]].
  rewrite (gj_msg_cons E sc md name x r f Hf He) in H.
  apply rbind_not_err in H. destruct H as [H|[j [_ H]]]; [exact (Hne H)|].
  apply rbind_not_err in H. destruct H as [H|[t [_ H]]]; [|discriminate H].
  apply IH; [intros n' x' Hin; apply Hall; right; exact Hin|exact H].
Qed.

Lemma single_word_json n : multiword n = false -> json_name n = n.
Proof. unfold multiword. intros H. apply Bool.negb_false_iff in H. apply str_eqb_eq. exact H. Qed.

Section Child.
Variable ctn : str.
Variable cmd : message.
Variable cm : mval.
Hypothesis Hts : str_eqb ctn ts_name = false.
Hypothesis Hwk : is_wkt_other ctn = false.
Hypothesis Hfm : find_message (all_messages sc) ctn = Some cmd.
Hypothesis Hown : owner_of sc cmd = OwnNone.
Hypothesis Hok : msg_ok cmd = true.
Hypothesis Hsorted : sorted_Z (map (fun e => num_of cmd (fst e)) cm) = true.
Hypothesis Hwf : wt_fields sc cmd cm = true.

Lemma child_lookup : lookup_message sc ctn = Some cmd.
Proof. unfold lookup_message. rewrite Hts. exact Hfm. Qed.

(* flattened: every populated field has a single-word name, a kind that is read back, finite floats, no bool-keyed
   map, and is not an empty byte string (omitempty) *)
Definition flat_child_ok : bool :=
  forallb (fun e => match find_field (m_fields cmd) (fst e) with
                    | Some f => negb (multiword (fst e)) && gj_entry_ok f (snd e) && negb (empty_bytes (snd e))
                    | None => false
                    end) cm.

Lemma flat_child_in name x : flat_child_ok = true -> In (name, x) cm ->
  exists f, find_field (m_fields cmd) name = Some f /\ In f (m_fields cmd) /\ f_name f = name /\ json_name name = name /\
            gj_entry_ok f x = true /\ empty_bytes x = false /\ wt_entry sc f x = true.
Proof.
  intros Hc Hin. unfold flat_child_ok in Hc. rewrite forallb_forall in Hc. specialize (Hc _ Hin). cbn [fst snd] in Hc.
  destruct (find_field (m_fields cmd) name) as [f|] eqn:Ef; [|discriminate Hc].
  apply andb_prop in Hc. destruct Hc as [Hc H3]. apply andb_prop in Hc. destruct Hc as [H1 H2].
  apply Bool.negb_true_iff in H1. apply Bool.negb_true_iff in H3.
  destruct (find_field_spec _ _ _ Ef) as [Hinf Hn].
  destruct (wt_fields_in sc cmd cm name x Hwf Hin) as [g [Hg Hw]]. assert (g = f) by congruence. subst g.
  exists f. repeat split; try assumption. exact (single_word_json name H1).
Qed.

Lemma flat_nonempty : flat_child_ok = true -> forallb (fun e => negb (empty_bytes (snd e))) cm = true.
Proof.
  intros Hc. apply forallb_forall. intros [name x] Hin. destruct (flat_child_in name x Hc Hin) as [f [_ [_ [_ [_ [_ [He _]]]]]]].
  cbn [snd]. rewrite He. reflexivity.
Qed.

Lemma flat_gj_ok : flat_child_ok = true -> forall j, gj_fval E sc (KMessage ctn) (FM cm) = ROk j ->
  exists ckv, j = JObj ckv /\ Forall2 (gj_ent cmd) cm ckv.
Proof.
  intros Hc j Hj. rewrite (gj_fval_reflect E sc ctn cmd cm Hwk child_lookup Hown), (msg_ok_no_oneof_set cmd cm Hok) in Hj.
  apply rbind_ok in Hj. destruct Hj as [ckv [Hckv Hj]]. inversion Hj; subst j. exists ckv. split; [reflexivity|].
  exact (gj_msg_entries cmd cm (flat_nonempty Hc) ckv Hckv).
Qed.

Lemma flat_gj_noerr e : flat_child_ok = true -> gj_fval E sc (KMessage ctn) (FM cm) <> RErr e.
Proof.
  intros Hc H. rewrite (gj_fval_reflect E sc ctn cmd cm Hwk child_lookup Hown), (msg_ok_no_oneof_set cmd cm Hok) in H.
  apply rbind_not_err in H. destruct H as [H|[ckv [_ H]]]; [|discriminate H].
  apply (gj_msg_noerr cmd cm e); [|exact H].
  intros name x Hin. destruct (flat_child_in name x Hc Hin) as [f [Hf [_ [_ [_ [Hg [He Hw]]]]]]].
  exists f. repeat split; try assumption. exact (gj_value_noerr f x e Hg Hw).
Qed.

Lemma flat_pj_un ckv : flat_child_ok = true -> Forall2 (gj_ent cmd) cm ckv ->
  pj_un E sc (KMessage ctn) (JObj ckv) = ROk (FM cm).
Proof.
  intros Hc HF. apply (pj_un_entries E sc ctn cmd cm ckv Hts Hwk Hfm Hok Hsorted).
  eapply Forall2_impl_in; [exact HF|]. intros [name x] [k j] Hin _ [f [Hf [Hk Hj]]]. cbn [fst snd] in Hf, Hk, Hj. subst k.
  destruct (flat_child_in name x Hc Hin) as [g [Hg [_ [_ [Hjn [Hgo [_ Hw]]]]]]]. assert (g = f) by congruence. subst g.
  destruct (gj_value_good f x j O Hgo Hw Hj) as [_ [Hu _]].
  exists f. cbn [fst snd]. repeat split; [exact Hf|symmetry; exact Hjn|exact Hu|exact (proj1 (wt_entry_inv sc f x Hw))].
Qed.

Definition fv_ent (fv : field * fval) (e' : str * json) : Prop :=
  In (fst fv) (m_fields cmd) /\ fst e' = f_name (fst fv) /\ gj_fval E sc (f_kind (fst fv)) (snd fv) = ROk (snd e') /\
  gj_entry_ok (fst fv) (snd fv) = true /\ wt_entry sc (fst fv) (snd fv) = true.

Lemma flat_gj_un n fvs vmap :
  Forall2 fv_ent fvs vmap -> Permutation fvs (tags cmd cm) ->
  gj_un E sc (S (S n)) (KMessage ctn) (JObj vmap) = ROk (Some (FM cm)).
Proof.
  intros HF HP.
  pose proof (wt_fields_declared sc cmd cm Hwf) as Hd0.
  (* the keys address the fields of fvs, which are pairwise distinct *)
  assert (Hnames : NoDup (map (fun e : field * fval => f_name (fst e)) fvs)).
  { eapply Permutation_NoDup; [apply Permutation_map; apply Permutation_sym; exact HP|].
    assert (Heq : map (fun e : field * fval => f_name (fst e)) (tags cmd cm) = map fst cm).
    { rewrite <- (tags_names cmd cm Hd0) at 2. rewrite map_map. reflexivity. }
    rewrite Heq. exact (sorted_names_nodup cmd cm Hsorted). }
  assert (Hkf : key_fields cmd vmap = map fst fvs).
  { clear HP Hnames. induction HF as [|[f x] [k j] r r' Hhd _ IH]; [reflexivity|].
    destruct Hhd as [Hin [Hk _]]. cbn [fst snd] in *. subst k.
    unfold key_fields in *. cbn [flat_map map fst]. unfold field_by_fold at 1. rewrite (find_field_complete cmd f Hok Hin).
    cbn [opt_list app]. rewrite IH. reflexivity. }
  assert (Hr : rall (map (un_field E sc (S n) cmd) vmap) = ROk (map Some fvs)).
  { apply rall_F2. clear HP Hnames Hkf. induction HF as [|[f x] [k j] r r' Hhd _ IH]; [constructor|]. cbn [map]. constructor; [|exact IH].
    destruct Hhd as [Hin [Hk [Hj [Hg Hw]]]]. cbn [fst snd] in *. subst k.
    unfold un_field. cbn [fst snd]. unfold field_by_fold. rewrite (find_field_complete cmd f Hok Hin).
    destruct (gj_value_good f x j n Hg Hw Hj) as [Hu _]. rewrite Hu. reflexivity. }
  rewrite (gj_un_struct E sc (S n) ctn cmd vmap fvs Hwk child_lookup Hown Hok Hr Hkf Hnames). do 3 f_equal.
  pose proof (wt_fields_declared sc cmd cm Hwf) as Hd.
  rewrite (assemble_perm fvs (tags cmd cm)).
  - apply tags_names. exact Hd.
  - eapply Permutation_Forall; [apply Permutation_sym; exact HP|]. exact (tags_populated sc cmd cm Hwf).
  - rewrite (tags_nums cmd cm Hd). exact Hsorted.
  - exact HP.
Qed.

(* non-flattened: the protojson form of the variant is handed to encoding/json; single-word fields must be of a kind
   whose protojson form encoding/json reads and not a bool-keyed map (map[bool]T is no target for json.Unmarshal),
   multi-word keys (lowerCamel) must not fold onto another field *)
Definition nonflat_child_ok : bool :=
  forallb (fun e => match find_field (m_fields cmd) (fst e) with
                    | Some f => if multiword (fst e)
                                then match field_by_fold cmd (json_name (fst e)) with None => true | Some _ => false end
                                else pj_kind_ok (f_kind f) && negb (nonfinite_in (f_kind f) (snd e)) &&
                                     negb (match f_card f with MapOf KBool => true | _ => false end)
                    | None => false
                    end) cm.

Lemma nonflat_gj_un n ces : nonflat_child_ok = true -> m_msg E sc cmd cm = ROk ces ->
  exists o, gj_un E sc (S (S n)) (KMessage ctn) (JObj ces) = ROk o.
Proof.
  intros Hc Hces.
  rewrite (gj_un_reflect E sc (S n) ctn cmd ces Hwk child_lookup Hown (msg_ok_no_real_oneof cmd Hok)).
  pose proof (NullableFacts.msg_ok_nodup_jn cmd Hok) as Hnd.
  (* single-word keys address their own fields, multi-word keys address none: no field is addressed twice *)
  assert (Hcl : clash_unm (key_fields cmd ces) = false).
  { apply clash_unm_nodup. unfold key_fields.
    assert (Heq : flat_map (fun e : str * json => opt_list (field_by_fold cmd (fst e))) ces =
                  flat_map (fun e : str * fval => opt_list (field_by_fold cmd (json_name (fst e)))) cm).
    { rewrite (flat_map_via_map fst (fun k => opt_list (field_by_fold cmd k)) ces).
      rewrite (flat_map_via_map (fun e : str * fval => json_name (fst e)) (fun k => opt_list (field_by_fold cmd k)) cm).
      rewrite (m_msg_keys E sc cmd cm ces Hces). reflexivity. }
    rewrite Heq. apply (NoDup_flat_map_key _ fst f_name cm); [|exact (sorted_names_nodup cmd cm Hsorted)].
    intros [name x] Hinm. cbn [fst].
    unfold nonflat_child_ok in Hc. rewrite forallb_forall in Hc. specialize (Hc _ Hinm). cbn [fst snd] in Hc.
    destruct (find_field (m_fields cmd) name) as [f|] eqn:Hf; [|discriminate Hc].
    destruct (multiword name) eqn:Emw.
    - left. destruct (field_by_fold cmd (json_name name)); [discriminate Hc|reflexivity].
    - right. exists f. rewrite (single_word_json name Emw). unfold field_by_fold. rewrite Hf. split; [reflexivity|].
      exact (proj2 (find_field_spec _ _ _ Hf)). }
  rewrite Hcl.
  destruct (rall_ok_ex (map (un_field E sc (S n) cmd) ces)) as [ofs Hofs].
  - intros r Hr. apply in_map_iff in Hr. destruct Hr as [[k j] [Hr Hin]]. subst r.
    destruct (m_msg_in E sc cmd cm ces k j Hces Hin) as [name [x [f [Hinm [Hk [Hf Hj]]]]]].
    unfold nonflat_child_ok in Hc. rewrite forallb_forall in Hc. specialize (Hc _ Hinm). cbn [fst snd] in Hc. rewrite Hf in Hc.
    unfold un_field. cbn [fst snd]. subst k.
    destruct (multiword name) eqn:Emw.
    + destruct (field_by_fold cmd (json_name name)); [discriminate Hc|]. eexists. reflexivity.
    + apply andb_prop in Hc. destruct Hc as [Hc Hbm]. apply andb_prop in Hc. destruct Hc as [Hk Hnf].
      apply Bool.negb_true_iff in Hnf.
      rewrite (single_word_json name Emw). destruct (find_field_spec _ _ _ Hf) as [Hinf Hn].
      unfold field_by_fold. rewrite Hf.
      destruct (wt_fields_in sc cmd cm name x Hwf Hinm) as [g [Hg Hw]]. assert (g = f) by congruence. subst g.
      rewrite (pj_value_un f x j n Hk Hnf Hbm Hw Hj). eexists. reflexivity.
  - rewrite Hofs. eexists. reflexivity.
Qed.
End Child.

End Reflect.
Close Scope Z_scope.
