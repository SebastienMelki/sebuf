(* NullableConforms.v — C05 (Impl = Spec) for the nullable codec: a top-level message whose only annotations are nullable
   fields, with un-annotated children: the server's JSON IS the documented mapping, for all values. *)
From Sebuf Require Import CodecCases.
From SebufProofs Require Import ProtoJsonFacts NullableFacts.
From SebufProofs Require Import MappingFacts ConformsBase.

Open Scope Z_scope.

(* no annotation other than nullable *)
Definition nulplain_field (f : field) : bool :=
  negb (f_unwrap f) && is_none (f_int64 f) && is_none (f_enumenc f) && is_none (f_empty f) &&
  is_none (f_tsfmt f) && is_none (f_bytesenc f) && is_none (f_oneof_value f) && is_none (f_flatten f) && is_none (f_flatten_prefix f).
Definition nulplain_msg (md : message) : bool :=
  forallb nulplain_field (m_fields md) && forallb (fun o => negb (o_has_cfg o)) (m_oneofs md).

Lemma nulplain_ctx_ok f : nulplain_field f = true -> ctx_field_ok f = true.
Proof. exact (plain_but_ctx_ok f (is_none (f_empty f))). Qed.

Section Conforms.
Variable E : ExtLib.
Variable sc : schema.

Theorem conforms_nullable : forall tn md m,
  str_eqb tn ts_name = false -> is_wkt_other tn = false ->
  find_message (all_messages sc) tn = Some md -> owner_of sc md = Own FtNullable ->
  nodup_str (map jn (m_fields md)) = true ->
  nulplain_msg md = true ->
  forallb (fun e => match find_field (m_fields md) (fst e) with
                    | Some f => plain_in sc (f_kind f) (snd e)
                    | None => false end) m = true ->
  encode E sc tn m = to_json E sc tn m.
Proof.
  intros tn md m Hts Hwk Hfm Hown Hnd Hmd Hch.
  unfold nulplain_msg in Hmd. apply andb_prop in Hmd. destruct Hmd as [Hf _]. rewrite forallb_forall in Hf.
  apply (conforms_keylocal E sc FtNullable tn md m eq_refl Hts Hwk Hfm Hown eq_refl Hnd (plain_children_declared sc md m Hch)).
  intros n x f Hin Hfd Hinf Hname Hfl Hoo Hem.
  (* a populated field is left alone *)
  assert (Ha : act_of E FtNullable m f = None).
  { cbn [act_of]. unfold act_nullable. destruct (is_nullable f); [|reflexivity].
    destruct (mget m (f_name f)) eqn:Hg; [reflexivity|]. exfalso.
    apply (mget_in m (f_name f)); [|exact Hg]. rewrite Hname. apply (in_map fst) in Hin. exact Hin. }
  rewrite Ha. apply mp_entry_keep; [apply Hem; discriminate|exact Hfl|exact Hoo| |exact (plain_children_in sc md m n x f Hch Hin Hfd)].
  apply ctx_ok_inert. apply nulplain_ctx_ok. exact (Hf f Hinf).
Qed.
End Conforms.
Close Scope Z_scope.

(* non-vacuity: the hypotheses of nullable_roundtrip / conforms_nullable hold for a concrete message
   with a set, an unset and an un-annotated field *)
From SebufProofs Require Import CodecExamples.
Example nullable_nonvacuous :
  exists md,
    find_message (all_messages xs) (q "Nul") = Some md /\ owner_of xs md = Own FtNullable /\
    nodup_str (map jn (m_fields md)) = true /\ nulplain_msg md = true /\
    wt xs (KMessage (q "Nul")) (FM [(s "id", vstr "x")]) = true /\
    encode Ex xs (q "Nul") [(s "id", vstr "x")] = ROk (JObj [(s "id", JStr (s "x")); (s "nick", JNull)]).
Proof. eexists. split; [reflexivity|]. vm_compute. repeat split. Qed.
