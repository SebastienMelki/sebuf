(* TraverseFacts.v — C16/C20: termination of the generators' walks over the message graph.  A walk that
   carries the set of nodes on its path (or of nodes visited) ends within |graph| + 1 steps, the measure
   being the number of nodes not yet in the set; the mock walk as it was until 7d8903f, with no such set,
   runs out of every fuel on a cycle of followed edges. *)
From Sebuf Require Import Text Traverse.
From SebufProofs Require Import ListFacts.
From Coq Require Import Lia.

Lemma mem_nat_In n l : mem_nat n l = true <-> In n l.
Proof.
  unfold mem_nat. rewrite existsb_exists. split.
  - intros [x [Hin Heq]]. apply Nat.eqb_eq in Heq. now subst.
  - intros H. exists n. split; [exact H|apply Nat.eqb_refl].
Qed.

(* number of graph nodes (indices below k) not in [visited] *)
Definition unv (k : nat) (visited : list nat) : nat :=
  List.length (filter (fun j => negb (mem_nat j visited)) (seq 0 k)).

Lemma unv_le k : forall v, unv k v <= k.
Proof.
  intros v. unfold unv.
  pose proof (filter_le (fun _ => true) (fun j => negb (mem_nat j v)) (seq 0 k)) as H.
  assert (E : filter (fun _ : nat => true) (seq 0 k) = seq 0 k).
  { generalize (seq 0 k). intros l. induction l as [|a l IH]; cbn; [reflexivity|now rewrite IH]. }
  rewrite E, seq_length in H. apply H. auto.
Qed.

Lemma unv_mono k v w : (forall x, In x v -> In x w) -> unv k w <= unv k v.
Proof.
  intros Hsub. unfold unv. apply filter_le. intros x _ Hq.
  apply negb_true_iff in Hq. apply negb_true_iff.
  destruct (mem_nat x v) eqn:E; [|reflexivity].
  apply mem_nat_In in E. apply Hsub in E. apply mem_nat_In in E. congruence.
Qed.

Lemma unv_cons k v n : n < k -> mem_nat n v = false -> unv k (n :: v) < unv k v.
Proof.
  intros Hlt Hnv. unfold unv. apply (filter_lt _ _ _ n).
  - intros x _ Hq. apply negb_true_iff in Hq. apply negb_true_iff.
    destruct (mem_nat x v) eqn:E; [|reflexivity].
    apply mem_nat_In in E. assert (In x (n :: v)) as H by now right.
    apply mem_nat_In in H. congruence.
  - apply in_seq. lia.
  - now rewrite Hnv.
  - apply negb_false_iff. apply mem_nat_In. now left.
Qed.

(* an option fold finishes when every step from a state that satisfies [P] finishes in such a state *)
Definition collect_step (f : nat) (g : graph) :=
  fun (acc : option (list nat)) (e : nat * bool) => match acc with Some v => collect f g v (fst e) | None => None end.
Definition mock_step (f : nat) (g : graph) :=
  fun (acc : option nat) (e : nat * bool) =>
    match acc with
    | None => None
    | Some k => if snd e then match mock_assign f g (fst e) with
                              | Some j => Some (k + j + 1)
                              | None => None end
                else Some (k + 1)
    end.
Definition path_step (f : nat) (g : graph) (path' : list nat) :=
  fun (acc : option nat) (e : nat * bool) =>
    match acc with
    | None => None
    | Some k =>
        if snd e then
          (if mem_nat (fst e) path' then Some (k + 1)
           else match mock_path f g path' (fst e) with
                | Some j => Some (k + j + 1)
                | None => None end)
        else Some (k + 1)
    end.
Definition cost_step (f : nat) (lim : N) (g : graph) (path' : list nat) :=
  fun (a : N) (e : nat * bool) =>
    if (lim <? a)%N then a
    else if snd e then
           (if mem_nat (fst e) path' then (a + 1)%N
            else mock_cost f lim g path' (fst e) (a + 1)%N)
         else (a + 1)%N.

Lemma collect_S f g visited n :
  collect (S f) g visited n =
  if mem_nat n visited then Some visited else fold_left (collect_step f g) (edges_of g n) (Some (n :: visited)).
Proof. reflexivity. Qed.
Lemma mock_assign_S f g n : mock_assign (S f) g n = fold_left (mock_step f g) (edges_of g n) (Some 0).
Proof. reflexivity. Qed.
Lemma mock_path_S f g path n :
  mock_path (S f) g path n = fold_left (path_step f g (n :: path)) (edges_of g n) (Some 0).
Proof. reflexivity. Qed.
Lemma mock_cost_S f lim g path n acc :
  mock_cost (S f) lim g path n acc = fold_left (cost_step f lim g (n :: path)) (edges_of g n) acc.
Proof. reflexivity. Qed.

Lemma collect_total g : wf_graph g ->
  forall fuel visited n, n < List.length g -> unv (List.length g) visited < fuel ->
  exists v', collect fuel g visited n = Some v' /\ (forall x, In x visited -> In x v').
Proof.
  intros Hwf. induction fuel as [|f IH]; intros visited n Hn Hfuel; [lia|].
  rewrite collect_S. destruct (mem_nat n visited) eqn:Em; [now exists visited|].
  pose proof (unv_cons (List.length g) visited n Hn Em) as Hlt.
  (* the visited set only grows along the edges, so the bound on the unvisited nodes is kept *)
  destruct (fold_left_some (fun acc => (forall x, In x (n :: visited) -> In x acc) /\ unv (List.length g) acc < f)
              (collect_step f g) (edges_of g n)) with (a := n :: visited) as (v' & E & Hsub & _).
  - intros acc [t b] He [Hacc Hstep]. destruct (IH acc t (Hwf n t b He) Hstep) as (v1 & E1 & Hsub1).
    exists v1. split; [exact E1|]. split; [auto|].
    pose proof (unv_mono (List.length g) acc v1 Hsub1). lia.
  - split; [auto|lia].
  - exists v'. split; [exact E|]. intros x Hx. apply Hsub. now right.
Qed.

Theorem guarded_walk_terminates g n : wf_graph g -> n < List.length g ->
  collect (S (List.length g)) g [] n <> None.
Proof.
  intros Hwf Hn.
  destruct (collect_total g Hwf (S (List.length g)) [] n Hn) as [v' [E _]].
  - pose proof (unv_le (List.length g) []). lia.
  - rewrite E. discriminate.
Qed.

Lemma fold_hits_none f g es m : In (m, true) es -> mock_assign f g m = None ->
  forall acc, fold_left (mock_step f g) es acc = None.
Proof.
  induction es as [|e es IH]; intros Hin Hm acc; [contradiction|]. cbn [fold_left].
  destruct Hin as [->|Hin]; [|now apply IH].
  destruct acc as [k|]; cbn; [rewrite Hm|]; now apply fold_left_none.
Qed.

(* a set of nodes each of which has a followed edge back into the set never finishes *)
Theorem mock_cycle_diverges g (C : list nat) :
  (forall n, In n C -> exists m, In m C /\ In (m, true) (edges_of g n)) ->
  forall fuel n, In n C -> mock_assign fuel g n = None.
Proof.
  intros Hc. induction fuel as [|f IH]; intros n Hn; [reflexivity|].
  rewrite mock_assign_S. destruct (Hc n Hn) as [m [HmC Hedge]].
  apply (fold_hits_none f g _ m Hedge). apply IH. exact HmC.
Qed.

Corollary mock_self_loop_diverges g n :
  In (n, true) (edges_of g n) -> forall fuel, mock_assign fuel g n = None.
Proof.
  intros H fuel. apply (mock_cycle_diverges g [n]); [|now left].
  intros x [<-|[]]. exists n. split; [now left|exact H].
Qed.

(* reaching a diverging node through a followed edge diverges too *)
Theorem mock_reaches_diverging g n m :
  In (m, true) (edges_of g n) -> (forall fuel, mock_assign fuel g m = None) ->
  forall fuel, mock_assign fuel g n = None.
Proof.
  intros Hedge Hm [|f]; [reflexivity|]. rewrite mock_assign_S.
  apply (fold_hits_none f g _ m Hedge). apply Hm.
Qed.

(* with a rank that decreases along followed edges (an acyclic response type) the walk finishes *)
Theorem mock_ranked_terminates g (rank : nat -> nat) :
  (forall n m, In (m, true) (edges_of g n) -> rank m < rank n) ->
  forall fuel n, rank n < fuel -> exists k, mock_assign fuel g n = Some k.
Proof.
  intros Hr. induction fuel as [|f IH]; intros n Hlt; [lia|].
  rewrite mock_assign_S.
  destruct (fold_left_some (fun _ => True) (mock_step f g) (edges_of g n)) with (a := 0) as (k & E & _); [|exact I|now exists k].
  intros k [t b] He _. cbn [mock_step snd fst]. destruct b; [|now eexists].
  destruct (IH t) as [j Ej]; [specialize (Hr n t He); lia|]. rewrite Ej. now eexists.
Qed.

Lemma mock_path_total g : wf_graph g ->
  forall fuel path n, n < List.length g -> mem_nat n path = false -> unv (List.length g) path < fuel ->
  exists k, mock_path fuel g path n = Some k.
Proof.
  intros Hwf. induction fuel as [|f IH]; intros path n Hn Hnp Hfuel; [lia|].
  rewrite mock_path_S.
  pose proof (unv_cons (List.length g) path n Hn Hnp) as Hlt.
  destruct (fold_left_some (fun _ => True) (path_step f g (n :: path)) (edges_of g n)) with (a := 0) as (k & E & _);
    [|exact I|now exists k].
  intros k [t b] He _. cbn [path_step snd fst]. destruct b; [|now eexists].
  destruct (mem_nat t (n :: path)) eqn:Em; [now eexists|].
  destruct (IH (n :: path) t (Hwf n t true He) Em) as [j Ej]; [lia|]. rewrite Ej. now eexists.
Qed.

Theorem mock_path_terminates g n : wf_graph g -> n < List.length g ->
  mock_path (S (List.length g)) g [] n <> None.
Proof.
  intros Hwf Hn.
  destruct (mock_path_total g Hwf (S (List.length g)) [] n Hn eq_refl) as [k E].
  - pose proof (unv_le (List.length g) []). lia.
  - rewrite E. discriminate.
Qed.

Lemma dag2_edges d i : i <= d ->
  edges_of (dag2 d) i = if i <? d then [(S i, true); (S i, true)] else [].
Proof.
  intros Hi. unfold edges_of, dag2.
  rewrite nth_error_map.
  assert (E : nth_error (seq 0 (S d)) i = Some i).
  { rewrite (nth_error_nth' _ 0) by (rewrite seq_length; lia). rewrite seq_nth by lia. reflexivity. }
  rewrite E. reflexivity.
Qed.

Lemma dag2_wf d : wf_graph (dag2 d).
Proof.
  intros n t b Hin. unfold dag2 at 1. rewrite map_length, seq_length.
  destruct (le_lt_dec n d) as [Hle|Hgt].
  - rewrite (dag2_edges d n Hle) in Hin. destruct (n <? d) eqn:E.
    + apply Nat.ltb_lt in E. destruct Hin as [H|[H|[]]]; inversion H; lia.
    + contradiction.
  - unfold edges_of, dag2 in Hin. rewrite nth_error_map in Hin.
    assert (E : nth_error (seq 0 (S d)) n = None) by (apply nth_error_None; rewrite seq_length; lia).
    rewrite E in Hin. contradiction.
Qed.

Lemma mem_nat_below i path : (forall x, In x path -> x < i) -> mem_nat (S i) (i :: path) = false.
Proof.
  intros H. destruct (mem_nat (S i) (i :: path)) eqn:E; [|reflexivity].
  apply mem_nat_In in E. destruct E as [E|E]; [lia|]. apply H in E. lia.
Qed.

(* exact count: 2^(m+1) - 2 assignments below a node that has m levels under it *)
Lemma mock_path_dag2_level d : forall m i fuel path k,
  i + m = d -> (forall x, In x path -> x < i) ->
  mock_path fuel (dag2 d) path i = Some k -> k + 2 = 2 ^ (S m).
Proof.
  induction m as [|m IH]; intros i fuel path k Hd Hp Hk.
  - destruct fuel as [|f]; [discriminate|]. cbn [mock_path] in Hk.
    rewrite dag2_edges in Hk by lia.
    assert (E : (i <? d) = false) by (apply Nat.ltb_ge; lia). rewrite E in Hk.
    cbn in Hk. inversion Hk. reflexivity.
  - destruct fuel as [|f]; [discriminate|]. cbn [mock_path] in Hk.
    rewrite dag2_edges in Hk by lia.
    assert (E : (i <? d) = true) by (apply Nat.ltb_lt; lia). rewrite E in Hk.
    cbn [fold_left snd fst] in Hk. rewrite (mem_nat_below i path Hp) in Hk.
    destruct (mock_path f (dag2 d) (i :: path) (S i)) as [j|] eqn:Ej; [|discriminate].
    assert (Hj : j + 2 = 2 ^ (S m)).
    { apply (IH (S i) f (i :: path) j); [lia| |exact Ej].
      intros x [<-|Hx]; [lia|]. apply Hp in Hx. lia. }
    inversion Hk. subst k. rewrite (Nat.pow_succ_r' 2 (S m)). lia.
Qed.

Lemma mock_path_dag2_fuel d fuel : List.length (dag2 d) < fuel -> exists k,
  mock_path fuel (dag2 d) [] 0 = Some k /\ k + 2 = 2 ^ (S d).
Proof.
  intros Hf. pose proof (unv_le (List.length (dag2 d)) []).
  destruct (mock_path_total (dag2 d) (dag2_wf d) fuel [] 0) as [k E];
    [unfold dag2; rewrite map_length, seq_length; lia | reflexivity | lia |].
  exists k. split; [exact E|].
  apply (mock_path_dag2_level d d 0 fuel [] k); [lia| intros x [] | exact E].
Qed.

Theorem mock_path_dag2 d : exists k,
  mock_path (S (List.length (dag2 d))) (dag2 d) [] 0 = Some k /\ k + 2 = 2 ^ (S d).
Proof. apply mock_path_dag2_fuel. lia. Qed.

Corollary mock_path_dag2_exponential d k : 1 <= d ->
  mock_path (S (List.length (dag2 d))) (dag2 d) [] 0 = Some k -> 2 ^ d <= k.
Proof.
  intros Hd Hk. destruct (mock_path_dag2 d) as [k' [E Hk']]. rewrite Hk in E. inversion E. subst k'.
  rewrite Nat.pow_succ_r' in Hk'.
  assert (2 <= 2 ^ d).
  { destruct d as [|d']; [lia|]. rewrite Nat.pow_succ_r'. pose proof (Nat.pow_nonzero 2 d'). lia. }
  lia.
Qed.

(* [r] is what the budgeted count shows after [d] more assignments from [a]: exact up to the limit, past it beyond *)
Definition tracks (lim a : N) (d : nat) (r : N) : Prop :=
  ((a + N.of_nat d <= lim)%N -> r = (a + N.of_nat d)%N) /\ ((lim < a + N.of_nat d)%N -> (lim < r)%N).

Lemma tracks_step lim a : tracks lim a 1 (a + 1).
Proof. split; intros; lia. Qed.

Lemma tracks_saturated lim a d : (lim < a)%N -> tracks lim a d a.
Proof. intros H. split; intros; lia. Qed.

Lemma tracks_trans lim a d1 r1 d2 r2 : tracks lim a d1 r1 -> tracks lim r1 d2 r2 -> tracks lim a (d1 + d2) r2.
Proof.
  intros [A1 A2] [B1 B2]. unfold tracks. rewrite Nat2N.inj_add. split; intros H.
  - rewrite B1; rewrite A1; lia.
  - destruct (N.le_gt_cases (a + N.of_nat d1) lim) as [Hle|Hgt].
    + apply B2. rewrite A1; lia.
    + specialize (A2 Hgt). apply B2. lia.
Qed.

Lemma mock_cost_tracks lim g : forall fuel path n k acc,
  mock_path fuel g path n = Some k -> tracks lim acc k (mock_cost fuel lim g path n acc).
Proof.
  induction fuel as [|f IH]; intros path n k acc Hk; [discriminate|].
  rewrite mock_path_S in Hk. rewrite mock_cost_S.
  set (p := n :: path) in *.
  (* one edge: nothing once the limit is passed, one assignment, or one and those of the message below *)
  assert (Hone : forall e k0 k1 a, path_step f g p (Some k0) e = Some k1 ->
            exists d, k1 = k0 + d /\ tracks lim a d (cost_step f lim g p a e)).
  { intros e k0 k1 a. unfold path_step, cost_step. destruct (lim <? a)%N eqn:El.
    - apply N.ltb_lt in El. intros Hs. exists (k1 - k0). split; [|now apply tracks_saturated].
      destruct (snd e); [destruct (mem_nat (fst e) p); [|destruct (mock_path f g p (fst e))]|]; inversion Hs; lia.
    - destruct (snd e); [destruct (mem_nat (fst e) p)|].
      + intros [= <-]. exists 1. split; [lia|apply tracks_step].
      + destruct (mock_path f g p (fst e)) as [j|] eqn:Ej; [|discriminate]. intros [= <-].
        exists (1 + j). split; [lia|]. apply (tracks_trans lim a 1 (a + 1)); [apply tracks_step|now apply IH].
      + intros [= <-]. exists 1. split; [lia|apply tracks_step]. }
  assert (H : forall es k0 k1 a, fold_left (path_step f g p) es (Some k0) = Some k1 ->
            exists d, k1 = k0 + d /\ tracks lim a d (fold_left (cost_step f lim g p) es a)).
  { induction es as [|e es IHes]; intros k0 k1 a Hf; cbn [fold_left] in *.
    - injection Hf as <-. exists 0. split; [lia|]. split; intros; lia.
    - destruct (path_step f g p (Some k0) e) as [k0'|] eqn:Es; [|rewrite fold_left_none in Hf; [discriminate|reflexivity]].
      destruct (Hone e k0 k0' a Es) as (d1 & -> & T1). destruct (IHes _ _ (cost_step f lim g p a e) Hf) as (d2 & -> & T2).
      exists (d1 + d2). split; [lia|]. now apply (tracks_trans lim a d1 (cost_step f lim g p a e)). }
  destruct (H (edges_of g n) 0 k acc Hk) as (d & -> & T). exact T.
Qed.

Lemma mock_cost_spec lim g : forall fuel path n k acc,
  mock_path fuel g path n = Some k ->
  ((acc + N.of_nat k <= lim)%N -> mock_cost fuel lim g path n acc = (acc + N.of_nat k)%N) /\
  ((lim < acc + N.of_nat k)%N -> (lim < mock_cost fuel lim g path n acc)%N).
Proof. exact (mock_cost_tracks lim g). Qed.

(* The budget test on the layered graph, from the exact count: no walk is evaluated. *)
Lemma mock_over_budget_count g r k : mock_path (S (S (List.length g))) g [] r = Some k ->
  mock_over_budget g r = (mock_budget <? N.of_nat k)%N.
Proof.
  intros Hk. unfold mock_over_budget.
  destruct (mock_cost_spec mock_budget g _ _ _ _ 0%N Hk) as [Hle Hgt]. rewrite N.add_0_l in Hle, Hgt.
  destruct (N.ltb_spec mock_budget (N.of_nat k)) as [H|H].
  - apply N.ltb_lt, Hgt, H.
  - rewrite (Hle H). apply N.ltb_ge, H.
Qed.

Lemma mock_over_budget_dag2 d :
  mock_over_budget (dag2 d) 0 = (mock_budget + 2 <? 2 ^ N.of_nat (S d))%N.
Proof.
  destruct (mock_path_dag2_fuel d (S (S (List.length (dag2 d))))) as [k [Hk Hp]]; [lia|].
  rewrite (mock_over_budget_count _ _ _ Hk).
  apply (f_equal N.of_nat) in Hp. rewrite Nat2N.inj_add, Nat2N.inj_pow in Hp. change (N.of_nat 2) with 2%N in Hp.
  rewrite <- Hp. destruct (N.ltb_spec mock_budget (N.of_nat k)); symmetry; [apply N.ltb_lt|apply N.ltb_ge]; lia.
Qed.
