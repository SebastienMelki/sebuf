(* EmitFacts.v — C13, the emitted code builds.  First half: name derivation (snakeToUpperCamel against
   protoc-gen-go's camel case, protogen's uniquing), the per-message checks of the Go build and vet
   (all_checks_ok, go_builds_and_vets), and the TS server module: no route handler declares a const twice
   and the module loads exactly when its types do (ts_routes_ok_always, ts_server_loads_iff_types),
   assembled in C13_builds_lemma.  From [ann_is] on: the fixture schemas of props/C13.v (one per defect
   class and per repaired class) and what evaluating the build model on each gives. *)
From Sebuf Require Import Text Json Schema Emit.
From SebufProofs Require Import ListFacts.

Lemma upper_first_snoc l c : l <> [] -> upper_first (l ++ [c]) = upper_first l ++ [c].
Proof. destruct l; [congruence|reflexivity]. Qed.

Lemma split_concat_char acc x :
  List.concat (map upper_first (split_on_aux underscore acc x)) =
  match acc with
  | [] => json_name_aux true x
  | _ => upper_first (rev acc) ++ json_name_aux false x
  end.
Proof.
  revert acc; induction x as [|c r IH]; intros acc.
  - cbn. destruct acc; cbn; [reflexivity|]. now rewrite app_nil_r.
  - cbn [split_on_aux json_name_aux]. destruct (Ascii.eqb c underscore) eqn:E.
    + cbn [map List.concat]. rewrite (IH []). destruct acc; reflexivity.
    + rewrite (IH (c :: acc)). cbn [rev].
      destruct acc as [|a acc'].
      * reflexivity.
      * rewrite upper_first_snoc.
        -- now rewrite <- app_assoc.
        -- cbn. destruct (rev acc'); discriminate.
Qed.

(* snakeToUpperCamel, for EVERY byte string, is "drop the underscores, upper-case what follows one
   (and the first byte)" *)
Theorem snake_to_upper_camel_char : forall x, snake_to_upper_camel x = json_name_aux true x.
Proof. intros x. unfold snake_to_upper_camel, split_on. apply (split_concat_char [] x). Qed.

Lemma lower_not c : is_lower c = true ->
  Ascii.eqb c dot = false /\ Ascii.eqb c underscore = false /\ is_digit c = false.
Proof.
  intros H. repeat split.
  - destruct (Ascii.eqb c dot) eqn:E; [|reflexivity]. apply Ascii.eqb_eq in E. subst. discriminate.
  - destruct (Ascii.eqb c underscore) eqn:E; [|reflexivity]. apply Ascii.eqb_eq in E. subst. discriminate.
  - unfold is_lower, is_digit in *. apply andb_true_iff in H as [H1 H2].
    apply N.leb_le in H1. apply andb_false_iff. right. apply N.leb_gt. lia.
Qed.

Lemma underscore_facts : Ascii.eqb underscore dot = false /\ is_lower underscore = false.
Proof. split; reflexivity. Qed.

Lemma go_camel_plain : forall x,
  (plain_snake_aux true x = true -> forall st, go_camel_aux false st x = json_name_aux true x) /\
  (plain_snake_aux false x = true -> go_camel_aux true false x = json_name_aux false x).
Proof.
  induction x as [|c r [IH1 IH2]]; split.
  - cbn. discriminate.
  - reflexivity.
  - cbn [plain_snake_aux]. destruct (Ascii.eqb c underscore) eqn:E; [cbn; discriminate|].
    intros H st. apply andb_true_iff in H as [Hl Hr].
    destruct (lower_not c Hl) as (Hd & _ & Hg).
    cbn [go_camel_aux json_name_aux]. rewrite E, Hd, Hg. cbn [andb].
    now rewrite (IH2 Hr).
  - cbn [plain_snake_aux]. destruct (Ascii.eqb c underscore) eqn:E.
    + apply Ascii.eqb_eq in E. subst c. cbn [negb andb]. intros H.
      cbn [go_camel_aux json_name_aux].
      assert (Hn : match r with d :: _ => is_lower d | [] => false end = true).
      { destruct r as [|d r']; [cbn in H; discriminate|]. cbn [plain_snake_aux] in H.
        destruct (Ascii.eqb d underscore); [cbn in H; discriminate|]. now apply andb_true_iff in H as [H _]. }
      rewrite Hn. cbn. now apply IH1.
    + intros H. apply andb_true_iff in H as [Hl Hr].
      cbn [go_camel_aux json_name_aux]. rewrite Hl, E. cbn [andb]. now rewrite (IH2 Hr).
Qed.

(* for proto field names of the shape [a-z]+(_[a-z]+)* the identifier the client prints
   (clientgen snakeToUpperCamel) is the identifier protoc-gen-go declares (GoCamelCase) *)
Theorem snake_upper_camel_eq_go_camel : forall x,
  plain_snake x = true -> snake_to_upper_camel x = go_camel x.
Proof.
  intros x H. rewrite snake_to_upper_camel_char. unfold go_camel, plain_snake in *.
  destruct x; [discriminate|]. symmetry. now apply (proj1 (go_camel_plain _)).
Qed.

(* ... and outside that shape they differ: a digit after an underscore, a letter after a digit,
   a doubled underscore *)
Example snake_ne_go_camel_digit_word : snake_to_upper_camel (s "field_1") = s "Field1" /\ go_camel (s "field_1") = s "Field_1".
Proof. split; reflexivity. Qed.
Example snake_ne_go_camel_letter_after_digit : snake_to_upper_camel (s "a1b") = s "A1b" /\ go_camel (s "a1b") = s "A1B".
Proof. split; reflexivity. Qed.
Example snake_ne_go_camel_double_underscore : snake_to_upper_camel (s "x__y") = s "XY" /\ go_camel (s "x__y") = s "X_Y".
Proof. split; reflexivity. Qed.
Example snake_ne_go_camel_trailing_underscore : snake_to_upper_camel (s "tail_") = s "Tail" /\ go_camel (s "tail_") = s "Tail_".
Proof. split; reflexivity. Qed.

(* protogen's uniquing leaves a name alone when neither it nor its getter is taken *)
Lemma make_unique_free fuel u n g :
  used_get u n = false -> (g = true -> used_get u (s "Get" ++ n) = false) ->
  fst (make_unique (S fuel) u n g) = n.
Proof.
  intros H1 H2. cbn [make_unique]. rewrite H1. destruct g; cbn [orb andb]; [rewrite (H2 eq_refl)|]; reflexivity.
Qed.
Example uniquing_renames_reserved :
  go_field_names [ {| f_name := s "string"; f_number := 1; f_kind := KString; f_card := Singular; f_oneof := None; f_query := None;
                      f_unwrap := false; f_int64 := None; f_enumenc := None; f_nullable := None; f_empty := None; f_tsfmt := None;
                      f_bytesenc := None; f_oneof_value := None; f_flatten := None; f_flatten_prefix := None |} ] = [s "String_"].
Proof. reflexivity. Qed.

Lemma all_ok_app a b : all_ok (a ++ b) = all_ok a && all_ok b.
Proof. unfold all_ok. apply forallb_app. Qed.

Lemma all_ok_cons c l : all_ok (c :: l) = ck_ok c && all_ok l.
Proof. reflexivity. Qed.

Lemma all_ok_one c : all_ok [c] = ck_ok c.
Proof. apply andb_true_r. Qed.

Lemma all_ok_flat_map {A} (g : A -> list check) l :
  all_ok (flat_map g l) = forallb (fun x => all_ok (g x)) l.
Proof. induction l; cbn; [reflexivity|]. now rewrite all_ok_app, IHl. Qed.

Lemma all_ok_flat_map_in {A} (g : A -> list check) l :
  (forall x, In x l -> all_ok (g x) = true) -> all_ok (flat_map g l) = true.
Proof. intros H. rewrite all_ok_flat_map. now apply forallb_forall. Qed.

Lemma all_ok_filter P l : all_ok l = true -> all_ok (filter P l) = true.
Proof.
  unfold all_ok. intros H. apply forallb_forall. intros x Hx. apply filter_In in Hx as [Hx _].
  now apply (proj1 (forallb_forall _ _) H).
Qed.

Lemma mem_str_In x l : mem_str x l = true <-> In x l.
Proof. apply existsb_str_eqb_In. Qed.

Lemma dedup_nil l : dedup l = [] -> l = [].
Proof.
  induction l as [|x r IH]; [reflexivity|]. cbn. destruct (mem_str x r) eqn:E; [|discriminate].
  intros H. specialize (IH H). subst r. cbn in E. discriminate.
Qed.

Lemma tag_if_nil b t : tag_if b t = [] -> b = false.
Proof. destruct b; cbn; [discriminate|reflexivity]. Qed.

Lemma tag_if_app_nil b t l : tag_if b t ++ l = [] -> b = false /\ l = [].
Proof. intros H. apply app_eq_nil in H as [H1 H2]. split; [now apply tag_if_nil in H1|assumption]. Qed.

Lemma nodup_const (c : str) {A} (l : list A) :
  Nat.ltb 1 (List.length l) = false -> nodup_strb (map (fun _ => c) l) = true.
Proof. destruct l as [|a [|b l]]; cbn; try reflexivity. discriminate. Qed.

Lemma singular_card f : is_map f = false -> is_list f = false -> is_optional f = false -> f_card f = Singular.
Proof. unfold is_map, is_list, is_optional. now destruct (f_card f). Qed.

Lemma not_in_oneof f : in_real_oneof f = false -> f_oneof f = None.
Proof. unfold in_real_oneof. now destruct (f_oneof f). Qed.

Lemma singular_plain f : is_singular_plain f = true -> f_card f = Singular /\ f_oneof f = None.
Proof.
  unfold is_singular_plain. destruct (f_card f); try discriminate. intros H. apply negb_true_iff in H.
  split; [reflexivity|now apply not_in_oneof].
Qed.

Lemma go_field_type_plain f : f_card f = Singular -> f_oneof f = None -> go_field_type f = base_gotype (f_kind f).
Proof. unfold go_field_type. now intros -> ->. Qed.

Lemma go_field_type_list f : is_list f = true -> go_field_type f = GSlice (base_gotype (f_kind f)).
Proof. unfold go_field_type, is_list. now destruct (f_card f). Qed.

Lemma go_field_type_map f : is_map f = true -> exists k, go_field_type f = GMap k (base_gotype (f_kind f)).
Proof. unfold go_field_type, is_map. destruct (f_card f); try discriminate. now eexists. Qed.

Lemma str_key_map_ok f : str_key f = true -> req_ok RStrKeyMap (go_field_type f) = true.
Proof. unfold str_key, go_field_type. destruct (f_card f) as [| | |kk]; try discriminate. now destruct kk. Qed.

(* an optional field is a pointer: one the plugin adds, or the byte slice / message pointer it already is *)
Lemma optional_nil_cmp f : is_optional f = true -> req_ok RNilCmp (go_field_type f) = true.
Proof. unfold go_field_type, is_optional. destruct (f_card f); try discriminate. now destruct (base_gotype (f_kind f)). Qed.

(* bytes and messages are references already: optional leaves their type alone *)
Lemma go_field_type_ref f :
  is_map f = false -> is_list f = false -> in_real_oneof f = false ->
  match f_kind f with KBytes | KMessage _ => true | _ => false end = true ->
  go_field_type f = base_gotype (f_kind f).
Proof.
  unfold go_field_type, is_map, is_list. intros Hm Hl Ho Hk. apply not_in_oneof in Ho.
  destruct (f_card f); try discriminate; [now rewrite Ho|]. now destruct (f_kind f).
Qed.

Lemma go_field_type_msg f :
  is_msg_kind (f_kind f) = true -> is_map f = false -> is_list f = false -> in_real_oneof f = false ->
  exists n, f_kind f = KMessage n /\ go_field_type f = GPtrMsg n.
Proof.
  intros Hk Hm Hl Ho. rewrite (go_field_type_ref f Hm Hl Ho); destruct (f_kind f); try discriminate Hk; [now eexists|reflexivity].
Qed.

Lemma andb_false_l_true a b : a && b = false -> a = true -> b = false.
Proof. now intros H ->. Qed.

Lemma int64_field_ok f :
  f_int64num f && is_optional f = false -> f_int64num f && in_real_oneof f = false ->
  all_ok (int64_checks f) = true.
Proof.
  unfold int64_checks. destruct (f_int64num f) eqn:E; [|reflexivity]. cbn [andb]. intros Ho Hn.
  unfold f_int64num in E. apply andb_true_iff in E as [E _]. apply andb_true_iff in E as [Em Ek]. apply negb_true_iff in Em.
  destruct (is_list f) eqn:El; rewrite all_ok_one; unfold expr_check; cbn [ck_ok mk].
  - now rewrite go_field_type_list.
  - rewrite go_field_type_plain; [|now apply singular_card|now apply not_in_oneof].
    now destruct (f_kind f).
Qed.

Lemma nullable_field_ok f : field_accepted f = true -> all_ok (nullable_checks f) = true.
Proof.
  unfold nullable_checks, field_accepted. destruct (f_nullable_on f); [|reflexivity]. cbn [negb orb].
  intros H. do 3 apply andb_true_iff in H as [H _]. apply andb_true_iff in H as [H _].
  rewrite all_ok_one. now apply optional_nil_cmp.
Qed.

Lemma empty_field_ok f :
  field_accepted f = true -> f_empty_on f && in_real_oneof f = false -> all_ok (empty_checks f) = true.
Proof.
  unfold empty_checks, field_accepted. destruct (f_empty_on f); [|reflexivity]. cbn [negb orb andb].
  intros H Hn. do 2 apply andb_true_iff in H as [H _]. apply andb_true_iff in H as [_ H].
  apply andb_true_iff in H as [H Hm]. apply andb_true_iff in H as [Hk Hl]. apply negb_true_iff in Hm, Hl.
  destruct (go_field_type_msg f Hk Hm Hl Hn) as (n & _ & E). unfold all_ok, expr_check. cbn [forallb ck_ok mk]. now rewrite E.
Qed.

Lemma ts_field_ok f :
  f_tsfmt_on f && is_list f = false -> f_tsfmt_on f && in_real_oneof f = false -> all_ok (ts_checks f) = true.
Proof.
  unfold ts_checks. destruct (f_tsfmt_on f) eqn:E; [|reflexivity]. cbn [andb]. intros Hl Hn.
  unfold f_tsfmt_on in E. apply andb_true_iff in E as [E _]. apply andb_true_iff in E as [Em Ek]. apply negb_true_iff in Em.
  assert (Hk : is_msg_kind (f_kind f) = true) by now destruct (f_kind f).
  destruct (go_field_type_msg f Hk Em Hl Hn) as (n & En & E). rewrite En in Ek.
  unfold all_ok, expr_check. cbn [forallb ck_ok mk]. rewrite E.
  change (req_ok RAsTime (GPtrMsg n)) with (is_timestamp (KMessage n)). now rewrite Ek.
Qed.

Lemma bytes_field_ok f :
  f_bytesenc_on f && is_list f = false -> f_bytesenc_on f && in_real_oneof f = false -> all_ok (bytes_checks f) = true.
Proof.
  unfold bytes_checks. destruct (f_bytesenc_on f) eqn:E; [|reflexivity]. cbn [andb]. intros Hl Hn.
  unfold f_bytesenc_on in E. apply andb_true_iff in E as [E _]. apply andb_true_iff in E as [Em Ek]. apply negb_true_iff in Em.
  unfold all_ok, expr_check. cbn [forallb ck_ok mk]. rewrite (go_field_type_ref f Em Hl Hn); now destruct (f_kind f).
Qed.

Lemma flatten_field_ok sc fl f :
  field_accepted f = true -> f_flatten_on f && foreign_msg sc fl (f_kind f) = false ->
  all_ok (flatten_checks sc fl f) = true.
Proof.
  unfold flatten_checks, field_accepted. destruct (f_flatten_on f); [|reflexivity]. cbn [negb orb andb].
  intros H Hf. apply andb_true_iff in H as [H _]. apply andb_true_iff in H as [_ H].
  apply andb_true_iff in H as [Hk Hp]. destruct (singular_plain f Hp) as [Hc Ho].
  unfold all_ok, expr_check. cbn [forallb ck_ok mk]. rewrite (go_field_type_plain f Hc Ho).
  unfold foreign_msg in Hf. destruct (f_kind f); try discriminate Hk. apply negb_false_iff in Hf. now rewrite Hf.
Qed.

(* scalar sibling of an unwrap map: getZeroValueCheck's expression fits a plain singular field of every kind *)
Lemma zero_check_plain f :
  f_card f = Singular -> f_oneof f = None -> ck_ok (expr_check (zero_check_req (f_kind f)) f) = true.
Proof. intros Hc Ho. unfold expr_check. rewrite (go_field_type_plain f Hc Ho). now destruct (f_kind f). Qed.

Lemma container_field_ok sc fl f :
  in_real_oneof f = false ->
  plain_unwrap_map sc f && negb (str_key f) = false ->
  match unwrap_map_field sc f with Some u => negb (is_list u) | None => false end = false ->
  is_optional f && match f_kind f with KBytes | KMessage _ => false | _ => true end = false ->
  negb (plain_unwrap_map sc f) && negb (is_map f) && negb (is_list f) && foreign_msg sc fl (f_kind f) = false ->
  all_ok (container_field_checks sc fl f) = true.
Proof.
  intros Ho Hk Hu Hopt Hf. unfold container_field_checks, plain_unwrap_map in *.
  destruct (unwrap_map_field sc f) as [u|] eqn:Eu.
  - cbn [negb andb] in Hk. apply negb_false_iff in Hk. apply negb_false_iff in Hu.
    unfold all_ok, expr_check. cbn [forallb ck_ok mk]. now rewrite Hu, (str_key_map_ok f Hk).
  - cbn [negb andb] in Hf. unfold expr_check.
    destruct (is_map f) eqn:Em.
    { destruct (go_field_type_map f Em) as (kk & E). rewrite all_ok_one. cbn [ck_ok mk]. now rewrite E. }
    destruct (is_list f) eqn:El.
    { rewrite all_ok_one. cbn [ck_ok mk]. now rewrite go_field_type_list. }
    cbn [negb andb] in Hf.
    destruct (is_msg_kind (f_kind f)) eqn:Emk.
    + destruct (go_field_type_msg f Emk Em El Ho) as (n & En & E). rewrite En in *.
      unfold foreign_msg in Hf. apply negb_false_iff in Hf.
      unfold all_ok. cbn [forallb ck_ok mk]. now rewrite E, Hf.
    + assert (Hz : ck_ok (expr_check (zero_check_req (f_kind f)) f) = true).
      { destruct (is_optional f) eqn:Eo.
        - unfold expr_check, go_field_type. unfold is_optional in Eo. destruct (f_card f); try discriminate.
          cbn [andb] in Hopt. now destruct (f_kind f).
        - apply zero_check_plain; [now apply singular_card|now apply not_in_oneof]. }
      destruct (f_kind f); try discriminate Emk; now rewrite all_ok_one.
Qed.

Lemma root_unwrap_ok sc f :
  is_list f || is_map f = true ->
  is_map f && is_msg_kind (f_kind f) && negb (str_key f) = false ->
  is_map f && match value_msg sc f with
              | Some v => match unwrap_field v with Some u => negb (is_list u) | None => false end
              | None => false end = false ->
  all_ok (root_unwrap_checks sc f) = true.
Proof.
  intros Hlm Hk Hu. unfold root_unwrap_checks, expr_check. destruct (is_map f) eqn:Em.
  - cbn [andb] in *. rewrite all_ok_app. apply andb_true_iff. split.
    + destruct (is_msg_kind (f_kind f)); rewrite all_ok_one; cbn [ck_ok mk].
      * cbn [andb] in Hk. apply negb_false_iff in Hk. now apply str_key_map_ok.
      * destruct (go_field_type_map f Em) as (kk & E). now rewrite E.
    + destruct (value_msg sc f) as [v|]; [|reflexivity]. destruct (unwrap_field v) as [u|]; [|reflexivity].
      apply negb_false_iff in Hu. now rewrite all_ok_one.
  - rewrite orb_false_r in Hlm. rewrite all_ok_one. cbn [ck_ok mk]. now rewrite go_field_type_list.
Qed.

Lemma oneof_ok sc fl m o :
  negb (nodup_strb (map variant_value (members m o))) = false ->
  existsb (fun f => foreign_msg sc fl (f_kind f)) (members m o) = false ->
  all_ok (oneof_checks sc fl m o) = true.
Proof.
  intros Hdup Hfor. apply negb_false_iff in Hdup. rewrite existsb_false in Hfor.
  unfold oneof_checks. rewrite !all_ok_cons. cbn [ck_ok mk mkvet]. rewrite Hdup.
  change (printf_ok (s "invalid discriminator %q: %w") 2) with true. cbn [andb].
  apply all_ok_flat_map_in. intros f Hf. specialize (Hfor f Hf).
  destruct (f_kind f); try reflexivity.
  unfold foreign_msg in Hfor. apply negb_false_iff in Hfor.
  unfold all_ok. cbn [forallb ck_ok mk mkvet]. now rewrite Hfor.
Qed.

Lemma two_tags_ok {A} (P Q : A -> bool) (t1 t2 : string) (chk : A -> list check) l :
  (forall x, In x l -> P x = false -> Q x = false -> all_ok (chk x) = true) ->
  tag_if (existsb P l) t1 ++ tag_if (existsb Q l) t2 = [] -> all_ok (flat_map chk l) = true.
Proof.
  intros H Ht. apply tag_if_app_nil in Ht as [T Ht]. apply tag_if_nil in Ht.
  rewrite existsb_false in T. rewrite existsb_false in Ht. apply all_ok_flat_map_in. intros x Hx. apply H; auto.
Qed.

Lemma feature_ok sc fl m ft :
  msg_accepted m = true -> feature_tags sc fl m ft = [] -> all_ok (feature_checks sc fl m ft) = true.
Proof.
  intros Hacc Ht. unfold msg_accepted in Hacc.
  apply andb_true_iff in Hacc as [Hacc Huw]. apply andb_true_iff in Hacc as [Hfa _].
  rewrite forallb_forall in Hfa.
  destruct ft; cbn [feature_tags feature_checks] in *.
  - revert Ht. apply two_tags_ok. intros f _. apply int64_field_ok.
  - apply all_ok_flat_map_in. intros f Hf. apply nullable_field_ok; auto.
  - apply tag_if_nil in Ht. rewrite existsb_false in Ht.
    apply all_ok_flat_map_in. intros f Hf. apply empty_field_ok; [auto|now apply Ht].
  - revert Ht. apply two_tags_ok. intros f _. apply ts_field_ok.
  - revert Ht. apply two_tags_ok. intros f _. apply bytes_field_ok.
  - apply tag_if_nil in Ht. rewrite existsb_false in Ht.
    apply all_ok_flat_map_in. intros f Hf. apply flatten_field_ok; [auto|now apply Ht].
  - revert Ht. apply two_tags_ok. intros o _. apply oneof_ok.
  - unfold unwrap_checks. destruct (is_root_unwrap m) eqn:Er.
    + destruct (unwrap_field m) as [f|] eqn:Ef; [|reflexivity].
      apply tag_if_app_nil in Ht as [T Ht]. apply tag_if_nil in Ht.
      unfold unwrap_field in Ef. apply find_some in Ef as [Hin Hun].
      specialize (Hfa f Hin). unfold field_accepted in Hfa.
      apply andb_true_iff in Hfa as [_ Hfa]. rewrite Hun in Hfa. now apply root_unwrap_ok.
    + destruct (is_unwrap_container sc m) eqn:Ec; [|reflexivity].
      apply tag_if_app_nil in Ht as [T Ht]. apply tag_if_app_nil in Ht as [T0 Ht].
      apply tag_if_app_nil in Ht as [T1 Ht]. apply tag_if_app_nil in Ht as [T2 Ht]. apply tag_if_nil in Ht.
      rewrite existsb_false in T. rewrite existsb_false in T0. rewrite existsb_false in T1. rewrite existsb_false in T2. rewrite existsb_false in Ht.
      apply all_ok_flat_map_in. intros f Hf.
      apply container_field_ok; [now apply T|now apply T0|now apply T1|now apply T2|now apply Ht].
Qed.

Lemma msg_ok p sc fl m :
  msg_accepted m = true -> msg_tags p sc fl m = [] -> all_ok (msg_checks p sc fl m) = true.
Proof.
  intros Hacc Ht. unfold msg_tags in Ht. apply tag_if_app_nil in Ht as [Hdup Hfe]. apply tag_if_app_nil in Hfe as [Hcl Hfe].
  rewrite flat_map_nil in Hfe.
  unfold msg_checks. rewrite !all_ok_cons. apply andb_true_iff. split; [|apply andb_true_iff; split].
  - cbn [ck_ok mk]. unfold marshal_methods. now apply nodup_const.
  - cbn [ck_ok mk]. now rewrite Hcl.
  - apply all_ok_flat_map_in. intros ft Hft. specialize (Hfe ft Hft). cbn beta in Hfe.
    destruct (plugin_emits p fl ft); [now apply feature_ok|reflexivity].
Qed.

Lemma enum_ok p fl e : enum_tags p fl e = [] -> all_ok (enum_checks p fl e) = true.
Proof.
  unfold enum_tags, enum_checks. intros H. apply tag_if_nil in H.
  destruct (enum_has_custom e && match p with PHttp => true | PClient => has_services fl end); [|reflexivity].
  cbn [andb] in H. apply negb_false_iff in H. now rewrite all_ok_one.
Qed.

Lemma client_query_ok f : client_query_tags f = [] -> all_ok (client_query_checks f) = true.
Proof.
  unfold client_query_tags, client_query_checks. intros H. apply tag_if_app_nil in H as [T H]. apply tag_if_nil in H.
  apply orb_false_iff in T as [Tm Tk]. rewrite Tm in *. cbn [negb andb] in H.
  apply negb_false_iff in Tk. rewrite Tk in H. cbn [andb] in H. apply negb_false_iff in H.
  destruct (singular_plain f H) as [Hc Ho]. rewrite all_ok_one. unfold expr_check. rewrite (go_field_type_plain f Hc Ho).
  now destruct (f_kind f).
Qed.

Lemma client_path_ok m p : client_path_tags m p = [] -> all_ok (client_path_checks m p) = true.
Proof.
  unfold client_path_tags, client_path_checks. intros H. apply tag_if_app_nil in H as [T H]. apply tag_if_nil in H.
  destruct (mem_str (snake_to_upper_camel p) (struct_fields m)); [reflexivity|].
  destruct (mem_str (snake_to_upper_camel p) (msg_methods m)); discriminate.
Qed.

Lemma client_method_ok sc md : client_method_tags sc md = [] -> all_ok (client_method_checks sc md) = true.
Proof.
  unfold client_method_tags, client_method_checks. destruct (input_msg sc md) as [m|]; [|reflexivity].
  intros H. apply app_eq_nil in H as [H1 H2]. rewrite all_ok_app. apply andb_true_iff. split.
  - rewrite flat_map_nil in H1. apply all_ok_flat_map_in. intros p Hp. apply client_path_ok. now apply H1.
  - destruct (has_body md); [reflexivity|]. rewrite flat_map_nil in H2.
    apply all_ok_flat_map_in. intros f Hf. apply client_query_ok. now apply H2.
Qed.

Lemma file_ok p sc fl :
  forallb msg_accepted (fl_messages fl) = true -> file_tags p sc fl = [] -> all_ok (file_checks p sc fl) = true.
Proof.
  intros Hacc Ht. unfold file_tags in Ht. unfold file_checks. rewrite forallb_forall in Hacc.
  apply app_eq_nil in Ht as [Hm Ht]. apply app_eq_nil in Ht as [He Ht]. apply app_eq_nil in Ht as [Hp Hi].
  apply tag_if_nil in Hi. apply negb_false_iff in Hi. rewrite flat_map_nil in Hm. rewrite flat_map_nil in He.
  repeat rewrite all_ok_app. repeat (apply andb_true_iff; split).
  - apply all_ok_flat_map_in. intros m Hin. apply msg_ok; [now apply Hacc|now apply Hm].
  - apply all_ok_flat_map_in. intros e Hin. apply enum_ok. now apply He.
  - destruct p.
    + apply app_eq_nil in Hp as [Hp1 Hp2]. apply tag_if_app_nil in Hp2 as [Hp2 Hp3].
      apply negb_false_iff in Hp2. apply tag_if_nil in Hp3. rewrite flat_map_nil in Hp1. rewrite existsb_false in Hp3.
      rewrite !all_ok_app. apply andb_true_iff. split; [|apply andb_true_iff; split].
      * apply all_ok_flat_map_in. intros m Hin. specialize (Hp1 m Hin). apply tag_if_nil in Hp1.
        unfold error_impl_checks. destruct (is_error_msg m); [|reflexivity].
        cbn [andb] in Hp1. rewrite all_ok_one. cbn [ck_ok mk]. now rewrite Hp1.
      * now rewrite all_ok_one.
      * apply all_ok_flat_map_in. intros sv Hsv. specialize (Hp3 sv Hsv). cbn beta in Hp3.
        unfold service_checks. rewrite all_ok_one. cbn [ck_ok mk]. now rewrite Hp3.
    + rewrite flat_map_nil in Hp. apply all_ok_flat_map_in. intros md Hin. apply client_method_ok. now apply Hp.
  - exact Hi.
  - reflexivity.
Qed.

(* the classifier of a declaration clash names three causes and has a catch-all for the rest *)
Lemma decl_ok ps sc : decl_tags ps sc = [] -> nodup_strb (pkg_decls ps sc) = true.
Proof.
  unfold decl_tags. destruct (nodup_strb (pkg_decls ps sc)); [reflexivity|]. cbv zeta. intros H.
  apply tag_if_app_nil in H as [T1 H]. apply tag_if_app_nil in H as [T2 H]. apply tag_if_app_nil in H as [T3 H].
  rewrite T1, T2, T3 in H. discriminate H.
Qed.

Lemma gen_files_in sc fl : In fl (gen_files sc) -> In fl sc.
Proof. unfold gen_files. intros H. now apply filter_In in H as [H _]. Qed.

Theorem all_checks_ok sc ps :
  accepted sc = true -> go_tags ps sc = [] -> all_ok (pkg_checks ps sc) = true.
Proof.
  intros Hacc Ht. unfold go_tags in Ht. apply app_eq_nil in Ht as [Hd Hf]. rewrite flat_map_nil in Hf.
  unfold accepted in Hacc. rewrite forallb_forall in Hacc.
  unfold pkg_checks. rewrite all_ok_cons. apply andb_true_iff. split.
  - cbn [ck_ok mk]. now apply decl_ok.
  - apply all_ok_flat_map_in. intros p Hp. apply all_ok_flat_map_in. intros fl Hfl.
    specialize (Hf p Hp). cbn beta in Hf. rewrite flat_map_nil in Hf.
    apply file_ok; [|now apply Hf].
    specialize (Hacc fl (gen_files_in _ _ Hfl)). now apply andb_true_iff in Hacc as [H _].
Qed.

Theorem go_builds_and_vets sc ps :
  accepted sc = true -> defects_go sc ps = [] -> go_builds sc ps = true /\ go_vets sc ps = true.
Proof.
  intros Hacc Hd. apply dedup_nil in Hd. pose proof (all_checks_ok sc ps Hacc Hd) as H.
  assert (Hb : go_builds sc ps = true) by (unfold go_builds, build_checks; now apply all_ok_filter).
  split; [exact Hb|]. unfold go_vets. rewrite Hb. cbn [andb]. unfold vet_checks. now apply all_ok_filter.
Qed.

(* after 5089e92 no route handler of the TS server declares a const twice, whatever the verb, the
   path variables, the query parameters and the headers ... *)
Theorem ts_route_never_redeclares sc sv md : nodup_strb (ts_route_consts sc sv md) = true.
Proof.
  unfold ts_route_consts.
  (* what the list depends on, as variables: the cases are then taken on a goal that mentions nothing else *)
  generalize (sv_headers sv ++ md_headers md) as hs, (path_params md) as pp, (has_body md) as b, (input_msg sc md) as im.
  intros hs pp b im. destruct b; [|destruct im as [m|]; [destruct (query_fields_of m)|]]; destruct hs; destruct pp; reflexivity.
Qed.

(* ... and the query parser, which reads url.searchParams, always has `url` in scope: declared by the
   path extraction when the route has path variables, by itself otherwise *)
Theorem ts_query_parser_has_url sc sv md :
  mem_str (s "params") (ts_route_consts sc sv md) = true -> mem_str (s "url") (ts_route_consts sc sv md) = true.
Proof.
  unfold ts_route_consts.
  generalize (sv_headers sv ++ md_headers md) as hs, (path_params md) as pp, (has_body md) as b, (input_msg sc md) as im.
  intros hs pp b im. destruct b; [|destruct im as [m|]; [destruct (query_fields_of m)|]]; destruct hs; destruct pp;
    cbn; intros H; try discriminate H; reflexivity.
Qed.

Theorem ts_routes_ok_always sc fl : ts_routes_ok sc fl = true.
Proof.
  unfold ts_routes_ok. apply forallb_forall. intros sv _. apply forallb_forall. intros md _. apply ts_route_never_redeclares.
Qed.

(* so the TS server module loads exactly when the annotation texts it prints as bare property names
   (discriminators, flatten_prefix ++ child name) are identifier names *)
Theorem ts_server_loads_iff_types sc fl : ts_server_loads sc fl = ts_types_ok sc fl.
Proof. unfold ts_server_loads. now rewrite ts_routes_ok_always. Qed.

(* an identifier-like prefix keeps every child name an identifier; a prefix that is not one breaks all of them *)
Lemma ts_prop_ok_app p n :
  ts_prop_ok p = true -> forallb ts_prop_char n = true -> ts_prop_ok (p ++ n) = true.
Proof.
  destruct p as [|c r]; [discriminate|]. cbn [ts_prop_ok app]. intros H Hn.
  apply andb_true_iff in H as [Hd Hall]. rewrite Hd. cbn [andb].
  change (c :: r ++ n) with ((c :: r) ++ n). rewrite forallb_app, Hall, Hn. reflexivity.
Qed.
Lemma ts_prop_bad_prefix p n :
  p <> [] -> ts_prop_ok p = false -> ts_prop_ok (p ++ n) = false.
Proof.
  destruct p as [|c r]; [congruence|]. intros _. cbn [ts_prop_ok app]. intros H.
  apply andb_false_iff in H as [H|H]; [now rewrite H|].
  change (c :: r ++ n) with ((c :: r) ++ n). rewrite forallb_app, H. cbn [andb]. apply andb_false_r.
Qed.

Lemma ts_client_consts_nodup sc md : nodup_strb (ts_client_consts sc md) = true.
Proof.
  unfold ts_client_consts. destruct (has_body md); [reflexivity|]. destruct (input_msg sc md) as [m|]; [|reflexivity].
  destruct (query_fields_of m); reflexivity.
Qed.

(* what is left on the TS side is name-driven: a method called Constructor, a header whose property
   name is not an identifier, an annotation text printed as a bare property name *)
Theorem ts_loads_of_tags sc : ts_tags sc = [] -> ts_loads sc = true.
Proof.
  unfold ts_tags. intros H. apply tag_if_app_nil in H as [H1 H2]. apply tag_if_app_nil in H2 as [H2 H3]. apply tag_if_nil in H3.
  rewrite existsb_false in H1. rewrite existsb_false in H2. rewrite existsb_false in H3.
  unfold ts_loads. apply forallb_forall. intros fl Hfl.
  specialize (H1 fl Hfl). specialize (H2 fl Hfl). specialize (H3 fl Hfl). cbn beta in H1, H2, H3.
  apply negb_false_iff in H3. rewrite existsb_false in H1. rewrite existsb_false in H2.
  rewrite ts_server_loads_iff_types, H3. cbn [andb].
  unfold ts_client_loads. rewrite H3, andb_true_r. apply andb_true_iff. split.
  - apply forallb_forall. intros md Hmd. rewrite ts_client_consts_nodup. cbn [andb].
    specialize (H1 md Hmd). now apply negb_false_iff in H1.
  - apply forallb_forall. intros sv Hsv. apply forallb_forall. intros h Hh.
    specialize (H2 sv Hsv). cbn beta in H2. rewrite existsb_false in H2. specialize (H2 h Hh). now apply negb_false_iff in H2.
Qed.

Theorem C13_builds_lemma : forall sc, accepted sc = true -> defects_C13 sc = [] ->
  (forall ps, go_builds sc ps = true /\ go_vets sc ps = true) /\ ts_loads sc = true.
Proof.
  intros sc Hacc Hd. unfold defects_C13 in Hd. apply dedup_nil in Hd.
  apply app_eq_nil in Hd as [H1 Hd]. apply app_eq_nil in Hd as [H2 Hd]. apply app_eq_nil in Hd as [H3 H4].
  split.
  - intros ps. apply go_builds_and_vets; [assumption|]. unfold defects_go.
    destruct ps; [rewrite H1|rewrite H2|rewrite H3]; reflexivity.
  - now apply ts_loads_of_tags.
Qed.

(* an accepted schema without defect tags: evaluate those two, everything else follows from the theorem *)
Lemma clean_by sc : accepted sc = true -> defects_C13 sc = [] ->
  accepted sc = true /\ defects_C13 sc = [] /\ (forall ps, go_builds sc ps = true /\ go_vets sc ps = true) /\ ts_loads sc = true.
Proof. intros Ha Hd. destruct (C13_builds_lemma sc Ha Hd). auto. Qed.
Ltac clean sc := destruct (clean_by sc) as (Ha & Hd & Hgo & Hts); [vm_compute; reflexivity..|].

Lemma vets_no_classes sc ps : go_vets sc ps = true -> failing_classes sc ps = [].
Proof.
  unfold go_vets, go_builds, failing_classes, all_ok. intros H. apply andb_true_iff in H as [Hb Hv].
  rewrite forallb_forall in Hb. rewrite forallb_forall in Hv.
  assert (Fb : filter (fun c => negb (ck_ok c)) (build_checks (pkg_checks ps sc)) = [])
    by (apply filter_nil; intros c Hc; now rewrite (Hb c Hc)).
  assert (Fv : filter (fun c => negb (ck_ok c)) (vet_checks (pkg_checks ps sc)) = [])
    by (apply filter_nil; intros c Hc; now rewrite (Hv c Hc)).
  cbv zeta. now rewrite Fb, Fv.
Qed.

Local Open Scope string_scope.
Inductive ann := AI64 | ANull | AEmpty | ATs | ABytes | AFlat | AUnwrap | AQuery | AVal (v : string).
Definition ann_is (a b : ann) : bool :=
  match a, b with
  | AI64, AI64 | ANull, ANull | AEmpty, AEmpty | ATs, ATs | ABytes, ABytes | AFlat, AFlat | AUnwrap, AUnwrap | AQuery, AQuery => true
  | _, _ => false
  end.
Definition has (a : ann) (l : list ann) : bool := existsb (ann_is a) l.
Definition fld (name : string) (k : kind) (c : card) (o : option string) (l : list ann) : field :=
  {| f_name := s name; f_number := 1; f_kind := k; f_card := c;
     f_oneof := match o with Some x => Some (s x) | None => None end;
     f_query := if has AQuery l then Some {| q_name := s name; q_required := false |} else None;
     f_unwrap := has AUnwrap l;
     f_int64 := if has AI64 l then Some I64Number else None; f_enumenc := None;
     f_nullable := if has ANull l then Some true else None;
     f_empty := if has AEmpty l then Some EBNull else None;
     f_tsfmt := if has ATs l then Some TFUnixMillis else None;
     f_bytesenc := if has ABytes l then Some BEHex else None;
     f_oneof_value := (fix go l := match l with AVal v :: _ => Some (s v) | _ :: r => go r | [] => None end) l;
     f_flatten := if has AFlat l then Some true else None; f_flatten_prefix := None |}.
Definition msg (name : string) (fs : list field) (os : list oneof) : message :=
  {| m_name := s ("p.v1." ++ name); m_path := [s name]; m_fields := fs; m_oneofs := os |}.
Definition plain_oneof (n : string) : oneof := {| o_name := s n; o_has_cfg := false; o_discriminator := []; o_flatten := false |}.
Definition disc_oneof (n d : string) : oneof := {| o_name := s n; o_has_cfg := true; o_discriminator := s d; o_flatten := false |}.
Definition rpc (name inp out : string) (verb : nat) (path : string) (hs : list string) : method :=
  {| md_name := s name; md_in := s ("p.v1." ++ inp); md_out := s ("p.v1." ++ out); md_has_cfg := true;
     md_path := s path; md_verb := Some verb;
     md_headers := map (fun h => {| h_name := s h; h_type := s "string"; h_required := false; h_format := [] |}) hs |}.
Definition svc (name : string) (hs : list string) (ms : list method) : service :=
  {| sv_name := s name; sv_base := s "/b";
     sv_headers := map (fun h => {| h_name := s h; h_type := s "string"; h_required := false; h_format := [] |}) hs;
     sv_methods := ms |}.
Definition file_of (path : string) (ms : list message) (es : list enum) (ss : list service) : file :=
  {| fl_path := s path; fl_package := s "p.v1"; fl_gopkg := s "p"; fl_generate := true;
     fl_messages := ms; fl_enums := es; fl_services := ss |}.
Definition echo (t : string) : service := svc "Echo" [] [rpc "Do" t t 2 "/do" []].
Definition one (ms : list message) : schema := [file_of "a.proto" ms [] [echo "A"]].
Definition ts_kind := KMessage (s "google.protobuf.Timestamp").
Definition M n := KMessage (s ("p.v1." ++ n)).

(* a schema inside Good: nested message, repeated, map, plain oneof, optional, every feature on the
   placement it supports, header helpers, GET with path variable, DELETE with query parameters *)
Definition good_schema : schema :=
  [file_of "a.proto"
    [msg "Inner" [fld "a" KString Singular None []; fld "big" KInt64 Singular None [AI64]] [];
     msg "A" [fld "id" KString Singular None []; fld "inner" (M "Inner") Singular None [];
              fld "items" (M "Inner") Repeated None []; fld "by_key" (M "Inner") (MapOf KString) None [];
              fld "c_a" KString Singular (Some "c") []; fld "c_b" (M "Inner") Singular (Some "c") [];
              fld "nick" KString Optional None []] [plain_oneof "c"];
     msg "Nums" [fld "xs" KInt64 Repeated None [AI64]; fld "u" KFixed64 Singular None [AI64]] [];
     msg "Nul" [fld "nick" KString Optional None [ANull]; fld "raw" KBytes Optional None [ANull]] [];
     msg "Emp" [fld "m" (M "Inner") Singular None [AEmpty]] [];
     msg "Tim" [fld "at" ts_kind Singular None [ATs]; fld "maybe" ts_kind Optional None [ATs]] [];
     msg "Blob" [fld "h" KBytes Singular None [ABytes]; fld "o" KBytes Optional None [ABytes]] [];
     msg "Flat" [fld "id" KString Singular None []; fld "inner" (M "Inner") Singular None [AFlat]] [];
     msg "BarList" [fld "bars" (M "Inner") Repeated None [AUnwrap]; fld "n" KInt32 Singular None []] [];
     msg "Series" [fld "by_sym" (M "BarList") (MapOf KString) None []; fld "label" KString Singular None [];
                   fld "one" (M "Inner") Singular None []; fld "raw" KBytes Optional None []] [];
     msg "Ev" [fld "id" KString Singular None []; fld "text" (M "Inner") Singular (Some "payload") []; fld "note" KString Singular (Some "payload") [AVal "n"]]
              [disc_oneof "payload" "type"];
     msg "GetReq" [fld "user_id" KString Singular None []; fld "page" KInt32 Singular None [AQuery]] [];
     msg "DelReq" [fld "q" KString Singular None [AQuery]; fld "n" KSint64 Singular None [AQuery]; fld "b" KBool Singular None [AQuery]] []]
    []
    [svc "Users" ["X-API-Key"] [rpc "Get" "GetReq" "A" 1 "/u/{user_id}" ["X-Request-ID"];
                                rpc "Drop" "DelReq" "Series" 4 "/u" [];
                                rpc "Put" "Flat" "Tim" 3 "/f" ["X-API-Key"; "X-Request-ID"];
                                rpc "Post" "Ev" "Ev" 2 "/e" []]]].

(* one witness per defect class: accepted, classified, and the model's verdict is "does not build"
   (or "does not vet" / "does not load") *)
Definition refuted (sc : schema) (tags : list string) (ps : subset) (classes : list string) : Prop :=
  accepted sc = true /\ defects_C13 sc = map s tags /\ go_vets sc ps = false /\ failing_classes sc ps = map s classes.

(* the verdict "does not vet" follows from the failing classes: evaluate the accepted test, the tags and the classes *)
Lemma refuted_by sc tags ps c classes :
  accepted sc = true -> defects_C13 sc = map s tags -> failing_classes sc ps = map s (c :: classes) ->
  refuted sc tags ps (c :: classes).
Proof.
  intros Ha Hd Hc. unfold refuted. repeat apply conj; try assumption.
  destruct (go_vets sc ps) eqn:E; [|reflexivity]. rewrite (vets_no_classes sc ps E) in Hc. discriminate Hc.
Qed.

Ltac refute := apply refuted_by; vm_compute; reflexivity.

Lemma w_int64_optional : refuted (one [msg "A" [fld "x" KInt64 Optional None [AI64]] []]) ["int64-number-on-optional"] OnlyHttp ["type"].
Proof. refute. Qed.
Lemma w_oneof_member : refuted (one [msg "A" [fld "n" KInt64 Singular (Some "c") [AI64]; fld "t" KString Singular (Some "c") []] [plain_oneof "c"]])
  ["annotated-oneof-member"] OnlyClient ["selector"].
Proof. refute. Qed.
Lemma w_ts_repeated : refuted (one [msg "A" [fld "xs" ts_kind Repeated None [ATs]] []]) ["timestamp-format-on-repeated"] Both ["selector"].
Proof. refute. Qed.
Lemma w_bytes_repeated : refuted (one [msg "A" [fld "xs" KBytes Repeated None [ABytes]] []]) ["bytes-encoding-on-repeated"] OnlyHttp ["type"].
Proof. refute. Qed.
Lemma w_two_features : refuted (one [msg "A" [fld "big" KInt64 Singular None [AI64]; fld "nick" KString Optional None [ANull]] []])
  ["two-marshaljson-features"] OnlyHttp ["redeclared"].
Proof. refute. Qed.
Lemma w_flatten_plus_empty : refuted (one [msg "Addr" [fld "street" KString Singular None []] [];
                                          msg "A" [fld "home" (M "Addr") Singular None [AFlat; AEmpty]] []])
  ["two-marshaljson-features"] OnlyClient ["redeclared"].
Proof. refute. Qed.
(* repaired by 6655042 (%w): a message with a discriminated oneof builds AND vets, for every plugin subset *)
Definition disc_schema : schema :=
  one [msg "T" [fld "body" KString Singular None []] [];
       msg "A" [fld "id" KString Singular None []; fld "text" (M "T") Singular (Some "p") []; fld "note" KString Singular (Some "p") [AVal "n"]]
               [disc_oneof "p" "kind"]].
Lemma w_dup_discriminator : refuted (one [msg "T" [fld "body" KString Singular None []] [];
                               msg "A" [fld "text" (M "T") Singular (Some "p") [AVal "image"]; fld "image" (M "T") Singular (Some "p") []] [disc_oneof "p" "kind"]])
  ["oneof-duplicate-discriminator-value"] OnlyHttp ["duplicate"].
Proof. refute. Qed.
Lemma w_foreign_flatten : refuted (one [msg "A" [fld "id" KString Singular None []; fld "at" ts_kind Singular None [AFlat]] []])
  ["unqualified-foreign-type"] OnlyHttp ["undefined"].
Proof. refute. Qed.
Definition bars := [msg "Bar" [fld "t" KInt64 Singular None []] []; msg "BarList" [fld "bars" (M "Bar") Repeated None [AUnwrap]; fld "n" KInt32 Singular None []] []].
Lemma w_unwrap_oneof : refuted (one (List.app bars [msg "A" [fld "series" (M "BarList") (MapOf KString) None []; fld "a" KString Singular (Some "c") []] [plain_oneof "c"]]))
  ["unwrap-container-with-oneof"] OnlyHttp ["selector"].
Proof. refute. Qed.
Lemma w_unwrap_key : refuted (one (List.app bars [msg "A" [fld "series" (M "BarList") (MapOf KInt32) None []] []]))
  ["unwrap-non-string-key"] OnlyHttp ["type"].
Proof. refute. Qed.
Lemma w_unwrap_optional : refuted (one (List.app bars [msg "A" [fld "series" (M "BarList") (MapOf KString) None []; fld "label" KString Optional None []] []]))
  ["unwrap-container-optional-scalar"] Both ["type"].
Proof. refute. Qed.
Lemma w_unwrap_foreign : refuted (one (List.app bars [msg "A" [fld "series" (M "BarList") (MapOf KString) None []; fld "at" ts_kind Singular None []] []]))
  ["unqualified-foreign-type"] OnlyHttp ["undefined"].
Proof. refute. Qed.
Lemma w_unwrap_of_map : refuted (one [msg "Bar" [fld "t" KInt64 Singular None []] []; msg "RootMap" [fld "by" (M "Bar") (MapOf KString) None [AUnwrap]] [];
                                     msg "A" [fld "series" (M "RootMap") (MapOf KString) None []] []])
  ["unwrap-of-map-unwrap"] OnlyHttp ["type"].
Proof. refute. Qed.
Lemma w_unwrap_protojson : refuted (one [msg "A" [fld "vals" KString Repeated None [AUnwrap]] []])
  ["unwrap-file-unused-protojson"] OnlyHttp ["unused"].
Proof. refute. Qed.
Lemma w_unwrap_only_http_fails :
  let sc := one (List.app bars [msg "A" [fld "series" (M "BarList") (MapOf KInt32) None []] []]) in
  go_builds sc OnlyHttp = false /\ go_vets sc OnlyClient = true.
Proof. vm_compute. split; reflexivity. Qed.
Definition enum_dup : enum := {| e_name := s "p.v1.St"; e_values := [ {| ev_name := s "ST_A"; ev_number := 0; ev_custom := None |};
   {| ev_name := s "ST_ON"; ev_number := 1; ev_custom := Some (s "ST_OFF") |}; {| ev_name := s "ST_OFF"; ev_number := 2; ev_custom := None |} ] |}.
Lemma w_enum_dup : refuted [file_of "a.proto" [msg "A" [fld "st" (KEnum (s "p.v1.St")) Singular None []] []] [enum_dup] [echo "A"]]
  ["enum-fromjson-duplicate-key"] OnlyHttp ["duplicate"].
Proof. refute. Qed.
Lemma w_error_field : refuted (one [msg "A" [fld "id" KString Singular None []] []; msg "ApiError" [fld "error" KString Singular None []] []])
  ["error-message-with-error-field"] OnlyHttp ["redeclared"].
Proof. refute. Qed.
Definition get_schema (req : message) (path : string) : schema :=
  [file_of "a.proto" [req; msg "R" [fld "ok" KBool Singular None []] []] [] [svc "S" [] [rpc "Get" "Q" "R" 1 path []]]].
Lemma w_path_ident : refuted (get_schema (msg "Q" [fld "field_1" KString Singular None []] []) "/x/{field_1}")
  ["client-path-ident-mismatch"] OnlyClient ["selector"].
Proof. refute. Qed.
Lemma w_path_method : refuted (get_schema (msg "Q" [fld "string" KString Singular None []] []) "/x/{string}")
  ["client-path-ident-is-method"] OnlyClient ["vet-printf"].
Proof. refute. Qed.
Lemma w_query_optional : refuted (get_schema (msg "Q" [fld "v" KString Optional None [AQuery]] []) "/x")
  ["client-query-on-non-singular"] OnlyClient ["type"].
Proof. refute. Qed.
Lemma w_query_bytes : refuted (get_schema (msg "Q" [fld "v" KBytes Singular None [AQuery]] []) "/x")
  ["client-query-on-enum-bytes-message"] Both ["type"].
Proof. refute. Qed.
Definition hdr_schema (sh m1 m2 : list string) : schema :=
  [file_of "a.proto" [msg "P" [fld "m" KString Singular None []] []] []
     [svc "Echo" sh [rpc "One" "P" "P" 2 "/one" m1; rpc "Two" "P" "P" 3 "/two" m2]]].
(* repaired by d19dbea: a header declared by the service and by methods, by two methods, or two
   headers with one helper name (X-Trace / Trace) get ONE helper; the package builds *)
Lemma header_declared_twice_builds :
  let sc := hdr_schema ["X-Trace"; "X-Tenant"] ["X-Tenant"; "Trace"] ["X-Tenant"; "X-Req"] in
  accepted sc = true /\ defects_C13 sc = [] /\ go_vets sc OnlyClient = true /\ go_vets sc Both = true /\
  client_decls (hd (file_of "" [] [] []) sc) =
    map s ["<client_constants>"; "ContentTypeJSON"; "ContentTypeProto"; "EchoClient"; "echoClient"; "EchoClientOption"; "WithEchoHTTPClient"; "WithEchoContentType";
           "WithEchoDefaultHeader"; "EchoCallOption"; "echoCallOptions"; "WithEchoHeader"; "WithEchoCallContentType"; "NewEchoClient";
           "WithEchoTrace"; "WithEchoTenant"; "WithEchoCallTrace"; "WithEchoCallTenant"; "WithEchoCallReq"].
Proof.
  intros sc. clean sc.
  refine (conj Ha (conj Hd (conj (proj2 (Hgo OnlyClient)) (conj (proj2 (Hgo Both)) _)))). vm_compute. reflexivity.
Qed.
(* still possible: a service header whose helper name starts with "Call" against a method header *)
Lemma w_header_call_prefix : refuted (hdr_schema ["X-CallTrace"] ["X-Trace"] []) ["package-declaration-clash"] OnlyClient ["redeclared"].
Proof. refute. Qed.
Lemma w_header_builtin : refuted (hdr_schema ["Content-Type"] [] []) ["package-declaration-clash"] OnlyClient ["redeclared"].
Proof. refute. Qed.
Lemma w_same_method : refuted [file_of "a.proto" [msg "P" [fld "m" KString Singular None []] []] []
     [svc "Alpha" [] [rpc "Get" "P" "P" 2 "/g" []]; svc "Beta" [] [rpc "Get" "P" "P" 2 "/g" []]]]
  ["same-method-name-two-services"] OnlyHttp ["redeclared"].
Proof. refute. Qed.
Lemma w_service_like_method : refuted [file_of "a.proto" [msg "P" [fld "m" KString Singular None []] []] [] [svc "Ping" [] [rpc "Ping" "P" "P" 2 "/g" []]]]
  ["service-named-like-method"] OnlyHttp ["redeclared"].
Proof. refute. Qed.
Lemma w_two_files : refuted [file_of "a.proto" [msg "P" [fld "m" KString Singular None []] []] [] [svc "Alpha" [] [rpc "GetA" "P" "P" 2 "/g" []]];
                             file_of "b.proto" [] [] [svc "Beta" [] [rpc "GetB" "P" "P" 2 "/g" []]]]
  ["two-service-files-one-package"] OnlyClient ["redeclared"].
Proof. refute. Qed.
Lemma w_no_methods : refuted [file_of "a.proto" [msg "P" [fld "m" KString Singular None []] []] [] [svc "Idle" [] []]]
  ["service-without-methods"] OnlyHttp ["unused"].
Proof. refute. Qed.
(* repaired by 5089e92: GET with a path variable and a query parameter; `url` is declared once *)
Lemma ts_get_with_path_and_query_loads :
  let sc := get_schema (msg "Q" [fld "id" KString Singular None []; fld "v" KString Singular None [AQuery]] []) "/x/{id}" in
  accepted sc = true /\ defects_C13 sc = [] /\ ts_loads sc = true /\ go_vets sc Both = true /\
  ts_route_consts sc (svc "S" [] []) (rpc "Get" "Q" "R" 1 "/x/{id}" []) =
    map s ["pathParams"; "url"; "pathSegments"; "params"; "body"; "ctx"; "result"].
Proof.
  intros sc. clean sc.
  refine (conj Ha (conj Hd (conj Hts (conj (proj2 (Hgo Both)) _)))). vm_compute. reflexivity.
Qed.

(* hostile identifiers: proto names that are reserved words, predeclared identifiers, locals of the emitted
   functions or names the generators declare themselves *)
Definition verbs_schema (names : list string) : schema :=
  [file_of "a.proto" [msg "P" [fld "m" KString Singular None []] []] []
     [svc "Verbs" [] (map (fun n => rpc n "P" "P" 2 (String "/"%char n) []) names)]].

(* harmless on this tree: field / path / query names go through req.<X> (Go: capitalised, TS: property
   access), method names become class members and capitalised Go methods *)
Definition hostile_harmless : schema :=
  [file_of "a.proto"
     [msg "R" [fld "ok" KBool Singular None []] [];
      msg "Q1" [fld "package" KString Singular None []; fld "class" KString Singular None [AQuery]; fld "path" KString Singular None [AQuery];
                fld "url" KInt32 Singular None [AQuery]; fld "type" KString Singular None [AQuery]; fld "func" KBool Singular None [AQuery];
                fld "err" KString Singular None [AQuery]; fld "req" KString Singular None [AQuery]; fld "default" KString Singular None [AQuery]] [];
      msg "Q2" [fld "path" KString Singular None []; fld "new" KString Singular None []] [];
      msg "Enc" [fld "range" KInt64 Singular None [AI64]; fld "select" KInt64 Optional None []; fld "x" KInt64 Singular None [AI64]; fld "raw" KInt64 Singular None [AI64];
                 fld "data" KInt64 Repeated None [AI64]; fld "len" KString Singular None []; fld "nil" KString Singular None []] []]
     []
     [svc "Http" ["X-Type"; "X-Default"; "constructor"]
        [rpc "Delete" "Q1" "R" 4 "/a/{package}" []; rpc "New" "Q2" "R" 1 "/b/{path}/{new}" ["X-Class"]; rpc "Default" "Enc" "Enc" 2 "/c" [];
         rpc "Function" "Enc" "R" 3 "/d" []; rpc "Generic" "Enc" "R" 5 "/e" []]]].

(* annotation texts printed as bare TS property names: a discriminator "@type", a flatten prefix "home-" *)
Definition ts_disc_schema (d : string) : schema :=
  one [msg "T" [fld "body" KString Singular None []] [];
       msg "A" [fld "id" KString Singular None []; fld "text" (M "T") Singular (Some "p") []; fld "note" KString Singular (Some "p") []]
               [disc_oneof "p" d]].
Definition with_prefix (p : string) (f : field) : field :=
  {| f_name := f_name f; f_number := f_number f; f_kind := f_kind f; f_card := f_card f; f_oneof := f_oneof f; f_query := f_query f;
     f_unwrap := f_unwrap f; f_int64 := f_int64 f; f_enumenc := f_enumenc f; f_nullable := f_nullable f; f_empty := f_empty f;
     f_tsfmt := f_tsfmt f; f_bytesenc := f_bytesenc f; f_oneof_value := f_oneof_value f; f_flatten := f_flatten f;
     f_flatten_prefix := Some (s p) |}.
Definition ts_prefix_schema (p : string) : schema :=
  one [msg "Addr" [fld "street" KString Singular None []; fld "zip_code" KString Singular None []] [];
       msg "A" [fld "id" KString Singular None []; with_prefix p (fld "home" (M "Addr") Singular None [AFlat])] []].
Lemma ts_identifier_texts_load :
  (let sc := ts_disc_schema "$kind_of" in accepted sc = true /\ defects_C13 sc = [] /\ ts_loads sc = true) /\
  (let sc := ts_prefix_schema "home_" in accepted sc = true /\ defects_C13 sc = [] /\ ts_loads sc = true) /\
  (* a message no RPC reaches is not printed: its texts do not matter *)
  (let sc := [file_of "a.proto" [msg "T" [fld "body" KString Singular None []] [];
                                  msg "Unused" [fld "text" (M "T") Singular (Some "p") []] [disc_oneof "p" "@type"];
                                  msg "A" [fld "id" KString Singular None []] []] [] [echo "A"]] in
   accepted sc = true /\ defects_C13 sc = [] /\ ts_loads sc = true).
Proof.
  assert (H : forall sc, accepted sc = true -> defects_C13 sc = [] -> accepted sc = true /\ defects_C13 sc = [] /\ ts_loads sc = true).
  { intros sc Ha Hd. destruct (clean_by sc Ha Hd) as (_ & _ & _ & Hts). auto. }
  split; [|split]; cbv zeta; apply H; vm_compute; reflexivity.
Qed.
Lemma w_method_generic : refuted (verbs_schema ["Generic"; "Other"]) ["method-named-generic"] OnlyHttp ["type"].
Proof. refute. Qed.
Lemma w_method_bind : refuted (verbs_schema ["Bind"]) ["package-declaration-clash"] OnlyHttp ["redeclared"].
Proof. refute. Qed.
Lemma w_message_named_like_helper :
  refuted [file_of "a.proto" [msg "ServerOption" [fld "m" KString Singular None []] []; msg "A" [fld "m" KString Singular None []] []] [] [echo "A"]]
          ["package-declaration-clash"] OnlyHttp ["redeclared"].
Proof. refute. Qed.
Lemma w_field_named_marshaljson :
  refuted (one [msg "A" [fld "marshal_j_s_o_n" KString Singular None []; fld "big" KInt64 Singular None [AI64]] []])
          ["field-named-like-codec-method"] OnlyClient ["redeclared"].
Proof. refute. Qed.

Definition feature_dec : forall a b : feature, {a = b} + {a <> b}.
Proof. decide equality. Defined.

(* each feature contributes at most one MarshalJSON to a message, whatever the number of annotated
   oneofs / fields of that feature *)
Theorem one_marshaljson_per_feature p sc fl m ft :
  count_occ feature_dec (emitted_features p sc fl m) ft <= 1.
Proof.
  unfold emitted_features.
  eapply Nat.le_trans; [apply count_occ_filter|].
  destruct ft; vm_compute; lia.
Qed.

(* hence a message whose only codec feature is the discriminated oneof declares exactly one method,
   for any number k >= 1 of annotated oneofs *)
Theorem only_oneofs_one_method p sc fl m :
  emitted_features p sc fl m = [FOneof] -> marshal_methods p sc fl m = [s "MarshalJSON"] /\ nodup_strb (marshal_methods p sc fl m) = true.
Proof. unfold marshal_methods. intros ->. split; reflexivity. Qed.

Definition flat_oneof (n d : string) : oneof := {| o_name := s n; o_has_cfg := true; o_discriminator := s d; o_flatten := true |}.
(* k = 2 and k = 3 discriminated oneofs in one message (flattened and not), the same variant types and
   discriminator values in two of them, next to a plain oneof: accepted, no defect, builds and vets for
   every plugin subset *)
Definition multi_oneof_schema : schema :=
  one [msg "Va" [fld "va_text" KString Singular None []] []; msg "Vb" [fld "vb_text" KString Singular None []] [];
       msg "Vc" [fld "vc_text" KString Singular None []] [];
       msg "A" [fld "id" KString Singular None [];
                fld "shape_a" (M "Va") Singular (Some "shape") []; fld "shape_b" (M "Vb") Singular (Some "shape") [AVal "second"]; fld "shape_s" KString Singular (Some "shape") [];
                fld "paint_a" (M "Va") Singular (Some "paint") []; fld "paint_b" (M "Vb") Singular (Some "paint") [AVal "second"];
                fld "p_a" KString Singular (Some "plain") []; fld "p_b" KInt32 Singular (Some "plain") []]
               [disc_oneof "shape" "shapeKind"; disc_oneof "paint" "paintKind"; plain_oneof "plain"];
       msg "B" [fld "id" KString Singular None [];
                fld "x_a" (M "Va") Singular (Some "x") []; fld "y_a" (M "Vb") Singular (Some "y") []; fld "z_a" (M "Vc") Singular (Some "z") []; fld "z_s" KBool Singular (Some "z") []]
               [flat_oneof "x" "xKind"; disc_oneof "y" "yKind"; flat_oneof "z" "zKind"]].

(* several services in one file.  Distinct rpc names, shared request / response messages, the same
   header names at service and method level, several methods of one service with the same messages:
   everything builds, vets and loads *)
Definition shared_services (users orders : list string) : schema :=
  [file_of "a.proto" [msg "Q" [fld "id" KString Singular None []; fld "page" KInt32 Singular None [AQuery]] []; msg "Item" [fld "id" KString Singular None []] []] []
     [svc "UserService" ["X-API-Key"; "X-Trace-ID"]
          [rpc (nth 0 users "") "Q" "Item" 1 "/u/{id}" ["X-Request-ID"]; rpc (nth 1 users "") "Q" "Item" 1 "/f/{id}" ["X-Request-ID"]; rpc (nth 2 users "") "Item" "Item" 3 "/p" ["X-Request-ID"; "X-Trace-ID"]];
      svc "OrderService" ["X-API-Key"; "X-Trace-ID"]
          [rpc (nth 0 orders "") "Q" "Item" 1 "/o/{id}" ["X-Request-ID"]; rpc (nth 1 orders "") "Item" "Item" 3 "/p" ["X-Request-ID"; "X-Trace-ID"]]]].
