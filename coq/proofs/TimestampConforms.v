(* TimestampConforms.v — C05 (Impl = Spec) for the timestamp_format codec: a top-level message whose codec is the timestamp one
   (singular Timestamp fields annotated UNIX_SECONDS / UNIX_MILLIS / DATE), every other field
   un-annotated with un-annotated children: the server's JSON IS the documented mapping, for all
   values that name each field at most once — failures (Timestamp out of range) included. *)
From Coq Require Import ZArith.
From Sebuf Require Import CodecCases.
From SebufProofs Require Import TextFacts ProtoJsonFacts NullableFacts.
From SebufProofs Require Import MappingFacts ConformsBase TimestampFacts.

Open Scope Z_scope.

(* a field is either an effective timestamp_format field or carries no annotation that changes the
   rendering of its own scalars / Timestamps (int64_encoding, enum_encoding, bytes_encoding,
   timestamp_format) *)
Definition tsplain_field (f : field) : bool :=
  match tsfmt_of f with Some _ => true | None => ctx_field_ok f end.

(* the value of an annotated field is one Timestamp; everything below an un-annotated field is un-annotated *)
Definition ts_entry_ok (sc : schema) (md : message) (e : str * fval) : bool :=
  match find_field (m_fields md) (fst e) with
  | Some f =>
      match tsfmt_of f with
      | Some _ => match snd e with FM _ => true | _ => false end
      | None => plain_in sc (f_kind f) (snd e)
      end
  | None => false
  end.

Section Conforms.
Variable E : ExtLib.
Variable sc : schema.

Theorem conforms_ts : forall tn md m,
  str_eqb tn ts_name = false -> is_wkt_other tn = false ->
  find_message (all_messages sc) tn = Some md -> owner_of sc md = Own FtTs ->
  buildable sc FtTs md = true ->
  nodup_str (map jn (m_fields md)) = true ->
  forallb tsplain_field (m_fields md) = true ->
  nodup_str (map fst m) = true ->
  forallb (ts_entry_ok sc md) m = true ->
  encode E sc tn m = to_json E sc tn m.
Proof.
  intros tn md m Hts Hwk Hfm Hown Hb Hnd Htp Hnames Hch. rewrite forallb_forall in Htp, Hch.
  apply (conforms_keylocal E sc FtTs tn md m eq_refl Hts Hwk Hfm Hown Hb Hnd).
  { apply declared_in. intros e He Hn. specialize (Hch e He). unfold ts_entry_ok in Hch. rewrite Hn in Hch. discriminate Hch. }
  intros n x f Hin Hfd Hinf Hname Hfl Hoo Hem. specialize (Hem ltac:(discriminate)).
  pose proof (mget_nodup m n x (proj1 (nodup_str_iff _) Hnames) Hin) as Hm. rewrite <- Hname in Hm.
  specialize (Hch _ Hin). unfold ts_entry_ok in Hch. cbn [fst snd] in Hch. rewrite Hfd in Hch.
  specialize (Htp f Hinf). unfold tsplain_field in Htp.
  cbn [act_of]. unfold act_ts. rewrite Hm.
  destruct (tsfmt_of f) as [fmt|] eqn:Hfmt.
  - (* an annotated Timestamp: the same range check, then the format on both sides *)
    destruct x as [sx|tm|l|kv]; try discriminate Hch.
    destruct (tsfmt_of_inv f fmt Hfmt) as [Hkind [_ [Htf Hcases]]].
    rewrite (mp_entry_default E sc md n f _ Hem Hfl Hoo), Hkind, mp_fval_FM, pj_fval_FM, str_eqb_refl.
    unfold mp_timestamp, pj_timestamp. rewrite Htf.
    destruct (ts_in_range (mget_int tm (s "seconds")) (mget_int tm (s "nanos"))); [|reflexivity].
    destruct Hcases as [-> | [-> | ->]]; reflexivity.
  - exact (mp_entry_keep E sc md n f x Hem Hfl Hoo (ctx_ok_inert f (f_kind f) Htp) Hch).
Qed.
End Conforms.
Close Scope Z_scope.

From SebufProofs Require Import CodecExamples.
Open Scope Z_scope.

(* all three formats, an un-annotated Timestamp, a scalar and a repeated Timestamp next to them *)
Definition tss : schema :=
  [ {| fl_path := s "x/t.proto"; fl_package := s "x.v1"; fl_gopkg := s "x"; fl_generate := true;
       fl_messages :=
         [ msg "Stamps" [set_ts TFUnixSeconds (fld "at_secs" 1 TS Singular); set_ts TFUnixMillis (fld "at_millis" 2 TS Singular);
                         set_ts TFDate (fld "on_day" 3 TS Singular); fld "plain_at" 4 TS Singular;
                         fld "id" 5 KString Singular; fld "more" 6 TS Repeated] [];
           msg "StampMap" [set_ts TFUnixSeconds (fld "at" 1 TS Singular);
                           set_ts TFUnixSeconds (fld "by_k" 2 TS (MapOf KString))] [];
           msg "StampList" [set_ts TFUnixSeconds (fld "ats" 1 TS Repeated)] [] ];
       fl_enums := []; fl_services := [] |} ].

(* negative seconds with nanos on every annotated field: -4.000000001 s, -1.499000001 s (= -1500 ms
   after flooring to the millisecond below), one second before the epoch *)
Definition ts_sample : mval :=
  [(s "at_secs", tsv (-5) 999999999); (s "at_millis", tsv (-2) 500999999); (s "on_day", tsv (-1) 7);
   (s "plain_at", tsv 1 5); (s "id", vstr "x"); (s "more", FL [tsv 3 4])].

Example ts_nonvacuous :
  exists md,
    str_eqb (q "Stamps") ts_name = false /\ is_wkt_other (q "Stamps") = false /\
    find_message (all_messages tss) (q "Stamps") = Some md /\ owner_of tss md = Own FtTs /\
    buildable tss FtTs md = true /\ nodup_str (map jn (m_fields md)) = true /\
    forallb tsplain_field (m_fields md) = true /\
    wt tss (KMessage (q "Stamps")) (FM ts_sample) = true /\
    nodup_str (map fst ts_sample) = true /\ forallb (ts_entry_ok tss md) ts_sample = true /\
    encode Ex tss (q "Stamps") ts_sample =
      ROk (JObj [(s "atSecs", JNum (-5)); (s "atMillis", JNum (-1500)); (s "onDay", JStr (s "1969-12-31"));
                 (s "plainAt", JStr (s "1970-01-01T00:00:01.000000005Z")); (s "id", JStr (s "x"));
                 (s "more", JArr [JStr (s "1970-01-01T00:00:03.000000004Z")])]) /\
    to_json Ex tss (q "Stamps") ts_sample = encode Ex tss (q "Stamps") ts_sample /\
    norm tss (q "Stamps") ts_sample =
      [(s "at_secs", tsv (-5) 0); (s "at_millis", tsv (-2) 500000000); (s "on_day", tsv (-86400) 0);
       (s "plain_at", tsv 1 5); (s "id", vstr "x"); (s "more", FL [tsv 3 4])] /\
    (forall j, encode Ex tss (q "Stamps") ts_sample = ROk j ->
               decode Ex tss (q "Stamps") j = ROk (norm tss (q "Stamps") ts_sample)).
Proof.
  (* the message by unification: it stays the term the schema has, not its normal form *)
  eexists. split; [reflexivity|]. split; [reflexivity|]. split; [reflexivity|].
  repeat (split; [vm_compute; reflexivity|]).
  intros j Hj. vm_compute in Hj. injection Hj as <-. vm_compute. reflexivity.
Qed.

(* floor, not truncation toward zero, on both sides: -1.499000001 s is written as -1500 ms and -1500 ms
   is read back as seconds = -2, nanos = 500000000 (Go: Time.UnixMilli() = sec*1e3 + nsec/1e6 on the
   normalised pair, time.UnixMilli(-1500) = Unix(-1, -500e6) normalised to (-2, 500e6)) *)
Example ts_negative_millis_floor :
  encode Ex tss (q "Stamps") [(s "at_millis", tsv (-2) 500999999)] = ROk (JObj [(s "atMillis", JNum (-1500))]) /\
  decode Ex tss (q "Stamps") (JObj [(s "atMillis", JNum (-1500))]) = ROk [(s "at_millis", tsv (-2) 500000000)] /\
  decode Ex tss (q "Stamps") (JObj [(s "atMillis", JNum (-1))]) = ROk [(s "at_millis", tsv (-1) 999000000)].
Proof. vm_compute. auto. Qed.

(* without "each field named at most once" (not a value a Go struct can hold): raw[k] is one slot *)
Example conforms_ts_needs_nodup_names :
  let m := [(s "at_secs", tsv 5 0); (s "at_secs", tsv 7 0)] in
  nodup_str (map fst m) = false /\
  encode Ex tss (q "Stamps") m = ROk (JObj [(s "atSecs", JNum 5); (s "atSecs", JNum 5)]) /\
  to_json Ex tss (q "Stamps") m = ROk (JObj [(s "atSecs", JNum 5); (s "atSecs", JNum 7)]).
Proof. vm_compute. auto. Qed.

(* without "the value of an annotated field is one Timestamp" (ill-typed: a list under a singular field) *)
Example conforms_ts_needs_message_shape :
  let m := [(s "at_secs", FL [tsv 5 0])] in
  encode Ex tss (q "Stamps") m = ROk (JObj [(s "atSecs", JArr [JStr (s "1970-01-01T00:00:05Z")])]) /\
  to_json Ex tss (q "Stamps") m = ROk (JObj [(s "atSecs", JArr [JNum 5])]).
Proof. vm_compute. auto. Qed.

(* without tsplain_field: timestamp_format on a map<string, Timestamp> is documented but not implemented
   (timestamp_format.go collects direct Timestamp fields only; a map field's kind is its entry message) *)
Example conforms_ts_needs_tsplain :
  let m := [(s "at", tsv 5 0); (s "by_k", FMap [(VStr (s "k"), tsv 7 0)])] in
  (exists md, find_message (all_messages tss) (q "StampMap") = Some md /\ owner_of tss md = Own FtTs /\
              buildable tss FtTs md = true /\ forallb tsplain_field (m_fields md) = false) /\
  encode Ex tss (q "StampMap") m = ROk (JObj [(s "at", JNum 5); (s "byK", JObj [(s "k", JStr (s "1970-01-01T00:00:07Z"))])]) /\
  to_json Ex tss (q "StampMap") m = ROk (JObj [(s "at", JNum 5); (s "byK", JObj [(s "k", JNum 7)])]).
Proof. split; [eexists; split; [reflexivity|]; vm_compute; repeat split|vm_compute; split; reflexivity]. Qed.

(* without buildable: timestamp_format on a repeated Timestamp makes the generator emit x.F.AsTime() on a
   slice, which does not compile (C13); the documented mapping has a value *)
Example conforms_ts_needs_buildable :
  let m := [(s "ats", FL [tsv 5 0])] in
  (exists md, find_message (all_messages tss) (q "StampList") = Some md /\ owner_of tss md = Own FtTs /\
              buildable tss FtTs md = false) /\
  (exists w, encode Ex tss (q "StampList") m = RUnm w) /\
  to_json Ex tss (q "StampList") m = ROk (JObj [(s "ats", JArr [JNum 5])]).
Proof. split; [eexists; split; [reflexivity|]; vm_compute; repeat split|vm_compute; split; [eexists|]; reflexivity]. Qed.
Close Scope Z_scope.
