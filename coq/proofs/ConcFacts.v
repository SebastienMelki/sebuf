(* ConcFacts.v — C17: what concurrent or interleaved use cannot change.  The lazily built validator is
   built at most once under every interleaving of the threads (an invariant of the step relation); routes
   registered on one mux share no state, so what a request is bound to depends on its own route only
   (path variables, query parameters, options), whatever else is registered or served before and after. *)
From Sebuf Require Import Conc Headers.
From SebufProofs Require Import TextFacts ListFacts.
From Coq Require Import Lia.

(* invariant: at most one validator instance is ever built, every thread that got one got instance 0 *)
Definition thread_ok (p : nat * tstate) : Prop :=
  match snd p with
  | TStart => True
  | TGot v => v = 0
  | TDone (r, v) => r = fst p /\ v = 0
  end.

Definition inv (sh : shared) (ts : threads) : Prop :=
  (sh_validator sh = None /\ sh_next sh = 0 \/ sh_validator sh = Some 0 /\ sh_next sh = 1) /\
  Forall thread_ok ts /\
  (sh_validator sh = None -> Forall (fun p => snd p = TStart) ts).

Lemma step_inv sh req st sh' st' :
  (sh_validator sh = None /\ sh_next sh = 0 \/ sh_validator sh = Some 0 /\ sh_next sh = 1) ->
  thread_ok (req, st) -> (sh_validator sh = None -> st = TStart) ->
  step sh req st = (sh', st') ->
  (sh_validator sh' = None /\ sh_next sh' = 0 \/ sh_validator sh' = Some 0 /\ sh_next sh' = 1) /\
  thread_ok (req, st') /\ (sh_validator sh' = None -> st' = TStart /\ sh' = sh).
Proof.
  intros Hsh Hok Hstart E. unfold step in E. destruct st as [|v|r].
  - destruct (sh_validator sh) as [v|] eqn:Ev.
    + inversion E; subst. destruct Hsh as [[H _]|[H Hn]]; [congruence|].
      split; [right; split; congruence|]. split; [cbn; congruence|]. intros H'. congruence.
    + inversion E; subst. destruct Hsh as [[_ Hn]|[H _]]; [|congruence].
      cbn. rewrite Hn. split; [right; auto|]. split; [reflexivity|]. intros H'. discriminate.
  - inversion E; subst. split; [exact Hsh|]. split.
    + cbn in *. split; [reflexivity|exact Hok].
    + intros H. specialize (Hstart H). discriminate.
  - inversion E; subst. split; [exact Hsh|]. split; [exact Hok|].
    intros H. specialize (Hstart H). discriminate.
Qed.

Lemma step_at_keeps_validator : forall ts sh j sh' ts',
  step_at sh ts j = (sh', ts') -> sh_validator sh <> None -> sh_validator sh' <> None.
Proof.
  induction ts as [|[r st] ts IH]; intros sh j sh' ts' E Hv.
  - cbn in E. now injection E as <- _.
  - destruct j as [|k]; cbn in E.
    + destruct (step sh r st) as [a b] eqn:Es. injection E as <- _.
      unfold step in Es. destruct st; [destruct (sh_validator sh) eqn:Ev; [|contradiction]|..]; injection Es as <- _; congruence.
    + destruct (step_at sh ts k) as [a b] eqn:Es. injection E as <- _. now apply (IH sh k a b).
Qed.

Lemma step_at_inv : forall ts sh i sh' ts', inv sh ts -> step_at sh ts i = (sh', ts') -> inv sh' ts'.
Proof.
  induction ts as [|[req st] ts IH]; intros sh i sh' ts' [Hsh [Hok Hnone]] E.
  - cbn in E. inversion E; subst. repeat split; auto.
  - inversion Hok as [|? ? Hok1 Hokr]; subst.
    assert (Hst : sh_validator sh = None -> st = TStart /\ Forall (fun p => snd p = TStart) ts).
    { intros H. specialize (Hnone H). now inversion Hnone. }
    destruct i as [|j]; cbn in E.
    + destruct (step sh req st) as [sh1 st1] eqn:Es. inversion E; subst.
      destruct (step_inv sh req st sh' st1 Hsh Hok1 (fun H => proj1 (Hst H)) Es) as [Hsh' [Hok' Hn']].
      split; [exact Hsh'|]. split; [constructor; assumption|].
      intros H. destruct (Hn' H) as [-> ->]. constructor; [reflexivity|]. now apply Hst.
    + destruct (step_at sh ts j) as [sh1 ts1] eqn:Es. inversion E; subst.
      assert (Hi : inv sh ts) by (split; [exact Hsh|]; split; [exact Hokr|]; intros H; now apply Hst).
      destruct (IH sh j sh' ts1 Hi Es) as [Hsh' [Hok' Hn']].
      split; [exact Hsh'|]. split; [constructor; assumption|].
      intros H. constructor; [|now apply Hn'].
      (* the head thread did not move, and no validator exists now, so none existed before *)
      apply Hst. destruct (sh_validator sh) eqn:Hv; [|reflexivity].
      exfalso. apply (step_at_keeps_validator ts sh j sh' ts1 Es); [rewrite Hv; discriminate|exact H].
Qed.

Lemma run_inv : forall sched sh ts sh' ts', inv sh ts -> run_sched sh ts sched = (sh', ts') -> inv sh' ts'.
Proof.
  induction sched as [|i r IH]; intros sh ts sh' ts' Hi E; cbn in E.
  - inversion E; subst. exact Hi.
  - destruct (step_at sh ts i) as [sh1 ts1] eqn:Es. eapply IH; [|exact E]. eapply step_at_inv; eauto.
Qed.

Lemma init_inv reqs : inv init_shared (init_threads reqs).
Proof.
  split; [left; split; reflexivity|]. split.
  - unfold init_threads. apply Forall_forall. intros p Hp. apply in_map_iff in Hp as [r [<- _]]. exact I.
  - intros _. unfold init_threads. apply Forall_forall. intros p Hp. apply in_map_iff in Hp as [r [<- _]]. reflexivity.
Qed.

(* Under ANY schedule: at most one validator instance is built and every finished call reports
   its own request with that one instance — exactly what the call would report when run alone. *)
Theorem isolation reqs sched sh' ts' :
  run_sched init_shared (init_threads reqs) sched = (sh', ts') ->
  sh_next sh' <= 1 /\
  forall req r v, In (req, TDone (r, v)) ts' -> r = req /\ v = 0.
Proof.
  intros E. destruct (run_inv sched _ _ _ _ (init_inv reqs) E) as [Hsh [Hok _]]. split.
  - destruct Hsh as [[_ H]|[_ H]]; lia.
  - intros req r v Hin. rewrite Forall_forall in Hok. specialize (Hok _ Hin). exact Hok.
Qed.

Lemma alone req : snd (run_sched init_shared (init_threads [req]) [0; 0]) = [(req, TDone (req, 0))].
Proof. reflexivity. Qed.

(* registration: every route keeps the headers computed for ITS method *)
Lemma register_spec methods get : forall var acc,
  register var methods get acc = rev acc ++ map (fun m => (m, get m)) methods.
Proof.
  induction methods as [|m r IH]; intros var acc; cbn.
  - now rewrite app_nil_r.
  - rewrite IH. cbn. now rewrite <- app_assoc.
Qed.

Theorem routes_unshared methods get var m h :
  In (m, h) (register var methods get []) -> h = get m.
Proof.
  rewrite register_spec. cbn. intros Hin. apply in_map_iff in Hin as [x [E _]]. now inversion E.
Qed.

Definition mk_route (svc : list header) (mh : str * list header) : route :=
  {| rt_name := fst mh; rt_svc := svc; rt_mth := snd mh |}.

Lemma register_routes_spec svc methods : forall var acc,
  register_routes svc var methods acc = rev acc ++ map (mk_route svc) methods.
Proof.
  induction methods as [|[m hs] r IH]; intros var acc; cbn.
  - now rewrite app_nil_r.
  - rewrite IH. cbn. now rewrite <- app_assoc.
Qed.

(* Per-route configuration is never shared: whatever else the service registers (before or after,
   with whatever headers), a request on route m is judged by the service's declaration and m's OWN
   declaration only. *)
Theorem routes_config_isolated svc var methods m hs rq bv bok :
  NoDup (map fst methods) -> In (m, hs) methods ->
  serve_route (register_routes svc var methods []) m rq bv bok = Some (go_serve svc hs rq bv bok).
Proof.
  intros Hnd Hin. unfold serve_route, find_route. rewrite register_routes_spec. cbn [rev app].
  rewrite (find_by_key rt_name str_eqb _ (mk_route svc (m, hs)) str_eqb_eq); [reflexivity| |now apply in_map].
  now rewrite map_map.
Qed.

Lemma do_call_world w c : fst (do_call w c) = w.
Proof. unfold do_call. destruct (nth_error w (cc_client c)); reflexivity. Qed.

(* no call changes the clients: the observations are those of the calls one by one *)
Lemma run_calls_map w cs : run_calls w cs = map (fun c => snd (do_call w c)) cs.
Proof.
  induction cs as [|c r IH]; [reflexivity|]. cbn.
  pose proof (do_call_world w c) as Hw. destruct (do_call w c) as [w' o]. cbn in *. subst w'. now rewrite IH.
Qed.

(* a call without per-call options puts exactly Content-Type and the instance's defaults on the wire *)
Theorem plain_call_defaults w c cl :
  nth_error w (cc_client c) = Some cl -> cc_ct c = [] -> cc_headers c = [] -> stage_sends (cc_stage c) = true ->
  snd (do_call w c) =
  Some {| co_sent := Some (hset_all ((s "Content-Type", cl_ct cl) :: cl_defaults cl)); co_ok := stage_ok (cc_stage c) |}.
Proof.
  intros E Hct Hh Hs. unfold do_call. rewrite E. cbn. rewrite Hs.
  unfold wire_headers, eff_ct, call_headers. rewrite Hct, Hh. now rewrite app_nil_r.
Qed.

(* Whatever else is registered (routes over the SAME request message with other path-variable sets,
   other verbs), and whatever was requested before or is requested afterwards, a request addressed to
   route r is bound with r's OWN path variables and query parameters. *)
Theorem shared_message_isolated table r pre rq post :
  NoDup (map sr_name table) -> In r table -> sq_route rq = sr_name r ->
  nth_error (run_shared table (pre ++ rq :: post)) (List.length pre) = Some (Some (serve_shared r rq)).
Proof.
  intros Hnd Hin Hr. unfold run_shared. rewrite nth_error_map_mid.
  unfold serve_shared_in, find_sroute. now rewrite Hr, (find_by_key sr_name str_eqb table r str_eqb_eq Hnd Hin).
Qed.

Lemma fset_other k v k' m : str_eqb k k' = false -> flookup k' (fset k v m) = flookup k' m.
Proof.
  intros Hne. induction m as [|[a b] t IH]; cbn.
  - rewrite Hne. reflexivity.
  - destruct (str_eqb a k) eqn:E; cbn.
    + destruct (str_eqb a k') eqn:E'; [|reflexivity].
      apply str_eqb_eq in E. apply str_eqb_eq in E'. subst. rewrite str_eqb_refl in Hne. discriminate.
    + destruct (str_eqb a k'); [reflexivity|exact IH].
Qed.

(* a path variable the route does not declare is never bound: the field keeps what the body gave it *)
Lemma bind_path_undeclared params pv f : ~ In f params -> forall m m',
  bind_path params pv m = SDispatch m' -> flookup f m' = flookup f m.
Proof.
  intros Hnot. induction params as [|p r IH]; intros m m' H; cbn in H.
  - now inversion H.
  - destruct (flookup p pv) as [[|c v]|]; try discriminate.
    assert (Hp : str_eqb p f = false).
    { destruct (str_eqb p f) eqn:E; [|reflexivity]. apply str_eqb_eq in E. subst. exfalso. apply Hnot. now left. }
    rewrite (IH (fun Hin => Hnot (or_intror Hin)) _ _ H). now apply fset_other.
Qed.

Lemma key_eqb_eq a b : key_eqb a b = true <-> a = b.
Proof.
  destruct a as [a1 a2], b as [b1 b2]. unfold key_eqb. cbn. rewrite andb_true_iff, !str_eqb_eq. split.
  - now intros [-> ->].
  - now intros [= -> ->].
Qed.

Lemma register_all_nth regs : forall k i r,
  nth_error regs i = Some r -> nth_error (register_all k regs) i = Some (mount (k + i) r).
Proof.
  induction regs as [|a t IH]; intros k i r H; destruct i; cbn in *; try discriminate.
  - inversion H; subst. now rewrite Nat.add_0_r.
  - rewrite (IH (S k) i r H). cbn. now rewrite Nat.add_succ_r.
Qed.

(* registration i of ANY history answers a request addressed to it exactly as when it is the only
   Register call the process ever made: whatever options the calls before and after it were given *)
Theorem registration_as_alone regs i r q :
  NoDup (map mkey (register_all 0 regs)) -> nth_error regs i = Some r ->
  rq_key q = mkey (mount i r) ->
  serve_reg (register_all 0 regs) q = serve_reg [mount i r] q.
Proof.
  intros Hnd Hi Hk. unfold serve_reg, find_mounted. rewrite Hk.
  rewrite !(find_by_key mkey key_eqb _ (mount i r) key_eqb_eq); [reflexivity|repeat constructor; intros []|now left|exact Hnd|].
  apply (nth_error_In _ i). exact (register_all_nth regs 0 i r Hi).
Qed.

(* a Register call without WithErrorHandler / WithMux has no error handler / the default mux, whatever
   else the process registered *)
Definition is_hook (o : sopt) : bool := match o with OHook _ _ => true | _ => false end.
Definition is_mux (o : sopt) : bool := match o with OMux _ => true | _ => false end.

Lemma fold_sopt_keeps {X} (part : scfg -> X) opts :
  (forall o c, In o opts -> part (apply_sopt c o) = part c) ->
  forall c, part (fold_left apply_sopt opts c) = part c.
Proof.
  induction opts as [|a t IH]; intros H c; cbn; [reflexivity|].
  rewrite IH by (intros o c' Ho; apply H; now right). apply H. now left.
Qed.

Theorem own_options_only k svc opts :
  ((forall o, In o opts -> is_hook o = false) -> mt_hook (mount k (svc, opts)) = None) /\
  ((forall o, In o opts -> is_mux o = false) -> mt_mux (mount k (svc, opts)) = []).
Proof.
  split; intro H; unfold mount, get_configuration; cbn.
  - apply (fold_sopt_keeps sc_hook). intros o c Ho. specialize (H o Ho). now destruct o.
  - apply (fold_sopt_keeps sc_mux). intros o c Ho. specialize (H o Ho). now destruct o.
Qed.
