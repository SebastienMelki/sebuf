(* OneofExamples.v — witnesses for OneofFacts.oneof_roundtrip: non-vacuity (shared schema xs and a schema with richer
   variants), and for every side condition a value on which all the other hypotheses hold and the round trip fails. *)
From Coq Require Import ZArith List String.
From Sebuf Require Import CodecCases.
From Sebuf Require Validate.
From SebufProofs Require Import TextFacts CodecTextFacts ProtoJsonFacts CodecExamples CodecFacts.
From SebufProofs Require NullableFacts.
From SebufProofs Require Import OneofPj OneofReflect OneofFacts.
Import ListNotations.

Open Scope Z_scope.

(* the hypotheses of oneof_roundtrip, in the order of its statement:
   owner = discriminated oneof; wt1; defects_C04 = []; distinct oneof names; oneof_keys_ok; disc_values_ok;
   variant_types_plain; variant_no_gap *)
Definition oneof_hyps (sc : schema) (tn : str) (m : mval) : list bool :=
  match find_message (all_messages sc) tn with
  | Some md => [match owner_of sc md with Own FtOneof => true | _ => false end; wt1 sc tn m;
                match defects_C04 sc tn m with [] => true | _ => false end;
                NullableFacts.nodup_str (map o_name (m_oneofs md)); oneof_keys_ok sc md m; disc_values_ok md;
                variant_types_plain sc md m; variant_no_gap sc md m]
  | None => []
  end.

(* oneof_roundtrip with its hypotheses as one computed list *)
Theorem oneof_roundtrip_b : forall E, ExtLaws E -> forall sc tn m j,
  oneof_hyps sc tn m = [true; true; true; true; true; true; true; true] ->
  encode E sc tn m = ROk j -> decode E sc tn j = ROk (norm sc tn m).
Proof.
  intros E EL sc tn m j Hh Henc. unfold oneof_hyps in Hh.
  destruct (find_message (all_messages sc) tn) as [md|] eqn:Hfm; [|discriminate Hh].
  destruct (owner_of sc md) as [|ft|] eqn:Hown; try discriminate Hh. destruct ft; try discriminate Hh.
  destruct (defects_C04 sc tn m) eqn:Hd; [|discriminate Hh].
  injection Hh as H2 H4 H5 H6 H7 H8.
  exact (oneof_roundtrip E EL sc tn md m j Hfm Hown H2 Hd H4 H5 H6 H7 H8 Henc).
Qed.

Definition all_true : list bool := [true; true; true; true; true; true; true; true].

(* every hypothesis holds, the encoder answers [j], and the decoder gives the value back *)
Definition oneof_case_ok (sc : schema) (tn : str) (m : mval) (j : json) : Prop :=
  oneof_hyps sc tn m = all_true /\ encode Ex sc tn m = ROk j /\ decode Ex sc tn j = ROk m /\ norm sc tn m = m.
(* every hypothesis but the n-th holds, and the round trip fails *)
Definition oneof_case_needs (n : nat) (sc : schema) (tn : str) (m : mval) : Prop :=
  oneof_hyps sc tn m = map (fun i => negb (Nat.eqb i n)) (seq 0 8) /\ rt_holds Ex sc tn m = false.

Definition oo (n d : string) (fl : bool) : oneof :=
  {| o_name := s n; o_has_cfg := true; o_discriminator := s d; o_flatten := fl |}.
Definition set_oval (v : string) (f : field) : field :=
  {| f_name := f_name f; f_number := f_number f; f_kind := f_kind f; f_card := f_card f; f_oneof := f_oneof f; f_query := f_query f;
     f_unwrap := f_unwrap f; f_int64 := f_int64 f; f_enumenc := f_enumenc f; f_nullable := f_nullable f; f_empty := f_empty f;
     f_tsfmt := f_tsfmt f; f_bytesenc := f_bytesenc f; f_oneof_value := Some (s v); f_flatten := f_flatten f; f_flatten_prefix := f_flatten_prefix f |}.

Definition os : schema :=
  [ {| fl_path := s "x/o.proto"; fl_package := s "x.v1"; fl_gopkg := s "x"; fl_generate := true;
       fl_messages :=
  [ msg "Pic" [fld "url" 1 KString Singular; fld "w" 2 KInt32 Singular; fld "n" 3 KInt64 Singular; fld "tags" 4 KString Repeated;
               fld "by" 5 KInt64 (MapOf KString); fld "ob" 6 KBytes Optional; fld "bm" 7 KString (MapOf KBool);
               fld "ratio" 8 KDouble Singular] [];
    msg "Note" [fld "body_text" 1 KString Singular; fld "w" 2 KInt32 Singular; fld "fs" 3 KDouble Repeated;
                fld "bm" 4 KString (MapOf KBool)] [];
    msg "Fold" [fld "alt_text" 1 KString Singular; fld "alttext" 2 KInt32 Singular] [];
    msg "Self" [fld "self" 1 KString Singular] [];
    msg "Leaf" [fld "a" 1 KString Singular] [];
    msg "EmpC" [set_empty EBNull (fld "nul_it" 1 (T "Leaf") Singular); fld "id" 2 KString Singular] [];
    (* one non-flattened oneof: scalar, message, Timestamp members; a member named like the discriminator *)
    msg "Ev" [fld "eid" 1 KString Singular; set_oneof "content" (fld "text" 2 KString Singular);
              set_oneof "content" (fld "note" 3 (T "Note") Singular); set_oneof "content" (fld "at" 4 TS Singular);
              set_oneof "content" (fld "fo" 5 (T "Fold") Singular); set_oneof "content" (fld "ctype" 6 KString Singular)]
       [oo "content" "ctype" false];
    (* one flattened oneof *)
    msg "Fl" [fld "eid" 1 KString Singular; set_oneof "content" (fld "pic" 3 (T "Pic") Singular);
              set_oneof "content" (fld "at" 4 TS Singular); set_oneof "content" (fld "ec" 5 (T "EmpC") Singular);
              set_oneof "content" (fld "self" 6 (T "Self") Singular)]
       [oo "content" "ctype" true];
    (* two configured oneofs, one flattened and one not *)
    msg "Two" [fld "eid" 1 KString Singular; set_oneof "a" (fld "pic" 2 (T "Pic") Singular); set_oneof "a" (fld "leaf" 3 (T "Leaf") Singular);
               set_oneof "b" (fld "note" 4 (T "Note") Singular); set_oneof "b" (fld "txt" 5 KString Singular)]
       [oo "a" "akind" true; oo "b" "bkind" false];
    (* two flattened oneofs sharing the discriminator *)
    msg "Dup" [fld "eid" 1 KString Singular; set_oneof "a" (fld "pic" 2 (T "Pic") Singular); set_oneof "b" (fld "leaf" 3 (T "Leaf") Singular)]
       [oo "a" "kind" true; oo "b" "kind" true];
    (* two variants with the same oneof_value *)
    msg "Dv" [set_oneof "a" (set_oval "x" (fld "leaf" 1 (T "Leaf") Singular)); set_oneof "a" (set_oval "x" (fld "pic" 2 (T "Pic") Singular))]
       [oo "a" "kind" true] ];
       fl_enums := []; fl_services := [] |} ].

Definition picv : fval :=
  FM [(s "url", vstr "u"); (s "w", vint 3); (s "n", vint 9007199254740993); (s "tags", FL [vstr "a"; vstr "b"]);
      (s "by", FMap [(VStr (s "k"), vint 5)]); (s "ratio", FS (VFloat 4609434218613702656))].
Definition picj : list (str * json) :=
  [(s "url", JStr (s "u")); (s "w", JNum 3); (s "n", JNum 9007199254740993); (s "tags", JArr [JStr (s "a"); JStr (s "b")]);
   (s "by", JObj [(s "k", JNum 5)]); (s "ratio", jflt 4609434218613702656)].

Ltac caseok := split; [vm_compute; reflexivity|split; [vm_compute; reflexivity|split; vm_compute; reflexivity]].

(* the shared schema xs: Event (non-flattened, message member), FlatEvent (flattened, message member) *)
Example oneof_nonvacuous_xs :
  oneof_case_ok xs (q "Event") [(s "eid", vstr "e"); (s "image", FM [(s "url", vstr "u")])]
    (JObj [(s "eid", JStr (s "e")); (s "image", JObj [(s "url", JStr (s "u"))]); (s "ctype", JStr (s "image"))]) /\
  oneof_case_ok xs (q "FlatEvent") [(s "eid", vstr "e"); (s "wide", FM [])]
    (JObj [(s "eid", JStr (s "e")); (s "ctype", JStr (s "wide"))]).
Proof. split; caseok. Qed.

(* richer variants: no member; a scalar member; a non-flattened message member (multi-word field, repeated double);
   a flattened message member (int64, repeated, map, double); two configured oneofs at once *)
Example oneof_nonvacuous_os :
  oneof_case_ok os (q "Ev") [(s "eid", vstr "e")] (JObj [(s "eid", JStr (s "e"))]) /\
  oneof_case_ok os (q "Ev") [(s "eid", vstr "e"); (s "text", vstr "hi")]
    (JObj [(s "eid", JStr (s "e")); (s "text", JStr (s "hi")); (s "ctype", JStr (s "text"))]) /\
  oneof_case_ok os (q "Ev")
    [(s "eid", vstr "e"); (s "note", FM [(s "body_text", vstr "b"); (s "w", vint 3); (s "fs", FL [FS (VFloat 4609434218613702656)])])]
    (JObj [(s "eid", JStr (s "e"));
           (s "note", JObj [(s "bodyText", JStr (s "b")); (s "w", JNum 3); (s "fs", JArr [jflt 4609434218613702656])]);
           (s "ctype", JStr (s "note"))]) /\
  oneof_case_ok os (q "Fl") [(s "eid", vstr "e"); (s "pic", picv)]
    (JObj ([(s "eid", JStr (s "e")); (s "ctype", JStr (s "pic"))] ++ picj)) /\
  oneof_case_ok os (q "Two") [(s "eid", vstr "e"); (s "pic", picv); (s "note", FM [(s "w", vint 3)])]
    (JObj ([(s "eid", JStr (s "e")); (s "note", JObj [(s "w", JNum 3)]); (s "akind", JStr (s "pic"))] ++ picj ++
           [(s "bkind", JStr (s "note"))])).
Proof. do 4 (split; [caseok|]). caseok. Qed.

(* oneof_keys_ok (hypothesis 4).  None of the three is caught by annotations.ValidateOneofDiscriminator:
   a variant named like its own discriminator (the discriminator overwrites the variant);
   two flattened oneofs with the same discriminator (the first decoder reads the other's value and leaves its child inlined);
   a flattened variant whose type has a field named like the variant (third conjunct) *)
Example oneof_needs_keys_ok :
  (* (since confirmed on the emitted code and tagged: defect class D4OneofMemberIsDiscriminator) *)
  defects_C04 os (q "Ev") [(s "eid", vstr "e"); (s "ctype", vstr "x")] = [D4OneofMemberIsDiscriminator] /\
  oneof_case_needs 4 os (q "Dup") [(s "eid", vstr "e"); (s "pic", FM [(s "url", vstr "u")]); (s "leaf", FM [(s "a", vstr "x")])] /\
  (* a flattened variant whose type has a field named like the variant: `delete(raw, "self")` removes the child's field *)
  (* (since confirmed on the emitted code and tagged: defect class D4FlatVariantFieldIsVariant) *)
  defects_C04 os (q "Fl") [(s "eid", vstr "e"); (s "self", FM [(s "self", vstr "x")])] = [D4FlatVariantFieldIsVariant].
Proof. split; [vm_compute; reflexivity|split; [split; vm_compute; reflexivity|vm_compute; reflexivity]]. Qed.

(* the generators' own validation (annotations.ValidateOneofDiscriminator, checkMarshalJSONConflict) accepts these message types *)
Definition validator_accepts (sc : schema) (tn : str) : bool :=
  match find_message (all_messages sc) tn with
  | Some md => match Validate.oneof_msg_check sc md, Validate.oneof_conflict_check md with None, None => true | _, _ => false end
  | None => false
  end.
Example oneof_validator_accepts :
  validator_accepts os (q "Ev") = true /\ validator_accepts os (q "Fl") = true /\ validator_accepts os (q "Dup") = true /\
  validator_accepts os (q "Dv") = true /\ validator_accepts os (q "Two") = true.
Proof. do 4 (split; [vm_compute; reflexivity|]). vm_compute; reflexivity. Qed.

(* disc_values_ok (hypothesis 5): two variants with the same oneof_value — the decoder takes the first *)
Example oneof_needs_disc_values :
  oneof_case_needs 5 os (q "Dv") [(s "pic", FM [(s "url", vstr "u")])].
Proof. split; vm_compute; reflexivity. Qed.

(* variant_types_plain (hypothesis 6): a Timestamp member (non-flattened: json.Unmarshal of an RFC 3339 string into the
   struct; flattened: {"seconds":5} handed to protojson) and a member whose type owns a codec (empty_behavior = NULL:
   the null the child's MarshalJSON writes is dropped by the parent's protojson.Unmarshal).  No defect class fires. *)
Example oneof_needs_types_plain :
  oneof_case_needs 6 os (q "Ev") [(s "eid", vstr "e"); (s "at", FM [])] /\
  oneof_case_needs 6 os (q "Fl") [(s "eid", vstr "e"); (s "at", FM [(s "seconds", vint 5)])] /\
  oneof_case_needs 6 os (q "Fl") [(s "eid", vstr "e"); (s "ec", FM [(s "nul_it", FM [])])].
Proof. split; [split; vm_compute; reflexivity|split; split; vm_compute; reflexivity]. Qed.

(* variant_no_gap (hypothesis 7) excludes a multi-word field of a non-flattened member whose lowerCamel key folds onto another
   field of the Go struct.  The other shapes of a member that are not given back are defect classes, confirmed on the
   emitted code (below); what the condition excludes beyond them is [oneof_no_gap_remainder]. *)
Example oneof_needs_no_gap :
  (* flattened: an empty `optional bytes` is dropped by omitempty (class D4ReflectedEmptyOptBytes) *)
  defects_C04 os (q "Fl") [(s "eid", vstr "e"); (s "pic", FM [(s "ob", FS (VBytes []))])] = [D4ReflectedEmptyOptBytes] /\
  rt_holds Ex os (q "Fl") [(s "eid", vstr "e"); (s "pic", FM [(s "ob", FS (VBytes []))])] = false /\
  (* flattened: json.Marshal fails on map[bool]string, the error is swallowed, the variant is dropped (class D4FlatVariantBoolMap) *)
  defects_C04 os (q "Fl") [(s "eid", vstr "e"); (s "pic", FM [(s "bm", FMap [(VBool true, vstr "x")])])] = [D4FlatVariantBoolMap] /\
  (* non-flattened: "NaN" inside a repeated double is rejected by json.Unmarshal (class D4OneofVariantReflect) *)
  defects_C04 os (q "Ev") [(s "eid", vstr "e"); (s "note", FM [(s "fs", FL [FS (VFloat 9221120237041090561)])])] = [D4OneofVariantReflect] /\
  rt_holds Ex os (q "Ev") [(s "eid", vstr "e"); (s "note", FM [(s "fs", FL [FS (VFloat 9221120237041090561)])])] = false /\
  (* non-flattened: map[bool]string is no target for json.Unmarshal (class D4OneofVariantBoolMap) *)
  defects_C04 os (q "Ev") [(s "eid", vstr "e"); (s "note", FM [(s "bm", FMap [(VBool true, vstr "x")])])] = [D4OneofVariantBoolMap] /\
  rt_holds Ex os (q "Ev") [(s "eid", vstr "e"); (s "note", FM [(s "bm", FMap [(VBool true, vstr "x")])])] = false /\
  (* non-flattened: "altText" folds onto the int32 field alttext, which does not read a string (class D4OneofVariantFoldClash) *)
  defects_C04 os (q "Ev") [(s "eid", vstr "e"); (s "fo", FM [(s "alt_text", vstr "x")])] = [D4OneofVariantFoldClash] /\
  rt_holds Ex os (q "Ev") [(s "eid", vstr "e"); (s "fo", FM [(s "alt_text", vstr "x")])] = false.
Proof. do 8 (split; [vm_compute; reflexivity|]). vm_compute; reflexivity. Qed.

(* defects_C04 = [] (hypothesis 2): two of the classes of CodecCases.local_defects for this codec, on xs *)
Example oneof_needs_no_defects :
  oneof_case_needs 2 xs (q "Event") [(s "image", FM [(s "size", vint 7)])] /\
  oneof_case_needs 2 xs (q "FlatEvent") [(s "eid", vstr "e"); (s "wide", FM [(s "alt_text", vstr "a")])].
Proof. split; split; vm_compute; reflexivity. Qed.

Definition fs : schema :=
  [ {| fl_path := s "x/f.proto"; fl_package := s "x.v1"; fl_gopkg := s "x"; fl_generate := true;
       fl_messages :=
  [ msg "Fold2" [fld "foo_bar" 1 KString Singular; fld "foobar" 2 KString Singular] [];
    msg "Bm" [fld "flags" 1 KString (MapOf KBool); fld "name" 2 KString Singular] [];
    msg "Floats" [fld "xs" 1 KDouble Repeated; fld "name" 2 KString Singular] [];
    msg "FlatG" [fld "id" 1 KString Singular; set_oneof "c" (fld "fo" 2 (T "Fold2") Singular);
                 set_oneof "c" (fld "bm" 3 (T "Bm") Singular); set_oneof "c" (fld "fl" 4 (T "Floats") Singular)] [oo "c" "kind" true];
    msg "NestG" [fld "id" 1 KString Singular; set_oneof "c" (fld "fo" 2 (T "Fold2") Singular);
                 set_oneof "c" (fld "bm" 3 (T "Bm") Singular)] [oo "c" "kind" false] ];
       fl_enums := []; fl_services := [] |} ].

(* flattened: the decoder collects "fooBar" and "foobar" into variantMap, json.Marshal writes them in byte order, and
   json.Unmarshal matches "fooBar" case-insensitively onto the struct field foobar (no field is called fooBar or foo_bar
   up to case), then "foobar" exactly: the later key wins, foo_bar is lost and nothing is reported.  The order of the keys
   in the request does not matter (observed on the emitted code: {"fooBar":".","foobar":"..","kind":"fo"} -> fo:{foobar:".."}) *)
Example flat_decode_fold_clash :
  decode Ex fs (q "FlatG") (JObj [(s "fooBar", JStr (s ".")); (s "foobar", JStr (s "..")); (s "kind", JStr (s "fo"))])
    = ROk [(s "fo", FM [(s "foobar", vstr "..")])] /\
  decode Ex fs (q "FlatG") (JObj [(s "foobar", JStr (s "..")); (s "kind", JStr (s "fo")); (s "fooBar", JStr (s "."))])
    = ROk [(s "fo", FM [(s "foobar", vstr "..")])] /\
  (* non-flattened: the same folding happens while the variant is checked, then protojson reads the whole object *)
  decode Ex fs (q "NestG") (JObj [(s "fo", JObj [(s "fooBar", JStr (s ".")); (s "foobar", JStr (s ".."))]); (s "kind", JStr (s "fo"))])
    = ROk [(s "fo", FM [(s "foo_bar", vstr "."); (s "foobar", vstr "..")])].
Proof. split; [vm_compute; reflexivity|split; vm_compute; reflexivity]. Qed.

(* map[bool]T is no target for json.Unmarshal: the contract form of a bool-keyed map inside a variant is refused, flattened
   or not (observed on the emitted code: {"flags":{"true":"x"},"kind":"bm","name":"n"} is answered 400) *)
Example variant_decode_bool_map_refused :
  (exists e, decode Ex fs (q "FlatG") (JObj [(s "flags", JObj [(s "true", JStr (s "x"))]); (s "kind", JStr (s "bm")); (s "name", JStr (s "n"))])
             = RErr e) /\
  (exists e, decode Ex fs (q "NestG") (JObj [(s "bm", JObj [(s "flags", JObj [(s "true", JStr (s "x"))])]); (s "kind", JStr (s "bm"))])
             = RErr e) /\
  (* null leaves the map alone (for encoding/json and for protojson), and a variant without the map is read *)
  decode Ex fs (q "NestG") (JObj [(s "bm", JObj [(s "flags", JNull); (s "name", JStr (s "n"))]); (s "kind", JStr (s "bm"))])
    = ROk [(s "bm", FM [(s "name", vstr "n")])] /\
  decode Ex fs (q "NestG") (JObj [(s "bm", JObj [(s "name", JStr (s "n"))]); (s "kind", JStr (s "bm"))])
    = ROk [(s "bm", FM [(s "name", vstr "n")])].
Proof. split; [eexists; vm_compute; reflexivity|]. split; [eexists; vm_compute; reflexivity|]. split; vm_compute; reflexivity. Qed.

(* what variant_no_gap still excludes although no defect class fires: the key folds onto a field that READS the value (both
   are strings).  Not a failure of the round trip — every other hypothesis holds and so does the conclusion (json.Unmarshal
   puts "." into foobar, then ".." over it; its result is only a check, protojson reads the object afterwards) — but the
   proof does not follow encoding/json through a field that is assigned twice. *)
Example oneof_no_gap_remainder :
  let m := [(s "fo", FM [(s "foo_bar", vstr "."); (s "foobar", vstr "..")])] in
  oneof_hyps fs (q "NestG") m = map (fun i => negb (Nat.eqb i 7)) (seq 0 8) /\ rt_holds Ex fs (q "NestG") m = true.
Proof. split; vm_compute; reflexivity. Qed.

(* one refutation per defect class of the discriminated-oneof codec found by the side conditions (all confirmed on the
   emitted code): the class fires alone, the encoder answers, and the decoder does not give the value back *)
Definition refuted4_on (sc : schema) (d : c04_defect) (tn : str) (m : mval) : Prop :=
  defects_C04 sc tn m = [d] /\
  exists j, encode Ex sc tn m = ROk j /\ decode Ex sc tn j <> ROk (norm sc tn m).
Ltac refute4on := split; [vm_compute; reflexivity | eexists; split; [vm_compute; reflexivity | vm_compute; discriminate]].

Theorem refuted_oneof_member_is_discriminator :
  refuted4_on os D4OneofMemberIsDiscriminator (q "Ev") [(s "eid", vstr "e"); (s "ctype", vstr "x")].
Proof. refute4on. Qed.
Theorem refuted_flat_variant_field_is_variant :
  refuted4_on os D4FlatVariantFieldIsVariant (q "Fl") [(s "eid", vstr "e"); (s "self", FM [(s "self", vstr "x")])].
Proof. refute4on. Qed.
Theorem refuted_flat_variant_bool_map :
  refuted4_on os D4FlatVariantBoolMap (q "Fl") [(s "eid", vstr "e"); (s "pic", FM [(s "bm", FMap [(VBool true, vstr "x")])])].
Proof. refute4on. Qed.
Theorem refuted_oneof_variant_bool_map :
  refuted4_on os D4OneofVariantBoolMap (q "Ev") [(s "eid", vstr "e"); (s "note", FM [(s "bm", FMap [(VBool true, vstr "x")])])].
Proof. refute4on. Qed.
Theorem refuted_reflected_empty_opt_bytes :
  refuted4_on os D4ReflectedEmptyOptBytes (q "Fl") [(s "eid", vstr "e"); (s "pic", FM [(s "ob", FS (VBytes []))])].
Proof. refute4on. Qed.
Theorem refuted_oneof_variant_fold_clash :
  refuted4_on os D4OneofVariantFoldClash (q "Ev") [(s "eid", vstr "e"); (s "fo", FM [(s "alt_text", vstr "x")])].
Proof. refute4on. Qed.
(* D4OneofVariantReflect on NaN as an ELEMENT of a repeated double *)
Theorem refuted_oneof_variant_reflect_nonfinite_element :
  refuted4_on os D4OneofVariantReflect (q "Ev") [(s "eid", vstr "e"); (s "note", FM [(s "fs", FL [FS (VFloat 9221120237041090561)])])].
Proof. refute4on. Qed.

(* C05, response direction: NaN inside a repeated double of a flattened variant makes json.Marshal(inner) fail, the error is
   swallowed and the server sends the discriminator only; the classes flat-oneof-child-encoding-json and reflected-child-encoding-json cover it
   (CodecCases.reflect_differs looks inside lists and maps) *)
Example c05_flat_variant_nonfinite_element :
  let m := [(s "fl", FM [(s "xs", FL [FS (VFloat 9221120237041090561)]); (s "name", vstr "n")])] in
  defects_C05 fs (q "FlatG") m = [D5FlatOneofChild; D5FlattenChild] /\
  encode Ex fs (q "FlatG") m = ROk (JObj [(s "kind", JStr (s "fl"))]) /\
  to_json Ex fs (q "FlatG") m = ROk (JObj [(s "kind", JStr (s "fl")); (s "xs", JArr [JStr (s "NaN")]); (s "name", JStr (s "n"))]).
Proof. split; [vm_compute; reflexivity|split; vm_compute; reflexivity]. Qed.

(* wt1 accepts what wt rejects: a populated oneof member *)
Example wt1_beyond_wt :
  wt xs (KMessage (q "Event")) (FM [(s "eid", vstr "e"); (s "image", FM [(s "url", vstr "u")])]) = false /\
  wt1 xs (q "Event") [(s "eid", vstr "e"); (s "image", FM [(s "url", vstr "u")])] = true /\
  (* and two members of one oneof are not well-typed *)
  wt1 os (q "Ev") [(s "text", vstr "a"); (s "ctype", vstr "b")] = false.
Proof. split; [vm_compute; reflexivity|split; vm_compute; reflexivity]. Qed.
Close Scope Z_scope.
