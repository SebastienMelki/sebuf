(* OpenApiFacts.v — C18, the OpenAPI document.  YAML side: two readers that resolve the plain scalars of a
   node alike denote it alike (denote_agree, by ynode_ind', the induction principle through sequences and
   maps), so the JSON rendering says what the YAML one does.  Document side: one document per service, an
   operation per RPC, path variables are exactly the `in: path` parameters, parameter names are unique per
   operation, `required` lists exactly the required properties (required_iff), and — the bulk — the message
   collector: Section Reach proves that after collect_service every visited message has its field types and
   nested declarations visited and its components registered (collect_service_inv), which
   OpenApiRefsFacts turns into "every $ref resolves".  Last, the ordered-map helpers (omap_of, omap_set) and
   defects_C18_nil, what an empty defect list says. *)
From Sebuf Require Import JsonSchema Yaml Rules Route OpenApi OasCheck.
From SebufProofs Require Import TextFacts ListFacts JsonSchemaFacts.

(* what a computation that may fail yields, read through f: the examples evaluate [option_map f o] once
   instead of naming the (large) result of o *)
Lemma resolve11_eq_12 x : yaml11_bool_word x = false -> resolve11 x = resolve12 x.
Proof.
  unfold yaml11_bool_word, resolve11, resolve12, resolve_with. intros H.
  apply orb_false_elim in H as [Ht Hf]. rewrite Ht, Hf.
  destruct x as [|c r]; [reflexivity|]. now rewrite !orb_false_r.
Qed.

Lemma rd_scalar_agree e : yaml11_bool_word (snd e) = false -> rd_scalar reader11 e = rd_scalar reader12 e.
Proof.
  destruct e as [tagged x]. cbn [snd]. intros H. unfold rd_scalar. cbn [fst snd].
  destruct tagged; cbn [rd_str rd_plain reader11 reader12].
  - rewrite (resolve11_eq_12 _ H). destruct (resolve12 x); reflexivity.
  - now rewrite (resolve11_eq_12 _ H).
Qed.

Section YInd.
Variable Q : ynode -> Prop.
Hypothesis Hstr : forall x, Q (YStr x).
Hypothesis Hplain : forall x, Q (YPlain x).
Hypothesis Hgo : forall x, Q (YGoStr x).
Hypothesis Hnum : forall d, Q (YNum d).
Hypothesis Hbool : forall b, Q (YBool b).
Hypothesis Hnull : Q YNull.
Hypothesis Hseq : forall l, Forall Q l -> Q (YSeq l).
Hypothesis Hmap : forall kv, Forall (fun e => Q (snd e)) kv -> Q (YMap kv).
Fixpoint ynode_ind' (n : ynode) : Q n :=
  match n with
  | YStr x => Hstr x
  | YPlain x => Hplain x
  | YGoStr x => Hgo x
  | YNum d => Hnum d
  | YBool b => Hbool b
  | YNull => Hnull
  | YSeq l => Hseq l ((fix go (l : list ynode) : Forall Q l :=
                         match l with [] => Forall_nil _ | a :: r => Forall_cons a (ynode_ind' a) (go r) end) l)
  | YMap kv => Hmap kv ((fix go (kv : list (str * ynode)) : Forall (fun e => Q (snd e)) kv :=
                           match kv with [] => Forall_nil _ | (k, a) :: r => Forall_cons (k, a) (ynode_ind' a) (go r) end) kv)
  end.
End YInd.

Theorem denote_agree (R1 R2 : reader) (n : ynode) :
  (forall e, In e (scalars n) -> rd_scalar R1 e = rd_scalar R2 e) -> denote R1 n = denote R2 n.
Proof.
  induction n as [x|x|x|d|b| |l IH|kv IH] using ynode_ind'; intros H.
  - exact (H (true, x) (or_introl eq_refl)).
  - exact (H (false, x) (or_introl eq_refl)).
  - reflexivity.
  - reflexivity.
  - reflexivity.
  - reflexivity.
  - cbn [denote]. f_equal. cbn [scalars] in H.
    induction l as [|a l IHl]; [reflexivity|]. inversion IH as [|? ? Ha Hl]; subst. cbn [map]. f_equal.
    + apply Ha. intros e He. apply H. cbn [flat_map]. apply in_or_app. now left.
    + apply IHl; [assumption|]. intros e He. apply H. cbn [flat_map]. apply in_or_app. now right.
  - cbn [denote]. f_equal. cbn [scalars] in H.
    induction kv as [|[k a] kv IHkv]; [reflexivity|]. inversion IH as [|? ? Ha Hl]; subst. cbn [snd] in Ha.
    f_equal.
    + f_equal.
      * pose proof (H (true, k) (or_introl eq_refl)) as Hk. unfold rd_scalar in Hk. cbn [fst snd] in Hk. now rewrite Hk.
      * apply Ha. intros e He. apply H. right. apply in_or_app. now left.
    + apply IHkv; [assumption|]. intros e He. apply H. right. apply in_or_app. now right.
Qed.

Theorem json_eq_yaml (d : ynode) :
  (forall e, In e (scalars d) -> yaml11_bool_word (snd e) = false) -> denote reader11 d = denote reader12 d.
Proof. intros H. apply denote_agree. intros e He. apply rd_scalar_agree. now apply H. Qed.

Lemma app_inj_tail_str (a b t : str) : a ++ t = b ++ t -> a = b.
Proof. apply app_inv_tail. Qed.

Theorem one_doc_per_service p sc :
  List.length (emitted_files p sc) = List.length (generated_services sc) /\
  (forall i sv, nth_error (generated_services sc) i = Some sv ->
     nth_error (emitted_files p sc) i = Some (sv_name sv ++ s ".openapi." ++ (if format_is_json p then s "json" else s "yaml"))) /\
  (NoDup (map sv_name (generated_services sc)) -> NoDup (emitted_files p sc)).
Proof.
  unfold emitted_files, emitted_names. repeat split.
  - now rewrite !map_length.
  - intros i sv H. rewrite map_map. rewrite nth_error_map, H. reflexivity.
  - intros H. induction (map sv_name (generated_services sc)) as [|a l IH]; [constructor|].
    inversion H as [|? ? Hn Hl]; subst. cbn [map]. constructor; [|now apply IH].
    intros Hin. apply in_map_iff in Hin as [b [Hb Hinb]]. unfold file_name_of in Hb.
    apply app_inv_tail in Hb. subst. contradiction.
Qed.

Section Ops.
Context {A : Type}.
Variable name : A -> str.
Definition names (l : list ((str * verb) * A)) : list str := map (fun e => name (snd e)) l.

Lemma assign_op_in k (a : A) l e : In e (assign_op k a l) -> e = (k, a) \/ In e l.
Proof.
  induction l as [|[k' a'] r IH]; cbn; intros H.
  - destruct H as [<-|[]]. now left.
  - destruct (key_eqb k' k).
    + destruct H as [<-|H]; [now left|right; now right].
    + destruct H as [<-|H]; [right; now left|]. destruct (IH H) as [->|H']; [now left|right; now right].
Qed.

Lemma assign_op_nodup k (a : A) l :
  NoDup (names l) -> ~ In (name a) (names l) -> NoDup (names (assign_op k a l)).
Proof.
  unfold names. induction l as [|[k' a'] r IH]; cbn; intros Hnd Hni.
  - constructor; [intros []|constructor].
  - inversion Hnd as [|? ? Hn' Hr]; subst. destruct (key_eqb k' k); cbn.
    + constructor; [|assumption]. intros Hin. apply Hni. now right.
    + constructor.
      * intros Hin. apply in_map_iff in Hin as [e [He Hin]]. apply assign_op_in in Hin as [->|Hin].
        -- cbn in He. apply Hni. now left.
        -- apply Hn'. apply in_map_iff. now exists e.
      * apply IH; [assumption|]. intros Hin. apply Hni. now right.
Qed.

Lemma fold_assign_nodup (key : A -> str * verb) ms acc :
  NoDup (map name ms) -> NoDup (names acc) -> (forall x, In x (map name ms) -> ~ In x (names acc)) ->
  NoDup (names (fold_left (fun acc m => assign_op (key m) m acc) ms acc)).
Proof.
  revert acc. induction ms as [|m ms IH]; intros acc Hms Hacc Hdis; [exact Hacc|].
  cbn [fold_left]. inversion Hms as [|? ? Hm Hms']; subst. apply IH; [assumption| |].
  - apply assign_op_nodup; [assumption|]. apply Hdis. now left.
  - intros x Hx Hin. unfold names in Hin. apply in_map_iff in Hin as [e [He Hin]].
    apply assign_op_in in Hin as [->|Hin].
    + cbn in He. subst. contradiction.
    + apply (Hdis x); [now right|]. unfold names. apply in_map_iff. now exists e.
Qed.

Lemma assign_op_fresh k (a : A) (l : list ((str * verb) * A)) :
  (forall e, In e l -> key_eqb (fst e) k = false) -> assign_op k a l = l ++ [(k, a)].
Proof.
  induction l as [|[k' a'] r IH]; cbn; intros H; [reflexivity|].
  pose proof (H (k', a') (or_introl eq_refl)) as Hk. cbn [fst] in Hk. rewrite Hk. f_equal. apply IH. intros e He. apply H. now right.
Qed.
End Ops.

Lemma key_eqb_sym a b : key_eqb a b = key_eqb b a.
Proof.
  unfold key_eqb. rewrite (str_eqb_sym (fst a) (fst b)). f_equal.
  destruct (snd a), (snd b); reflexivity.
Qed.

(* without a shared (verb, path) every RPC keeps its operation, in order *)
Theorem every_rpc_has_operation sv :
  has_dup_key (route_keys sv) = false -> map snd (doc_ops sv) = sv_methods sv.
Proof.
  unfold doc_ops, route_keys.
  assert (G : forall ms acc,
             has_dup_key (map (method_key sv) ms) = false ->
             (forall e m, In e acc -> In m ms -> key_eqb (fst e) (method_key sv m) = false) ->
             map snd (fold_left (fun acc md => assign_op (method_key sv md) md acc) ms acc) = map snd acc ++ ms).
  { induction ms as [|m ms IH]; intros acc Hd Hacc; cbn [fold_left]; [now rewrite app_nil_r|].
    cbn [map has_dup_key] in Hd. apply orb_false_elim in Hd as [Hm Hd].
    rewrite assign_op_fresh by (intros e He; apply (Hacc e m He); now left).
    rewrite IH; [rewrite map_app, <- app_assoc; reflexivity|assumption|].
    intros e m' He Hm'. apply in_app_or in He as [He|[<-|[]]].
    - apply (Hacc e m' He). now right.
    - cbn [fst]. destruct (key_eqb (method_key sv m) (method_key sv m')) eqn:E; [|reflexivity].
      rewrite <- Hm. symmetry. apply existsb_exists. exists (method_key sv m'). split; [now apply in_map|assumption]. }
  intros H. rewrite (G _ [] H); [reflexivity|]. intros e m [].
Qed.

Lemma extract_skip_prefix a b : has_lbrace a = false -> extract_params_aux None (a ++ b) = extract_params_aux None b.
Proof.
  induction a as [|c a IH]; intros H; [reflexivity|].
  unfold has_lbrace in H. cbn [existsb] in H. apply orb_false_elim in H as [Hc Ha].
  cbn [app extract_params_aux]. rewrite Ascii.eqb_sym, Hc. now apply IH.
Qed.
Lemma extract_no_brace a : has_lbrace a = false -> extract_path_params a = [].
Proof. intros H. unfold extract_path_params. rewrite <- (app_nil_r a). now rewrite extract_skip_prefix. Qed.

Lemma has_lbrace_firstn n x : has_lbrace x = false -> has_lbrace (firstn n x) = false.
Proof.
  revert n. induction x as [|c x IH]; intros [|n] H; try reflexivity.
  unfold has_lbrace in *. cbn [firstn existsb] in *.
  apply orb_false_elim in H as [Hc Hx]. now rewrite Hc, IH.
Qed.
Lemma has_lbrace_app a b : has_lbrace (a ++ b) = has_lbrace a || has_lbrace b.
Proof. unfold has_lbrace. apply existsb_app. Qed.

Lemma has_lbrace_ensure x : has_lbrace x = false -> has_lbrace (ensure_leading_slash x) = false.
Proof.
  intros H. unfold ensure_leading_slash. destruct x as [|c x]; [reflexivity|].
  destruct (has_prefix [slash] (c :: x)); [assumption|].
  change (has_lbrace (slash :: c :: x)) with (Ascii.eqb lbrace slash || has_lbrace (c :: x)). now rewrite H.
Qed.
Lemma has_lbrace_trim_suffix p x : has_lbrace x = false -> has_lbrace (trim_suffix p x) = false.
Proof. intros H. unfold trim_suffix. destruct (has_suffix p x); [now apply has_lbrace_firstn|assumption]. Qed.

Lemma extract_ensure x : extract_path_params (ensure_leading_slash x) = extract_path_params x.
Proof.
  unfold ensure_leading_slash. destruct x as [|c x]; [reflexivity|].
  destruct (has_prefix [slash] (c :: x)); reflexivity.
Qed.
Lemma extract_trim_prefix_slash x : extract_params_aux None (trim_prefix [slash] x) = extract_params_aux None x.
Proof.
  unfold trim_prefix. destruct x as [|c x]; [reflexivity|]. cbn [has_prefix].
  destruct (Ascii.eqb slash c) eqn:E; cbn; [|reflexivity].
  apply Ascii.eqb_eq in E. subst. reflexivity.
Qed.

Lemma extract_build_http_path base path :
  has_lbrace base = false -> extract_path_params (build_http_path base path) = extract_path_params path.
Proof.
  intros H. unfold build_http_path. destruct base as [|b base], path as [|c path].
  - reflexivity.
  - apply extract_ensure.
  - rewrite extract_no_brace; [reflexivity|now apply has_lbrace_ensure].
  - unfold extract_path_params. rewrite extract_skip_prefix by now apply has_lbrace_trim_suffix, has_lbrace_ensure.
    change ([slash] ++ trim_prefix [slash] (c :: path)) with (slash :: trim_prefix [slash] (c :: path)).
    cbn [extract_params_aux]. change (Ascii.eqb slash lbrace) with false. cbv iota. apply extract_trim_prefix_slash.
Qed.

Theorem path_vars_iff_params sv md :
  has_lbrace (sv_base sv) = false -> has_lbrace (sv_name sv) = false -> has_lbrace (md_name md) = false ->
  template_vars sv md = declared_vars sv md.
Proof.
  intros Hb Hs Hm. unfold template_vars, declared_vars, method_path, openapi_path, path_vars, cfg_path.
  cbn [info_of_method ri_base ri_has_cfg ri_path ri_service ri_method].
  destruct (sv_base sv) as [|b base] eqn:Eb.
  - destruct (md_has_cfg md).
    + now apply extract_build_http_path.
    + apply extract_no_brace. rewrite !has_lbrace_app, Hs, Hm. reflexivity.
  - destruct (md_has_cfg md); now apply extract_build_http_path.
Qed.

Lemma mem_str_In x l : mem_str x l = true <-> In x l.
Proof. apply existsb_str_eqb_In. Qed.
Lemma has_dup_NoDup l : has_dup l = false -> NoDup l.
Proof. exact (dupb_false_NoDup l). Qed.

(* header names are case-insensitive (RFC 9110 §5.1) *)
Definition param_key (p : str * str * bool * ynode) : str * str :=
  match p with (n, l, _, _) => (l, if str_eqb l (s "header") then lower_str n else n) end.

Lemma op_parameter_keys sc sv md :
  map param_key (op_parameters sc sv md) =
  map (pair (s "header")) (map lower_str (op_header_names sc sv md)) ++
  map (pair (s "path")) (declared_vars sv md) ++ map (pair (s "query")) (op_query_names sc md).
Proof. unfold op_parameters, op_header_names, op_query_names. rewrite !map_app, !map_map. reflexivity. Qed.

Theorem param_names_unique sc sv md :
  has_dup (map lower_str (op_header_names sc sv md)) = false ->
  has_dup (declared_vars sv md) = false ->
  has_dup (op_query_names sc md) = false ->
  NoDup (map param_key (op_parameters sc sv md)) /\
  (forall n l r sch, In (n, l, r, sch) (op_parameters sc sv md) -> l = s "path" -> r = true).
Proof.
  intros Hh Hp Hq. apply has_dup_NoDup in Hh, Hp, Hq. split.
  - rewrite op_parameter_keys. apply NoDup_app; [now apply NoDup_tagged|apply NoDup_app; try now apply NoDup_tagged|].
    + intros e. now apply tagged_disjoint.
    + intros e Ha Hb. apply in_app_or in Hb as [Hb|Hb]; revert Ha Hb; now apply tagged_disjoint.
  - intros n l r sch Hin Hl. unfold op_parameters in Hin.
    apply in_app_or in Hin as [Hin|Hin]; [|apply in_app_or in Hin as [Hin|Hin]];
      apply in_map_iff in Hin as [x [Hx _]]; injection Hx as _ Hl' Hr _; subst; try reflexivity; discriminate.
Qed.

Lemma gostr_names l : flat_map (fun x => match x with YGoStr y => [y] | _ => [] end) (map YGoStr l) = l.
Proof. induction l as [|a l IH]; [reflexivity|]. cbn. now rewrite IH. Qed.

Lemma required_of_object props req : required_of (object_of props req) = req.
Proof. destruct props, req; try reflexivity; exact (gostr_names _). Qed.

Theorem required_iff sc sd m f :
  In f (m_fields m) -> NoDup (map jname (m_fields m)) ->
  (In (jname f) (required_of (plain_object_schema sc sd m)) <-> field_required sd (m_name m) f = true).
Proof.
  intros Hf Hnd. unfold plain_object_schema. rewrite required_of_object. split.
  - intros H. apply in_map_iff in H as [g [Hg Hin]]. apply filter_In in Hin as [Hing Hreq].
    assert (g = f); [|now subst].
    clear Hreq. induction (m_fields m) as [|h l IH]; [destruct Hf|].
    cbn [map] in Hnd. inversion Hnd as [|? ? Hh Hl]; subst.
    destruct Hf as [->|Hf], Hing as [->|Hing]; try reflexivity.
    + exfalso. apply Hh. rewrite <- Hg. now apply in_map.
    + exfalso. apply Hh. rewrite Hg. now apply in_map.
    + now apply IH.
  - intros H. apply in_map. apply filter_In. now split.
Qed.

(* In the per-variant schemas of a flattened discriminated oneof the common fields' `required` is
   dropped (generator.go:338-342 lists the discriminator only): message M { string id = 1 [required];
   oneof kind (discriminator "type", flatten) { A a = 2; } } *)
Definition ex_required_schema : schema :=
  [{| fl_path := s "x.proto"; fl_package := s "x"; fl_gopkg := s "x"; fl_generate := true;
      fl_messages := [ {| m_name := s "x.M"; m_path := [s "M"];
                          m_fields := [plain_field (s "id") 1 KString Singular;
                                       {| f_name := s "a"; f_number := 2; f_kind := KMessage (s "x.A"); f_card := Singular; f_oneof := Some (s "kind");
                                          f_query := None; f_unwrap := false; f_int64 := None; f_enumenc := None; f_nullable := None; f_empty := None;
                                          f_tsfmt := None; f_bytesenc := None; f_oneof_value := None; f_flatten := None; f_flatten_prefix := None |}];
                          m_oneofs := [{| o_name := s "kind"; o_has_cfg := true; o_discriminator := s "type"; o_flatten := true |}] |};
                       {| m_name := s "x.A"; m_path := [s "A"]; m_fields := [plain_field (s "v") 1 KString Singular]; m_oneofs := [] |} ];
      fl_enums := []; fl_services := [] |}].
Definition ex_required_side : side :=
  {| sd_rules := [((s "x.M", s "id"), {| r_required := true; r_min_len := None; r_max_len := None; r_len := None; r_pattern := None;
       r_str_in := []; r_str_not_in := []; r_str_const := None; r_well_known := None; r_gt := None; r_gte := None; r_lt := None; r_lte := None;
       r_num_const := None; r_num_in := []; r_min_items := None; r_max_items := None; r_unique := false; r_min_pairs := None; r_max_pairs := None |})];
     sd_examples := [] |}.

Definition ex_required_msg : message := nth 0 (all_messages ex_required_schema) timestamp_message.
Definition ex_required_field : field := plain_field (s "id") 1 KString Singular.

Section Reach.
Variable sc : schema.
Variable sd : side.

Notation oss := (object_schema_sets sc sd).

Definition targets (fq : str) : list str :=
  match lookup_message sc fq with Some m => field_targets m | None => [] end.

Inductive reachable (roots : list str) : str -> Prop :=
  | R_root r : In r roots -> reachable roots r
  | R_step a b : reachable roots a -> In b (targets a) -> reachable roots b.

Definition step_field (f : nat) (m : message) (acc : option cstate) (fd : field) : option cstate :=
  match acc with
  | None => None
  | Some a =>
      let a' := if is_map fd
                then {| cs_visited := cs_visited a; cs_sets := cs_sets a ++ oss (entry_message m fd);
                        cs_unknown := cs_unknown a |}
                else a in
      match f_kind fd with KMessage tn => collect sc sd f a' tn | _ => Some a' end
  end.
Definition step_msg (f : nat) (acc : option cstate) (t : str) : option cstate :=
  match acc with Some a => collect sc sd f a t | None => None end.

Lemma collect_S f st fq :
  collect sc sd (S f) st fq =
  if mem_str fq (cs_visited st) then Some st else
  match lookup_message sc fq with
  | None => Some {| cs_visited := fq :: cs_visited st; cs_sets := cs_sets st; cs_unknown := fq :: cs_unknown st |}
  | Some m =>
      fold_left (step_msg f) (map m_name (declared_nested sc m))
        (fold_left (step_field f m) (m_fields m)
           (Some {| cs_visited := fq :: cs_visited st;
                    cs_sets := cs_sets st ++ process_message sc sd (S (List.length (all_messages sc))) m;
                    cs_unknown := cs_unknown st |}))
  end.
Proof. reflexivity. Qed.

Lemma object_schema_sets_has_name m : In (short_name (m_name m)) (map fst (oss m)).
Proof.
  unfold object_schema_sets.
  destruct (root_unwrap_field m); [now left|].
  destruct (has_flatten_fields m); [now left|].
  destruct (has_disc_oneof m); [|now left].
  destruct (has_flattened_oneof m); [|now left].
  rewrite map_app. apply in_or_app. right. now left.
Qed.

Lemma process_message_has_name n m : In (short_name (m_name m)) (map fst (process_message sc sd (S n) m)).
Proof. cbn [process_message]. rewrite map_app. apply in_or_app. left. apply object_schema_sets_has_name. Qed.

Lemma lookup_name fq m : lookup_message sc fq = Some m -> m_name m = fq.
Proof.
  unfold lookup_message. destruct (find_message (all_messages sc) fq) eqn:E.
  - intros [= <-]. induction (all_messages sc) as [|a l IH]; [discriminate|]. cbn in E.
    destruct (str_eqb (m_name a) fq) eqn:Ea; [injection E as <-; now apply str_eqb_eq|now apply IH].
  - destruct (str_eqb fq timestamp_fq) eqn:Et; [|discriminate]. intros [= <-]. apply str_eqb_eq in Et. now subst.
Qed.

(* D is P or a message declared (transitively) inside P *)
Inductive desc (P : message) : message -> Prop :=
  | desc_refl : desc P P
  | desc_step D C : desc P D -> In C (declared_nested sc D) -> desc P C.

Lemma desc_child P C D : In C (declared_nested sc P) -> desc C D -> desc P D.
Proof.
  intros HC H. induction H as [|D E _ IH HE].
  - eapply desc_step; [apply desc_refl|exact HC].
  - eapply desc_step; [exact IH|exact HE].
Qed.

(* the messages whose object schemas processMessage registers for P: descendants and their map entries *)
Definition fam (P M : message) : Prop := exists D, desc P D /\ (M = D \/ In M (entry_messages D)).

Lemma process_message_prov n : forall m e, In e (process_message sc sd n m) ->
  exists M, fam m M /\ In e (oss M) /\ incl (oss M) (process_message sc sd n m).
Proof.
  induction n as [|n IH]; intros m e He; [destruct He|].
  cbn [process_message] in *. apply in_app_or in He as [He|He]; [|apply in_app_or in He as [He|He]].
  - exists m. split; [exists m; split; [apply desc_refl|now left]|]. split; [exact He|].
    intros x Hx. apply in_or_app. now left.
  - apply in_flat_map in He as [em [Hem He]]. exists em.
    split; [exists m; split; [apply desc_refl|now right]|]. split; [exact He|].
    intros x Hx. apply in_or_app. right. apply in_or_app. left. apply in_flat_map. exists em. now split.
  - apply in_flat_map in He as [c [Hc He]]. destruct (IH c e He) as [M [[D [HD HM]] [HeM Hincl]]].
    exists M. split; [exists D; split; [now apply (desc_child m c D)|exact HM]|]. split; [exact HeM|].
    intros x Hx. apply in_or_app. right. apply in_or_app. right. apply in_flat_map. exists c. split; [exact Hc|now apply Hincl].
Qed.

(* where a registered component comes from: a visited message P and a member M of its family, all of
   whose components are registered *)
Definition provenance (vis : list str) (sets : list (str * ynode)) (e : str * ynode) : Prop :=
  exists P M, In (m_name P) vis /\ lookup_message sc (m_name P) = Some P /\ fam P M /\ In e (oss M) /\ incl (oss M) sets.

Lemma provenance_mono vis vis' sets sets' e :
  incl vis vis' -> incl sets sets' -> provenance vis sets e -> provenance vis' sets' e.
Proof.
  intros Hv Hs (P & M & H1 & H2 & H3 & H4 & H5). exists P, M. repeat split; try assumption.
  - now apply Hv.
  - intros x Hx. now apply Hs, H5.
Qed.

(* What holds of the collector's state after any number of steps: (1) a visited name that is not a message of
   the schema is recorded as unknown — so an empty cs_unknown means every visited name resolves; (2) every
   registered component has a provenance — which is how a component is traced back to the message it
   describes; (3) a visited message has all of its own components registered. *)
Definition collected_ok (st : cstate) : Prop :=
  (forall x, In x (cs_visited st) -> lookup_message sc x = None -> In x (cs_unknown st)) /\
  (forall e, In e (cs_sets st) -> provenance (cs_visited st) (cs_sets st) e) /\
  (forall x m, In x (cs_visited st) -> lookup_message sc x = Some m -> incl (oss m) (cs_sets st)).

(* x's field types and nested declarations have been visited *)
Definition targets_visited (b : cstate) (x : str) : Prop :=
  forall m, lookup_message sc x = Some m ->
    incl (field_targets m) (cs_visited b) /\ (forall c, In c (declared_nested sc m) -> In (m_name c) (cs_visited b)).

(* How a later state b relates to an earlier a: nothing visited or registered is lost, and whatever was
   visited in between has had its field types and nested declarations visited by the time of b.  The third
   conjunct is what makes the visited set of the final state closed under reference. *)
Definition grows (a b : cstate) : Prop :=
  incl (cs_visited a) (cs_visited b) /\ incl (cs_sets a) (cs_sets b) /\
  (forall x, In x (cs_visited b) -> ~ In x (cs_visited a) -> targets_visited b x).

Lemma targets_visited_mono a b x : incl (cs_visited a) (cs_visited b) -> targets_visited a x -> targets_visited b x.
Proof.
  intros Hv H m Hm. destruct (H m Hm) as [H1 H2]. split.
  - intros t Ht. apply Hv, H1, Ht.
  - intros c Hc. apply Hv, H2, Hc.
Qed.

Lemma grows_refl a : grows a a.
Proof. split; [apply incl_refl|split; [apply incl_refl|]]. intros x H1 H2. contradiction. Qed.

Lemma grows_trans a b c : grows a b -> grows b c -> grows a c.
Proof.
  intros [V1 [S1 C1]] [V2 [S2 C2]]. split; [|split].
  - eapply incl_tran; eassumption.
  - eapply incl_tran; eassumption.
  - intros x Hx Hnx. destruct (in_dec (list_eq_dec Ascii.ascii_dec) x (cs_visited b)) as [Hb|Hb].
    + apply (targets_visited_mono b c); [assumption|]. apply (C1 x Hb Hnx).
    + apply (C2 x Hx Hb).
Qed.

(* a fold of partial steps, each of which keeps collected_ok and moves along grows *)
Lemma fold_opt {X} (step : option cstate -> X -> option cstate) (Pre : cstate -> Prop) (Post : X -> cstate -> Prop) :
  (forall x, step None x = None) ->
  (forall x c b, Post x c -> grows c b -> Post x b) ->
  (forall a b, Pre a -> grows a b -> collected_ok b -> Pre b) ->
  forall xs,
  (forall x a c, In x xs -> step (Some a) x = Some c -> Pre a -> collected_ok a -> collected_ok c /\ grows a c /\ Post x c) ->
  forall a b, fold_left step xs (Some a) = Some b -> Pre a -> collected_ok a ->
  collected_ok b /\ grows a b /\ forall x, In x xs -> Post x b.
Proof.
  intros Hnone Hmono Hpre xs. induction xs as [|x xs IH]; intros Hstep a b Hab Ha HJ.
  - injection Hab as <-. split; [exact HJ|]. split; [apply grows_refl|intros x []].
  - cbn [fold_left] in Hab. destruct (step (Some a) x) as [c|] eqn:Ec.
    2:{ rewrite (fold_left_none step Hnone) in Hab. discriminate. }
    destruct (Hstep x a c (or_introl eq_refl) Ec Ha HJ) as [Jc [Gac Px]].
    assert (Hc : Pre c) by (apply (Hpre a c); assumption).
    destruct (IH (fun y a' c' Hy => Hstep y a' c' (or_intror Hy)) c b Hab Hc Jc) as [Jb [Gcb Pxs]].
    split; [exact Jb|]. split; [eapply grows_trans; eassumption|].
    intros y [<-|Hy]; [now apply (Hmono _ c b)|now apply Pxs].
Qed.

Lemma collected_ok_add_sets a l :
  collected_ok a -> (forall e, In e l -> provenance (cs_visited a) (cs_sets a ++ l) e) ->
  collected_ok {| cs_visited := cs_visited a; cs_sets := cs_sets a ++ l; cs_unknown := cs_unknown a |}.
Proof.
  intros [Hunk [Hprov Hown]] Hl. split; [exact Hunk|split]; cbn [cs_visited cs_sets cs_unknown].
  - intros e He. apply in_app_or in He as [He|He]; [|exact (Hl e He)].
    apply (provenance_mono _ _ _ _ e (incl_refl _) (incl_appl l (incl_refl _))), Hprov, He.
  - intros x m Hx Hm y Hy. apply in_or_app. left. exact (Hown x m Hx Hm y Hy).
Qed.

Lemma collected_ok_unknown st fq : collected_ok st -> lookup_message sc fq = None ->
  collected_ok {| cs_visited := fq :: cs_visited st; cs_sets := cs_sets st; cs_unknown := fq :: cs_unknown st |}.
Proof.
  intros [Hunk [Hprov Hown]] El. split; [|split]; cbn [cs_visited cs_sets cs_unknown].
  - intros x [<-|Hx] Hl; [now left|right; now apply Hunk].
  - intros e He. apply (provenance_mono _ _ _ _ e (incl_tl fq (incl_refl _)) (incl_refl _)), Hprov, He.
  - intros x m [<-|Hx] Hm; [congruence|]. exact (Hown x m Hx Hm).
Qed.

(* the state after registering the components of m = the message fq names *)
Lemma collected_ok_visit st fq m N : collected_ok st -> lookup_message sc fq = Some m ->
  collected_ok {| cs_visited := fq :: cs_visited st; cs_sets := cs_sets st ++ process_message sc sd (S N) m;
       cs_unknown := cs_unknown st |}.
Proof.
  intros [Hunk [Hprov Hown]] El. pose proof (lookup_name fq m El) as Hname.
  split; [|split]; cbn [cs_visited cs_sets cs_unknown].
  - intros x [<-|Hx] Hl; [congruence|now apply Hunk].
  - intros e He. apply in_app_or in He as [He|He].
    + apply (provenance_mono _ _ _ _ e (incl_tl fq (incl_refl _)) (incl_appl _ (incl_refl _))), Hprov, He.
    + destruct (process_message_prov (S N) m e He) as [M [HM [HeM Hincl]]]. exists m, M.
      rewrite Hname. repeat split; try assumption; [now left|].
      intros x Hx. apply in_or_app. right. now apply Hincl.
  - intros x m' [<-|Hx] Hm' y Hy.
    + assert (m' = m) by congruence. subst m'. apply in_or_app. right. cbn [process_message].
      apply in_or_app. now left.
    + apply in_or_app. left. exact (Hown x m' Hx Hm' y Hy).
Qed.

(* one field of m, given the invariant for the recursive calls *)
Lemma step_field_inv f m :
  (forall st t st', collect sc sd f st t = Some st' -> collected_ok st -> collected_ok st' /\ grows st st' /\ In t (cs_visited st')) ->
  lookup_message sc (m_name m) = Some m ->
  forall fd a c, In fd (m_fields m) -> step_field f m (Some a) fd = Some c -> In (m_name m) (cs_visited a) -> collected_ok a ->
  collected_ok c /\ grows a c /\ forall tn, f_kind fd = KMessage tn -> In tn (cs_visited c).
Proof.
  intros IH El fd a c Hfd Hstep Hfq Ja. unfold step_field in Hstep.
  set (a' := if is_map fd then _ else a) in Hstep.
  assert (Ha' : collected_ok a' /\ grows a a').
  { unfold a'. destruct (is_map fd) eqn:Emap; [|split; [exact Ja|apply grows_refl]]. split.
    - apply collected_ok_add_sets; [exact Ja|]. intros e He. exists m, (entry_message m fd).
      repeat split; try assumption.
      + exists m. split; [apply desc_refl|]. right. unfold entry_messages. apply in_map. apply filter_In. now split.
      + intros x Hx. apply in_or_app. now right.
    - split; [apply incl_refl|split]; cbn [cs_visited cs_sets].
      + intros x Hx. apply in_or_app. now left.
      + intros x Hx Hnx. contradiction. }
  destruct Ha' as [Ja' Gaa'].
  destruct (f_kind fd) as [| | | | | | | | | | | | | | |tn|tn] eqn:Ek;
    try (injection Hstep as <-; split; [exact Ja'|split; [exact Gaa'|intros tn' Hk'; discriminate]]).
  destruct (IH _ _ _ Hstep Ja') as [Jc [Ga'c Hin]].
  split; [exact Jc|]. split; [eapply grows_trans; eassumption|]. intros tn' [= <-]. exact Hin.
Qed.

Theorem collect_inv f : forall st fq st', collect sc sd f st fq = Some st' -> collected_ok st ->
  collected_ok st' /\ grows st st' /\ In fq (cs_visited st').
Proof.
  induction f as [|f IH]; intros st fq st' H HJ; [discriminate|].
  rewrite collect_S in H.
  destruct (mem_str fq (cs_visited st)) eqn:Ev.
  { injection H as <-. split; [exact HJ|]. split; [apply grows_refl|now apply mem_str_In]. }
  assert (Hnv : ~ In fq (cs_visited st)) by (intros Hin; apply mem_str_In in Hin; congruence).
  destruct (lookup_message sc fq) as [m|] eqn:El.
  2:{ injection H as <-. split; [now apply collected_ok_unknown|]. split; [|now left].
      split; [apply incl_tl, incl_refl|split; [apply incl_refl|]].
      intros x [<-|Hx] Hnx; [|contradiction]. intros m Hm. congruence. }
  pose proof (lookup_name fq m El) as Hname. rewrite <- Hname in El.
  set (st1 := {| cs_visited := fq :: cs_visited st; cs_sets := _; cs_unknown := cs_unknown st |}) in H.
  assert (J1st : collected_ok st1) by (apply collected_ok_visit; [exact HJ|now rewrite <- Hname]).
  destruct (fold_left (step_field f m) (m_fields m) (Some st1)) as [st2|] eqn:E2.
  2:{ rewrite (fold_left_none (step_msg f)) in H by reflexivity. discriminate. }
  destruct (fold_opt (step_field f m) (fun a => In (m_name m) (cs_visited a))
              (fun fd b => forall tn, f_kind fd = KMessage tn -> In tn (cs_visited b))) with (xs := m_fields m) (a := st1) (b := st2)
    as [J2 [G12 T2]]; try assumption.
  { reflexivity. }
  { intros fd c b Hc [Vcb _] tn Hk. apply Vcb. now apply Hc. }
  { intros a b Ha [Vab _] _. now apply Vab. }
  { intros fd a c. now apply step_field_inv. }
  { rewrite Hname. now left. }
  destruct (fold_opt (step_msg f) (fun _ => True) (fun t b => In t (cs_visited b)))
    with (xs := map m_name (declared_nested sc m)) (a := st2) (b := st') as [J' [G2' T']]; try assumption; try exact I.
  { reflexivity. }
  { intros t c b Hc [Vcb _]. now apply Vcb. }
  { intros; exact I. }
  { intros t a c _ Hstep _ Ja. exact (IH _ _ _ Hstep Ja). }
  destruct (grows_trans _ _ _ G12 G2') as [V1 [S1 C1]].
  split; [exact J'|]. split; [|apply V1; now left].
  split; [|split].
  - intros x Hx. apply V1. now right.
  - intros x Hx. apply S1, in_or_app. now left.
  - intros x Hx Hnx. destruct (str_eqb x fq) eqn:Ex.
    + apply str_eqb_eq in Ex. subst x. rewrite <- Hname. intros m' Hm'. assert (m' = m) by congruence. subst m'. split.
      * intros t Ht. unfold field_targets in Ht. apply in_flat_map in Ht as [fd [Hfd Hk]].
        destruct (f_kind fd) as [| | | | | | | | | | | | | | |tn|tn] eqn:Ek; try (destruct Hk; fail).
        destruct Hk as [<-|[]]. apply (proj1 G2'). exact (T2 fd Hfd tn Ek).
      * intros c Hc. apply T'. now apply in_map.
    + apply C1; [exact Hx|]. cbn [st1 cs_visited]. intros [<-|Hx1]; [now rewrite str_eqb_refl in Ex|contradiction].
Qed.

Definition empty_state : cstate := {| cs_visited := []; cs_sets := []; cs_unknown := [] |}.

Theorem collect_service_inv sv st : collect_service sc sd sv = Some st ->
  collected_ok st /\ (forall x, In x (cs_visited st) -> targets_visited st x) /\ (forall r, In r (method_roots sv) -> In r (cs_visited st)).
Proof.
  intros H. unfold collect_service in H.
  destruct (fold_opt (fun acc t => match acc with Some a => collect sc sd (collect_fuel sc) a t | None => None end)
              (fun _ => True) (fun r b => In r (cs_visited b)))
    with (xs := method_roots sv) (a := empty_state) (b := st) as [Jst [Gst Hroots]]; try exact I; try exact H.
  { reflexivity. }
  { intros t c b Hc [Vcb _]. now apply Vcb. }
  { intros; exact I. }
  { intros t a c _ Hstep _ Ja. exact (collect_inv _ _ _ _ Hstep Ja). }
  { split; [intros x []|split; [intros e []|intros x m []]]. }
  split; [exact Jst|]. split; [|exact Hroots].
  intros x Hx. apply (proj2 (proj2 Gst) x Hx). intros [].
Qed.

Lemma omap_set_keys {A} k (v : A) l x : In x (map fst l) \/ x = k -> In x (map fst (omap_set k v l)).
Proof.
  induction l as [|[k' v'] r IH]; cbn; intros H.
  - destruct H as [ [] | -> ]. now left.
  - destruct (str_eqb k k') eqn:E; cbn.
    + apply str_eqb_eq in E. subst. destruct H as [ [<-|H] | -> ]; [now left|now right|now left].
    + destruct H as [ [<-|H] | -> ]; [now left| |]; right; apply IH; [now left|now right].
Qed.
Lemma omap_of_keys {A} (l : list (str * A)) x : In x (map fst l) -> In x (map fst (omap_of l)).
Proof.
  unfold omap_of. assert (G' : forall acc, In x (map fst acc) \/ In x (map fst l) ->
                               In x (map fst (fold_left (fun acc e => omap_set (fst e) (snd e) acc) l acc))).
  { induction l as [|[k v] r IH]; intros acc H; cbn [fold_left].
    - destruct H as [H|[]]. exact H.
    - apply IH. cbn [fst snd map] in *. destruct H as [H|[<-|H]].
      + left. apply omap_set_keys. now left.
      + left. apply omap_set_keys. now right.
      + now right. }
  intros H. apply G'. now right.
Qed.

Lemma omap_set_in {A} k (v : A) l e : In e (omap_set k v l) -> e = (k, v) \/ In e l.
Proof.
  induction l as [|[k' v'] r IH]; cbn [omap_set]; intros H.
  - destruct H as [<-|[]]. now left.
  - destruct (str_eqb k k').
    + destruct H as [<-|H]; [now left|right; now right].
    + destruct H as [<-|H]; [right; now left|]. destruct (IH H) as [->|H']; [now left|right; now right].
Qed.

Lemma omap_of_in {A} (l : list (str * A)) e : In e (omap_of l) -> In e l.
Proof.
  unfold omap_of.
  assert (G : forall acc, In e (fold_left (fun acc e => omap_set (fst e) (snd e) acc) l acc) -> In e acc \/ In e l).
  { induction l as [|[k v] r IH]; intros acc H; cbn [fold_left] in H; [now left|].
    apply IH in H as [H|H]; [|right; now right]. cbn [fst snd] in H.
    apply omap_set_in in H as [->|H]; [right; now left|now left]. }
  intros H. apply G in H as [[]|H]. exact H.
Qed.

Lemma set_names_in_components sets n : In n (map fst sets) -> In n (map fst (components_of_sets sets)).
Proof. intros H. unfold components_of_sets. apply omap_of_keys. rewrite map_app. apply in_or_app. now right. Qed.

Lemma visited_have_components sv st x m : collect_service sc sd sv = Some st ->
  In x (cs_visited st) -> lookup_message sc x = Some m ->
  In (short_name x) (map fst (components_of_sets (cs_sets st))).
Proof.
  intros Hc Hx Hm. destruct (collect_service_inv sv st Hc) as [[_ [_ Hown]] _].
  apply set_names_in_components. rewrite <- (lookup_name x m Hm).
  pose proof (object_schema_sets_has_name m) as Hn. apply in_map_iff in Hn as [e [E He]].
  apply in_map_iff. exists e. split; [exact E|]. exact (Hown x m Hx Hm e He).
Qed.

Lemma reachable_visited sv st : collect_service sc sd sv = Some st ->
  forall fq, reachable (method_roots sv) fq -> In fq (cs_visited st).
Proof.
  intros Hc. destruct (collect_service_inv sv st Hc) as [_ [Hcl Hroots]].
  induction 1 as [r Hr|a b Ha IHa Hb]; [now apply Hroots|].
  unfold targets in Hb. destruct (lookup_message sc a) as [m|] eqn:El; [|destruct Hb].
  exact (proj1 (Hcl a IHa m El) b Hb).
Qed.

Theorem reachable_have_schemas sv st :
  collect_service sc sd sv = Some st ->
  forall fq m, reachable (method_roots sv) fq -> lookup_message sc fq = Some m ->
  In (short_name fq) (map fst (components_of_sets (cs_sets st))).
Proof. intros Hc fq m Hr Hm. exact (visited_have_components sv st fq m Hc (reachable_visited sv st Hc fq Hr) Hm). Qed.

End Reach.

Lemma ref_resolves_name cs x : In x (map fst cs) -> ref_resolves cs (ref_prefix ++ x) = true.
Proof.
  intros H. unfold ref_resolves. rewrite has_prefix_app, skipn_app_len. now apply mem_str_In.
Qed.

Lemma param_schema_refs k : refs_of (param_schema k) = [].
Proof. destruct k; reflexivity. Qed.

Lemma flat_map_refs_map {A} (g : A -> ynode) l : (forall a, refs_of (g a) = []) -> flat_map refs_of (map g l) = [].
Proof. intros Hg. induction l as [|a l IH]; [reflexivity|]. cbn [map flat_map]. now rewrite Hg, IH. Qed.

Lemma op_parameters_refs sc sv md :
  flat_map refs_of (map (fun p => match p with (n, l, r, sch) => parameter_node n l r sch end) (op_parameters sc sv md)) = [].
Proof.
  unfold op_parameters. rewrite !map_app, !flat_map_app, !map_map.
  rewrite !flat_map_refs_map; try reflexivity.
  - intros f. cbn. rewrite param_schema_refs. reflexivity.
  - intros v. cbn. destruct (find_field (input_fields sc md) v); [rewrite param_schema_refs|]; reflexivity.
  - intros h. cbn. destruct (h_format h); reflexivity.
Qed.

Lemma operation_refs sc sv md :
  refs_of (operation_node sc sv md) =
  (if verb_has_body (verb_of_method md) then [ref_prefix ++ short_name (md_in md)] else []) ++
  [ref_prefix ++ short_name (md_out md); ref_prefix ++ s "ValidationError"; ref_prefix ++ s "Error"].
Proof.
  unfold operation_node. cbn [refs_of]. rewrite !flat_map_app.
  assert (Hp : flat_map (fun e => entry_refs (fst e) (snd e) (refs_of (snd e)))
                 match op_parameters sc sv md with
                 | [] => []
                 | _ :: _ => [(s "parameters", YSeq (map (fun p => match p with (n, l, r, sch) => parameter_node n l r sch end) (op_parameters sc sv md)))]
                 end = []).
  { destruct (op_parameters sc sv md) eqn:E; [reflexivity|]. rewrite <- E. cbn [flat_map fst snd refs_of]. rewrite op_parameters_refs. reflexivity. }
  rewrite Hp. destruct (verb_has_body (verb_of_method md)); reflexivity.
Qed.

Theorem refs_resolve_operations sc sd sv st :
  collect_service sc sd sv = Some st ->
  forall md, In md (sv_methods sv) ->
  lookup_message sc (md_in md) <> None -> lookup_message sc (md_out md) <> None ->
  forall t, In t (refs_of (operation_node sc sv md)) ->
  ref_resolves (components_of_sets (cs_sets st)) t = true.
Proof.
  intros Hc md Hmd Hin Hout t Ht. rewrite operation_refs in Ht.
  assert (Hroot : forall fq, In fq [md_in md; md_out md] -> lookup_message sc fq <> None ->
                    In (short_name fq) (map fst (components_of_sets (cs_sets st)))).
  { intros fq Hfq Hl. destruct (lookup_message sc fq) as [m|] eqn:El; [|congruence].
    eapply (reachable_have_schemas sc sd sv st Hc fq m); [|exact El].
    apply R_root. unfold method_roots. apply in_flat_map. exists md. split; assumption. }
  assert (Hb : forall n, In n [s "ValidationError"; s "Error"] -> In n (map fst (components_of_sets (cs_sets st)))).
  { intros n Hn. unfold components_of_sets. apply omap_of_keys. rewrite map_app. apply in_or_app. left.
    cbn. destruct Hn as [<-|[<-|[]]]; auto. }
  apply in_app_or in Ht as [Ht|Ht].
  - destruct (verb_has_body (verb_of_method md)); [|destruct Ht]. destruct Ht as [<-|[]].
    apply ref_resolves_name, Hroot; [now left|assumption].
  - destruct Ht as [<-|[<-|[<-|[]]]]; apply ref_resolves_name.
    + apply Hroot; [right; now left|assumption].
    + apply Hb. now left.
    + apply Hb. right. now left.
Qed.

(* what an empty defect list says, a field for each defect *)
Record c18_clean sc sv st d : Prop := {
  c18_names : has_dup (map short_name (collected_messages sc st)) = false;
  c18_builtin : existsb (fun n => mem_str n builtin_names) (map short_name (collected_messages sc st)) = false;
  c18_headers : existsb (fun md => has_dup (map lower_str (op_header_names sc sv md))) (sv_methods sv) = false;
  c18_routes : has_dup_key (route_keys sv) = false;
  c18_vars : existsb (fun md => has_dup (declared_vars sv md)) (sv_methods sv) = false;
  c18_base : has_lbrace (sv_base sv) = false;
  c18_queries : existsb (fun md => has_dup (op_query_names sc md)) (sv_methods sv) = false;
  c18_yaml11 : existsb (fun e => yaml11_bool_word (snd e)) (scalars d) = false
}.

Lemma defects_C18_nil sc sd sv st d :
  collect_service sc sd sv = Some st -> document_y sc sd sv = Some d -> defects_C18 sc sd sv = [] ->
  c18_clean sc sv st d.
Proof.
  intros Hc Hd H. unfold defects_C18 in H. rewrite Hc, Hd in H.
  apply app_eq_nil in H as [H1 H]. apply app_eq_nil in H as [H2 H]. apply app_eq_nil in H as [H3 H].
  apply app_eq_nil in H as [H4 H]. apply app_eq_nil in H as [H5 H]. apply app_eq_nil in H as [H6 H].
  apply app_eq_nil in H as [H7 H8].
  split; [exact (if_nil _ _ H1)|exact (if_nil _ _ H2)|exact (if_nil _ _ H3)|exact (if_nil _ _ H4)|exact (if_nil _ _ H5)
         |exact (if_nil _ _ H6)|exact (if_nil _ _ H7)|exact (if_nil _ _ H8)].
Qed.

Lemma defects_C18_nil_method sc sd sv st d md :
  collect_service sc sd sv = Some st -> document_y sc sd sv = Some d -> defects_C18 sc sd sv = [] ->
  In md (sv_methods sv) ->
  has_dup (map lower_str (op_header_names sc sv md)) = false /\ has_dup (declared_vars sv md) = false /\
  has_dup (op_query_names sc md) = false.
Proof.
  intros Hc Hd Hg Hmd. pose proof (defects_C18_nil _ _ _ _ _ Hc Hd Hg) as C.
  repeat split; [exact (proj1 (existsb_false _ _) (c18_headers _ _ _ _ C) md Hmd)
                |exact (proj1 (existsb_false _ _) (c18_vars _ _ _ _ C) md Hmd)
                |exact (proj1 (existsb_false _ _) (c18_queries _ _ _ _ C) md Hmd)].
Qed.
