(* UnwrapMapFacts.v — the map-value unwrap codec (internal/httpgen/unwrap.go:356-522) in general:
   MarshalJSON   = one entry per populated field, in declaration order: an unwrap map as an object of arrays
                   (message items through protojson, scalar items through encoding/json), message siblings
                   through protojson, every other sibling through encoding/json;
   UnmarshalJSON = the same field by field; a map value is rebuilt as the wrapper &T{F: items}.
   Hence the round trip (C04) up to [norm] (= the other fields of a wrapper are lost) for every message
   whose codec is the map-value unwrap one, for all schemas and all well-typed values that meet the two side
   conditions [gj_enums_rt] and [reflected_maps_plain]: [unwrap_map_roundtrip].
   A sibling map whose values are messages without an unwrap field goes through encoding/json's REFLECTION
   over the Go struct; that is read back for un-annotated values (no codec-owning message below; Timestamp =
   {seconds, nanos}): [gj_reflect_roundtrip], by induction on the value.
   UnmarshalJSON sets fields in declaration order, values list them in field-number order: [assemble_strip].
   At the end witnesses: non-vacuity, one refutation per side condition, the remainder. *)
From Coq Require Import Lia ZArith List Permutation.
From Sebuf Require Import CodecCases.
From SebufProofs Require Import TextFacts ListFacts CodecTextFacts ProtoJsonFacts CodecExamples CodecFacts CodecBase GoJsonFacts UnwrapRootFacts.
From SebufProofs Require NullableFacts EmptyFacts TimestampFacts.
Import ListNotations.

Open Scope Z_scope.

(* the number of an enum value written by an emitted enum MarshalJSON is read back by UnmarshalJSON: the number
   is declared (an undefined number is written as "99" and refused) and the text written for it — custom
   enum_value or proto name — names, first, a value with the same number *)
Definition enum_gj_rt (sc : schema) (k : kind) (n : Z) : bool :=
  match k with
  | KEnum tn =>
      match find_enum (all_enums sc) tn with
      | Some e =>
          negb (enum_codec e) ||
          match ev_by_number (e_values e) n with
          | Some v => match ev_by_json (e_values e) (ev_json v) with
                      | Some v' => ev_number v' =? n
                      | None => false
                      end
          | None => false
          end
      | None => true
      end
  | _ => true
  end.

Definition sval_gj_ok (sc : schema) (k : kind) (x : sval) : bool :=
  match x with VEnum n => enum_gj_rt sc k n | _ => true end.

Section Scalars.
Variable E : ExtLib.
Hypothesis EL : ExtLaws E.
Variable sc : schema.

Lemma sval_gj_back k x : sval_gj_ok sc k x = true -> forall n, x = VEnum n -> enum_back sc k n = true.
Proof. intros H n Hx. subst x. exact H. Qed.

Lemma gj_scalar_not_null k x j : gj_scalar E sc k x = ROk j -> j <> JNull.
Proof. exact (GoJsonFacts.gj_scalar_not_null E EL sc k x j). Qed.
End Scalars.

Section Loops.
Variable E : ExtLib.
Variable sc : schema.

(* UnmarshalJSON of the map-value unwrap codec: the value of one declared field *)
Definition dec_value (n : nat) (f : field) (v : json) : res (option fval) :=
  match f_card f with
  | MapOf kk =>
      match value_unwrap sc f with
      | Some uf => if is_repeated uf then unwrap_map_un E sc kk uf v >>= (fun x => ROk (Some x))
                   else RUnm (s "map value whose unwrap field is itself a map")
      | None => map_un E sc n kk (f_kind f) v
      end
  | Repeated =>
      if is_msg_kind (f_kind f) then pj_elems E sc (f_kind f) v >>= (fun l => ROk (Some (FL l)))
      else list_un E sc n (f_kind f) v
  | _ =>
      if is_msg_kind (f_kind f) then pj_elem E sc (f_kind f) v >>= (fun x => ROk (Some x))
      else gj_unscalar E sc (f_kind f) v >>= (fun o => ROk (option_map FS o))
  end.
Definition dec_field (n : nat) (raw : rawmap) (f : field) : res (option (field * fval)) :=
  match raw_get (jn f) raw with
  | None => ROk None
  | Some v => dec_value n f v >>= (fun o => ROk (option_map (fun x => (f, x)) o))
  end.

Lemma gj_un_unwrap_map n tn md raw :
  is_wkt_other tn = false -> lookup_message sc tn = Some md -> owner_of sc md = Own FtUnwrapMap ->
  buildable sc FtUnwrapMap md = true ->
  gj_un E sc (S n) (KMessage tn) (JObj raw) =
  rall (map (dec_field n raw) (m_fields md)) >>= (fun ofs => ROk (Some (FM (assemble (flat_map opt_list ofs))))).
Proof.
  intros H1 H2 H3 H4. cbn [gj_un]. apply (own_branch _ _ md _ FtUnwrapMap _ _ _ _ _ _ H1 H2 H3).
  rewrite H4. reflexivity.
Qed.

Lemma dec_value_scalar n f v : is_msg_kind (f_kind f) = false -> dec_value (S n) f v = un_value E sc (S n) f v.
Proof.
  intros Hk. unfold dec_value, un_value. rewrite (value_unwrap_scalar sc f Hk), Hk.
  destruct (f_card f); try reflexivity; symmetry; exact (gj_un_scalar E sc n (f_kind f) v Hk).
Qed.

(* MarshalJSON of the map-value unwrap codec: what it writes for a populated declared field, if anything *)
Definition enc_value (ks : kids_t) (f : field) (v : fval) : res (option json) :=
  match f_card f with
  | MapOf _ =>
      match value_unwrap sc f with
      | Some uf =>
          if is_repeated uf then
            match v with
            | FMap kv => unwrap_map_obj E sc uf kv >>= (fun j => ROk (Some j))
            | _ => RUnm (s "ill-typed map")
            end
          else RUnm (s "map value whose unwrap field is itself a map")
      | None => kid ks (f_name f) >>= (fun j => ROk (Some j))
      end
  | Repeated =>
      if is_msg_kind (f_kind f) then pj_list E sc (f_kind f) (Some v) >>= (fun j => ROk (Some j))
      else kid ks (f_name f) >>= (fun j => ROk (Some j))
  | _ =>
      if is_msg_kind (f_kind f) then pj_fval E sc (f_kind f) v >>= (fun j => ROk (Some j))
      else if go_zero (f_kind f) v then ROk None
      else kid ks (f_name f) >>= (fun j => ROk (Some j))
  end.
Definition opt_entry (f : field) (o : option json) : list (str * json) :=
  match o with Some j => [(jn f, j)] | None => [] end.
Definition enc_field (m : mval) (ks : kids_t) (f : field) : res (list (str * json)) :=
  match mget m (f_name f) with
  | None => ROk []
  | Some v => enc_value ks f v >>= (fun o => ROk (opt_entry f o))
  end.

Lemma enc_value_scalar ks f v : is_msg_kind (f_kind f) = false ->
  enc_value ks f v =
  if match f_card f with Singular | Optional => go_zero (f_kind f) v | _ => false end then ROk None
  else kid ks (f_name f) >>= (fun j => ROk (Some j)).
Proof. intros Hk. unfold enc_value. rewrite (value_unwrap_scalar sc f Hk), Hk. destruct (f_card f); reflexivity. Qed.

(* the step of the model's loop, its case tree copied verbatim so that [enc_unwrap_map_fold] holds by reflexivity;
   [enc_step_field] then says it is [enc_field] appended *)
Definition enc_step (m : mval) (ks : kids_t) (acc : res (list (str * json))) (f : field) : res (list (str * json)) :=
  acc >>= (fun out =>
    match mget m (f_name f) with
    | None => ROk out
    | Some v =>
        match f_card f with
        | MapOf _ =>
            match value_unwrap sc f with
            | Some uf =>
                if is_repeated uf then
                  match v with
                  | FMap kv => unwrap_map_obj E sc uf kv >>= (fun j => ROk (out ++ [(jn f, j)]))
                  | _ => RUnm (s "ill-typed map")
                  end
                else RUnm (s "map value whose unwrap field is itself a map")
            | None => kid ks (f_name f) >>= (fun j => ROk (out ++ [(jn f, j)]))
            end
        | Repeated =>
            if is_msg_kind (f_kind f) then pj_list E sc (f_kind f) (Some v) >>= (fun j => ROk (out ++ [(jn f, j)]))
            else kid ks (f_name f) >>= (fun j => ROk (out ++ [(jn f, j)]))
        | _ =>
            if is_msg_kind (f_kind f) then pj_fval E sc (f_kind f) v >>= (fun j => ROk (out ++ [(jn f, j)]))
            else if go_zero (f_kind f) v then ROk out
            else kid ks (f_name f) >>= (fun j => ROk (out ++ [(jn f, j)]))
        end
    end).

Lemma enc_unwrap_map_fold md m ks :
  enc_unwrap_map E sc md m ks = fold_left (enc_step m ks) (m_fields md) (ROk []) >>= (fun out => ROk (JObj out)).
Proof. reflexivity. Qed.

Lemma enc_step_field m ks acc f :
  enc_step m ks acc f = acc >>= (fun out => enc_field m ks f >>= (fun p => ROk (out ++ p))).
Proof.
  unfold enc_step, enc_field, enc_value. destruct acc as [out|e|w]; cbn [rbind]; try reflexivity.
  destruct (mget m (f_name f)) as [v|]; [|cbn [rbind]; rewrite app_nil_r; reflexivity].
  destruct (f_card f) as [| | |kk].
  - destruct (is_msg_kind (f_kind f)); [destruct (pj_fval E sc (f_kind f) v); reflexivity|].
    destruct (go_zero (f_kind f) v); [cbn [rbind opt_entry]; rewrite app_nil_r; reflexivity|].
    destruct (kid ks (f_name f)); reflexivity.
  - destruct (is_msg_kind (f_kind f)); [destruct (pj_fval E sc (f_kind f) v); reflexivity|].
    destruct (go_zero (f_kind f) v); [cbn [rbind opt_entry]; rewrite app_nil_r; reflexivity|].
    destruct (kid ks (f_name f)); reflexivity.
  - destruct (is_msg_kind (f_kind f)); [destruct (pj_list E sc (f_kind f) (Some v)); reflexivity|].
    destruct (kid ks (f_name f)); reflexivity.
  - destruct (value_unwrap sc f) as [uf|]; [|destruct (kid ks (f_name f)); reflexivity].
    destruct (is_repeated uf); [|reflexivity].
    destruct v as [x|cm|l|kv]; try reflexivity.
    destruct (unwrap_map_obj E sc uf kv); reflexivity.
Qed.

Lemma enc_step_fold m ks fs : forall acc,
  fold_left (enc_step m ks) fs acc =
  acc >>= (fun out => rall (map (enc_field m ks) fs) >>= (fun ps => ROk (out ++ List.concat ps))).
Proof.
  induction fs as [|f r IH]; intros acc; cbn [fold_left map rall List.concat].
  - destruct acc; cbn [rbind]; rewrite ?app_nil_r; reflexivity.
  - rewrite IH, enc_step_field. destruct acc as [out|e|w]; cbn [rbind]; try reflexivity.
    destruct (enc_field m ks f) as [p|e|w]; cbn [rbind]; try reflexivity.
    destruct (rall (map (enc_field m ks) r)) as [ps|e|w]; cbn [rbind]; try reflexivity.
    cbn [List.concat]. rewrite app_assoc. reflexivity.
Qed.

Lemma enc_unwrap_map_pieces md m ks :
  enc_unwrap_map E sc md m ks = rall (map (enc_field m ks) (m_fields md)) >>= (fun ps => ROk (JObj (List.concat ps))).
Proof.
  rewrite enc_unwrap_map_fold, enc_step_fold. cbn [rbind].
  destruct (rall (map (enc_field m ks) (m_fields md))); reflexivity.
Qed.

Lemma enc_field_shape m ks f p : enc_field m ks f = ROk p -> exists o, p = opt_entry f o.
Proof.
  unfold enc_field. intros H. destruct (mget m (f_name f)) as [v|].
  - apply rbind_ok in H. destruct H as [o [_ H]]. inversion H. exists o. reflexivity.
  - inversion H. exists None. reflexivity.
Qed.
End Loops.

Lemma wrapper_of_nil uf : wrapper_of uf [] = FM [].
Proof. reflexivity. Qed.

Section RT.
Variable E : ExtLib.
Hypothesis EL : ExtLaws E.
Variable sc : schema.

Definition gj_ok (k : kind) (v : fval) : bool := forallb (enum_gj_rt sc k) (enum_nums v).

Lemma gj_ok_FL_cons k x r : gj_ok k (FL (x :: r)) = gj_ok k x && gj_ok k (FL r).
Proof. unfold gj_ok. change (enum_nums (FL (x :: r))) with (enum_nums x ++ enum_nums (FL r)). apply forallb_app. Qed.
Lemma gj_ok_FMap_cons k key x r : gj_ok k (FMap ((key, x) :: r)) = gj_ok k x && gj_ok k (FMap r).
Proof. unfold gj_ok. change (enum_nums (FMap ((key, x) :: r))) with (enum_nums x ++ enum_nums (FMap r)). apply forallb_app. Qed.
Lemma gj_ok_FS k x : gj_ok k (FS x) = true -> sval_gj_ok sc k x = true.
Proof.
  destruct x; try reflexivity. unfold gj_ok. cbn [enum_nums forallb sval_gj_ok].
  rewrite Bool.andb_true_r. auto.
Qed.
Lemma gj_ok_back k v : gj_ok k v = true -> forall z, In z (enum_nums v) -> enum_back sc k z = true.
Proof. unfold gj_ok. intros H. exact (proj1 (forallb_forall _ _) H). Qed.

Definition wrappers_ok (uf : field) (kv : list (sval * fval)) : bool :=
  forallb (fun e => match snd e with
                    | FM wm => match mget wm (f_name uf) with Some x => gj_ok (f_kind uf) x | None => true end
                    | _ => true
                    end) kv.

Lemma wrappers_ok_back uf kv : wrappers_ok uf kv = true ->
  forall key wm x z, In (key, FM wm) kv -> mget wm (f_name uf) = Some x -> In z (enum_nums x) ->
                     enum_back sc (f_kind uf) z = true.
Proof.
  unfold wrappers_ok. intros H key wm x z Hin Hg Hz. rewrite forallb_forall in H. specialize (H _ Hin).
  cbn [snd] in H. rewrite Hg in H. exact (gj_ok_back _ x H z Hz).
Qed.

(* a message value through encoding/json's reflection over the protoc-gen-go struct and back
   (`json:"<proto_name>,omitempty"` tags; keys are proto names; int64 are numbers; nested structs recurse).
   Proved for un-annotated values: every message met owns no codec (a Timestamp is the struct {seconds, nanos}),
   no present-but-empty bytes field (omitempty drops it), enum numbers that are written and read back. *)
Fixpoint reflectable (k : kind) (v : fval) {struct v} : bool :=
  match v with
  | FS x => sval_gj_ok sc k x
  | FL l => (fix all (l : list fval) : bool := match l with [] => true | y :: t => reflectable k y && all t end) l
  | FMap kv => (fix all (kv : list (sval * fval)) : bool :=
                  match kv with [] => true | (_, y) :: t => reflectable k y && all t end) kv
  | FM cm =>
      match k with
      | KMessage tn =>
          if str_eqb tn ts_name then true else
          match find_message (all_messages sc) tn with
          | Some md =>
              match owner_of sc md with OwnNone => true | _ => false end &&
              (fix go (cm : list (str * fval)) : bool :=
                 match cm with
                 | [] => true
                 | (name, x) :: r =>
                     match find_field (m_fields md) name with
                     | Some f => negb (match x with FS (VBytes []) => true | _ => false end) &&
                                 reflectable (f_kind f) x && go r
                     | None => false
                     end
                 end) cm
          | None => false
          end
      | _ => false
      end
  end.

Definition refl_fields (md : message) : list (str * fval) -> bool :=
  fix go (cm : list (str * fval)) : bool :=
    match cm with
    | [] => true
    | (name, x) :: r =>
        match find_field (m_fields md) name with
        | Some f => negb (match x with FS (VBytes []) => true | _ => false end) && reflectable (f_kind f) x && go r
        | None => false
        end
    end.
Lemma reflectable_FM tn cm :
  reflectable (KMessage tn) (FM cm) =
  if str_eqb tn ts_name then true else
  match find_message (all_messages sc) tn with
  | Some md => match owner_of sc md with OwnNone => true | _ => false end && refl_fields md cm
  | None => false
  end.
Proof. reflexivity. Qed.
Lemma reflectable_FL_cons k y t : reflectable k (FL (y :: t)) = reflectable k y && reflectable k (FL t).
Proof. reflexivity. Qed.
Lemma reflectable_FMap_cons k key y t : reflectable k (FMap ((key, y) :: t)) = reflectable k y && reflectable k (FMap t).
Proof. reflexivity. Qed.

Lemma reflectable_elems k x y : reflectable k x = true -> In y (elems x) -> reflectable k y = true.
Proof.
  destruct x as [sx|cm|l|kv]; cbn [elems]; intros H Hy.
  - destruct Hy as [<-|[]]. exact H.
  - destruct Hy as [<-|[]]. exact H.
  - induction l as [|a t IH]; [destruct Hy|]. rewrite reflectable_FL_cons in H. apply andb_prop in H.
    destruct Hy as [<-|Hy]; [apply H|exact (IH (proj2 H) Hy)].
  - induction kv as [|[key a] t IH]; [destruct Hy|]. rewrite reflectable_FMap_cons in H. apply andb_prop in H.
    destruct Hy as [<-|Hy]; [apply H|exact (IH (proj2 H) Hy)].
Qed.

(* the statement proved by induction on the value; a list or a map is no value of a kind, it stands under a field
   and is read back when its elements are *)
Definition refl_rt (v : fval) : Prop :=
  forall k j n, wt sc k v = true -> reflectable k v = true -> gj_fval E sc k v = ROk j ->
                (json_size j <= n)%nat -> gj_un E sc (S n) k j = ROk (Some v).
Definition refl_rt_elems (v : fval) : Prop := forall y, In y (elems v) -> refl_rt y.
Lemma rt_of_elems v : refl_rt_elems v -> refl_rt v.
Proof.
  destruct v; intros H; try exact (H _ (or_introl eq_refl)); intros k j n Hwt; cbn [wt] in Hwt; discriminate Hwt.
Qed.

Lemma refl_entry_rt n f x j :
  refl_rt_elems x -> wt_entry sc f x = true -> reflectable (f_kind f) x = true ->
  gj_fval E sc (f_kind f) x = ROk j -> (json_size j < n)%nat -> un_value E sc n f j = ROk (Some x).
Proof.
  intros HR Hwe Hr Hj Hn. destruct n as [|n]; [lia|].
  apply (un_value_rt E sc (S n) f x j Hwe Hj). intros y b Hy Hb Hle.
  apply (HR y Hy (f_kind f) b n (wt_entry_elems sc f x y Hwe Hy) (reflectable_elems _ x y Hr Hy) Hb). lia.
Qed.

Lemma refl_fields_rt n md cm : Forall (fun e => refl_rt_elems (snd e)) cm -> forall es,
  wt_fields sc md cm = true -> refl_fields md cm = true -> gj_msg E sc md cm = ROk es ->
  (json_size (JObj es) <= n)%nat ->
  exists fvs, rall (map (un_field E sc n md) es) = ROk (map Some fvs) /\ Forall2 (rel md) cm fvs /\
              key_fields md es = map fst fvs.
Proof.
  induction 1 as [|[name x] r Hx _ IH]; intros es Hw Hr Hj Hn.
  - inversion Hj. exists []. split; [reflexivity|split; [constructor|reflexivity]].
  - cbn [wt_fields] in Hw. cbn [refl_fields] in Hr.
    destruct (find_field (m_fields md) name) as [f|] eqn:Ef; [|discriminate Hw].
    apply andb_prop in Hw. destruct Hw as [Hwe Hwr].
    apply andb_prop in Hr. destruct Hr as [Hr Hrr]. apply andb_prop in Hr. destruct Hr as [Hnb Hrx].
    rewrite (gj_msg_cons E sc md name x r f Ef (proj1 (Bool.negb_true_iff _) Hnb)) in Hj.
    apply rbind_ok in Hj. destruct Hj as [j [Hjx Hj]].
    apply rbind_ok in Hj. destruct Hj as [t [Ht Hj]]. inversion Hj; subst es.
    rewrite json_size_obj_cons in Hn. pose proof (json_size_pos j). pose proof (json_size_pos (JObj t)).
    destruct (IH t Hwr Hrr Ht) as [fvs [Hu [Hrel Hkf]]]; [lia|].
    cbn [snd] in Hx.
    assert (Hdec : un_value E sc n f j = ROk (Some x)) by (apply (refl_entry_rt n f x j Hx Hwe Hrx Hjx); lia).
    exists ((f, x) :: fvs). split; [|split].
    + cbn [map rall]. unfold un_field at 1. cbn [fst snd]. rewrite (field_by_fold_exact md name f Ef), Hdec.
      cbn [rbind option_map]. rewrite Hu. reflexivity.
    + constructor; [|exact Hrel]. unfold rel. cbn [fst snd]. split; [exact Ef|]. split; [reflexivity|].
      exact (proj1 (wt_entry_inv sc f x Hwe)).
    + unfold key_fields in *. cbn [flat_map map fst]. rewrite (field_by_fold_exact md name f Ef), Hkf. reflexivity.
Qed.

Lemma reflect_msg_rt tn md cm :
  Forall (fun e => refl_rt_elems (snd e)) cm ->
  is_wkt_other tn = false -> lookup_message sc tn = Some md -> owner_of sc md = OwnNone ->
  msg_ok md = true -> sorted_Z (map (fun e => num_of md (fst e)) cm) = true ->
  wt_fields sc md cm = true -> refl_fields md cm = true ->
  forall j n, gj_fval E sc (KMessage tn) (FM cm) = ROk j -> (json_size j <= n)%nat ->
  gj_un E sc (S n) (KMessage tn) j = ROk (Some (FM cm)).
Proof.
  intros HP Hwk Hlk Hown Hok Hsorted Hwf Hrf j n Hj Hn.
  rewrite (gj_fval_reflect E sc tn md cm Hwk Hlk Hown), (msg_ok_no_oneof_set md cm Hok) in Hj.
  apply rbind_ok in Hj. destruct Hj as [es [Hes Hj]]. inversion Hj; subst j.
  destruct (refl_fields_rt n md cm HP es Hwf Hrf Hes Hn) as [fvs [Hu [Hrel Hkf]]].
  (* the keys are the proto names of the populated fields: pairwise distinct, no field is addressed twice *)
  assert (Hnames : NoDup (map (fun e : field * fval => f_name (fst e)) fvs)).
  { assert (Heq : map (fun e : field * fval => f_name (fst e)) fvs = map fst cm).
    { rewrite <- (rel_names md cm fvs Hrel) at 1. rewrite map_map. reflexivity. }
    rewrite Heq. exact (CodecBase.sorted_names_nodup md cm Hsorted). }
  rewrite (gj_un_struct E sc n tn md es fvs Hwk Hlk Hown Hok Hu Hkf Hnames).
  rewrite assemble_canon.
  - rewrite (rel_names md cm fvs Hrel). reflexivity.
  - rewrite (rel_nums md cm fvs Hrel). exact Hsorted.
  - exact (rel_pop md cm fvs Hrel).
Qed.
(* a canonical Timestamp value is a well-typed value of the struct {seconds int64, nanos int32} *)
Lemma ts_ok_fields cm :
  ts_ok cm = true ->
  sorted_Z (map (fun e => num_of ts_message (fst e)) cm) = true /\
  wt_fields sc ts_message cm = true /\ refl_fields ts_message cm = true.
Proof.
  assert (Hsec : forall z, ts_in_range z 0 = true -> in_int_range KInt64 z = true).
  { intros z Hr. apply TimestampFacts.ts_in_range_spec in Hr. apply TimestampFacts.in_i64. lia. }
  assert (Hnan : forall z, ts_in_range 0 z = true -> in_int_range KInt32 z = true).
  { intros z Hr. apply TimestampFacts.ts_in_range_spec in Hr. unfold in_int_range.
    change (int_lo KInt32) with (- 2147483648). change (int_hi KInt32) with 2147483647.
    apply andb_true_intro. split; apply Z.leb_le; lia. }
  assert (Hsplit : forall a b, ts_in_range a b = true -> ts_in_range a 0 = true /\ ts_in_range 0 b = true).
  { intros a b Hr. apply TimestampFacts.ts_in_range_spec in Hr. split; apply TimestampFacts.ts_in_range_spec; lia. }
  unfold ts_ok. destruct cm as [|[k1 v1] [|[k2 v2] [|e3 r]]].
  - intros _. repeat split.
  - destruct v1 as [[z| | | | | ]| | | ]; try discriminate.
    intros H. apply Bool.orb_true_iff in H. destruct H as [H|H];
      apply andb_prop in H; destruct H as [H Hr]; apply andb_prop in H; destruct H as [Hk Hz];
      apply str_eqb_eq in Hk; subst k1; apply Bool.negb_true_iff in Hz.
    + pose proof (Hsec z Hr) as Hi. split; [reflexivity|split; [|reflexivity]].
      cbn. rewrite Hi, Hz. reflexivity.
    + pose proof (Hnan z Hr) as Hi. split; [reflexivity|split; [|reflexivity]].
      cbn. rewrite Hi, Hz. reflexivity.
  - destruct v1 as [[a| | | | | ]| | | ]; try discriminate.
    destruct v2 as [[b| | | | | ]| | | ]; try discriminate.
    intros H. apply andb_prop in H. destruct H as [H Hrng]. apply andb_prop in H. destruct H as [H Hb0].
    apply andb_prop in H. destruct H as [H Ha0]. apply andb_prop in H. destruct H as [Hk1 Hk2].
    apply str_eqb_eq in Hk1. apply str_eqb_eq in Hk2. subst k1 k2.
    apply Bool.negb_true_iff in Ha0. apply Bool.negb_true_iff in Hb0.
    destruct (Hsplit a b Hrng) as [Hra Hrb].
    pose proof (Hsec a Hra) as Hia. pose proof (Hnan b Hrb) as Hib.
    split; [reflexivity|split; [|reflexivity]].
    cbn. rewrite Hia, Hib, Ha0, Hb0. reflexivity.
  - destruct v1 as [[a| | | | | ]| | | ]; try discriminate.
    destruct v2 as [[b| | | | | ]| | | ]; discriminate.
Qed.

Theorem reflect_roundtrip : forall v, refl_rt_elems v.
Proof.
  apply fval_ind'.
  - intros x y [<-|[]] k j n Hwt Hr Hj _. cbn [wt] in Hwt. apply andb_prop in Hwt. destruct Hwt as [Hk Hwt].
    apply Bool.negb_true_iff in Hk. rewrite gj_fval_FS in Hj.
    rewrite (gj_un_scalar E sc n k j Hk), (gj_scalar_rt E EL sc k x j Hwt (sval_gj_back sc k x Hr) Hj). reflexivity.
  - intros cm HP y [<-|[]] k j n Hwt Hr Hj Hn.
    destruct k as [| | | | | | | | | | | | | | | tn0 | tn]; try (cbn [wt] in Hwt; discriminate Hwt).
    rewrite reflectable_FM in Hr. rewrite wt_FM in Hwt.
    destruct (str_eqb tn ts_name) eqn:Hts.
    + (* Timestamp: the struct {seconds, nanos} *)
      apply str_eqb_eq in Hts. subst tn.
      destruct (ts_ok_fields cm Hwt) as [Hsorted [Hwf Hrf]].
      assert (Hlk : lookup_message sc ts_name = Some ts_message) by (unfold lookup_message; rewrite str_eqb_refl; reflexivity).
      exact (reflect_msg_rt ts_name ts_message cm HP eq_refl Hlk (ts_message_unowned sc) eq_refl
               Hsorted Hwf Hrf j n Hj Hn).
    + apply andb_prop in Hwt. destruct Hwt as [Hwk Hwt]. apply Bool.negb_true_iff in Hwk.
      destruct (find_message (all_messages sc) tn) as [md|] eqn:Hfm; [|discriminate Hr].
      apply andb_prop in Hr. destruct Hr as [Hown Hrf].
      assert (Hown' : owner_of sc md = OwnNone) by (destruct (owner_of sc md); try discriminate Hown; reflexivity).
      apply andb_prop in Hwt. destruct Hwt as [Hwt Hwf]. apply andb_prop in Hwt. destruct Hwt as [Hok Hsorted].
      exact (reflect_msg_rt tn md cm HP Hwk (find_lookup sc tn md Hts Hfm) Hown' Hok Hsorted Hwf Hrf j n Hj Hn).
  - intros l HP y Hy. exact (rt_of_elems y (proj1 (Forall_forall _ _) HP y Hy)).
  - intros kv HP y Hy. cbn [elems] in Hy. apply in_map_iff in Hy. destruct Hy as [e [<- He]].
    exact (rt_of_elems _ (proj1 (Forall_forall _ _) HP e He)).
Qed.

(* json.Unmarshal (json.Marshal v) = v for un-annotated values, with the fuel [decode] supplies *)
Corollary gj_reflect_roundtrip : forall v k j n,
  wt sc k v = true -> reflectable k v = true -> gj_fval E sc k v = ROk j -> (json_size j <= n)%nat ->
  gj_un E sc (S n) k j = ROk (Some v).
Proof. intros v. exact (rt_of_elems v (reflect_roundtrip v)). Qed.

Lemma buildable_field md f : buildable sc FtUnwrapMap md = true -> In f (m_fields md) ->
  match f_card f, f_oneof f with
  | Optional, _ => false | _, Some _ => false
  | MapOf kk, _ => match value_unwrap sc f with Some _ => kind_eqb kk KString | None => true end
  | _, _ => true
  end = true.
Proof. unfold buildable. intros H Hin. rewrite forallb_forall in H. exact (H f Hin). Qed.

Lemma needs_gj_scalar md f : is_msg_kind (f_kind f) = false -> needs_gj sc FtUnwrapMap md f = true.
Proof. intros Hk. cbn [needs_gj]. rewrite (value_unwrap_scalar sc f Hk), Hk. apply Bool.orb_true_r. Qed.

(* the enum numbers the codec hands to encoding/json (siblings, and the scalar items of the wrappers) are written
   and read back *)
Definition entry_gj_ok (f : field) (v : fval) : bool :=
  match value_unwrap sc f with
  | Some uf => match v with FMap kv => wrappers_ok uf kv | _ => true end
  | None => gj_ok (f_kind f) v
  end.
(* a sibling map whose values are messages without an unwrap field is rendered by reflection over the Go struct *)
Definition reflected_map (f : field) : bool :=
  is_map f && is_msg_kind (f_kind f) && match value_unwrap sc f with None => true | Some _ => false end.

(* what MarshalJSON writes for a populated field, UnmarshalJSON reads back, wrappers stripped; the fuel matters
   for the reflected map only *)
Lemma value_rt n md ks f v o :
  buildable sc FtUnwrapMap md = true -> In f (m_fields md) -> wt_entry sc f v = true ->
  (needs_gj sc FtUnwrapMap md f = true -> kid ks (f_name f) = gj_fval E sc (f_kind f) v) ->
  (f_card f = Singular -> go_zero (f_kind f) v = false) ->
  entry_gj_ok f v = true -> (reflected_map f = true -> reflectable (f_kind f) v = true) ->
  enc_value E sc ks f v = ROk o ->
  exists j, o = Some j /\ ((json_size j <= n)%nat -> dec_value E sc (S n) f j = ROk (Some (strip sc f v))).
Proof.
  intros Hb Hin Hwe Hkid Hz Hgj Hrefl Henc.
  pose proof (buildable_field md f Hb Hin) as Hbf. unfold entry_gj_ok in Hgj.
  destruct (is_msg_kind (f_kind f)) eqn:Emk.
  2:{ (* no message below the field: the child json.Marshal rendered, read by json.Unmarshal *)
    rewrite (enc_value_scalar E sc ks f v Emk) in Henc. rewrite (value_unwrap_scalar sc f Emk) in Hgj.
    assert (Hnz : match f_card f with Singular | Optional => go_zero (f_kind f) v | _ => false end = false).
    { destruct (f_card f); [exact (Hz eq_refl)|discriminate Hbf|reflexivity|reflexivity]. }
    rewrite Hnz, (Hkid (needs_gj_scalar md f Emk)) in Henc.
    apply rbind_ok in Henc. destruct Henc as [j [Hj Ho]]. inversion Ho; subst o. exists j. split; [reflexivity|]. intros _.
    rewrite (dec_value_scalar E sc n f j Emk). unfold strip. rewrite (value_unwrap_scalar sc f Emk).
    exact (proj1 (scalar_value_rt E EL sc n f v j Emk Hwe (gj_ok_back _ v Hgj) Hj)). }
  pose proof (wt_entry_card sc f v Hwe) as Hcard. unfold strip.
  revert Hz Hbf Hcard Henc Hrefl Hkid. cbn [needs_gj]. unfold enc_value, dec_value, reflected_map, is_map. rewrite Emk.
  destruct (f_card f) as [| | |kk] eqn:Ec; intros Hz Hbf Hcard Henc Hrefl Hkid.
  - (* a message: protojson both ways *)
    apply rbind_ok in Henc. destruct Henc as [j [Hj Ho]]. inversion Ho; subst o. exists j. split; [reflexivity|]. intros _.
    rewrite (elem_rt E EL sc (f_kind f) v j Hcard Hj), (value_unwrap_nonmap sc f) by (unfold is_map; rewrite Ec; reflexivity).
    reflexivity.
  - (* optional: the emitted code does not compile *)
    discriminate Hbf.
  - destruct Hcard as [l [Hv HF]]. subst v.
    apply rbind_ok in Henc. destruct Henc as [j [Hj Ho]]. inversion Ho; subst o. exists j. split; [reflexivity|]. intros _.
    rewrite (proj2 (msg_list_rt E EL sc (f_kind f) l j HF Hj)), (value_unwrap_repeated sc f Ec). reflexivity.
  - destruct Hcard as [kv [Hv [Hs HF]]]. subst v.
    destruct (value_unwrap sc f) as [uf|] eqn:Evu.
    + assert (Hkk : kk = KString) by (destruct (f_oneof f); [discriminate Hbf|exact (kind_eqb_string kk Hbf)]).
      subst kk. destruct (is_repeated uf) eqn:Erep; [|discriminate Henc].
      apply rbind_ok in Henc. destruct Henc as [j [Hj Ho]]. inversion Ho; subst o. exists j. split; [reflexivity|]. intros _.
      rewrite (proj2 (combined_rt E EL sc f KString uf kv j Evu Erep HF (wrappers_ok_back uf kv Hgj) Hs Hj)). reflexivity.
    + (* a map of messages without an unwrap field: reflection over the struct *)
      rewrite (Hkid eq_refl) in Henc.
      apply rbind_ok in Henc. destruct Henc as [j [Hj Ho]]. inversion Ho; subst o. exists j. split; [reflexivity|]. intros Hn.
      pose proof (un_value_rt E sc (S n) f (FMap kv) j Hwe Hj) as Hun. unfold un_value in Hun. rewrite Ec in Hun.
      apply Hun. intros y b Hy Hyb Hle.
      apply (gj_reflect_roundtrip y (f_kind f) b n (wt_entry_elems sc f _ y Hwe Hy) (reflectable_elems _ _ y (Hrefl eq_refl) Hy) Hyb).
      lia.
Qed.
End RT.

(* UnmarshalJSON sets the fields in declaration order; the value lists them in field-number order *)
Section Assemble.
Variable sc : schema.
Variable md : message.

Definition fv_of (m : mval) (f : field) : option (field * fval) :=
  match mget m (f_name f) with Some v => Some (f, strip sc f v) | None => None end.
Definition fv_at (e : str * fval) : list (field * fval) :=
  match find_field (m_fields md) (fst e) with Some f => [(f, strip sc f (snd e))] | None => [] end.

Lemma fv_at_entries m : wt_fields sc md m = true ->
  map (fun fv => (f_name (fst fv), snd fv)) (flat_map fv_at m) = map (EmptyFacts.sw_entry sc md) m /\
  map (fun fv => f_number (fst fv)) (flat_map fv_at m) = map (fun e => num_of md (fst e)) m.
Proof.
  induction m as [|[name v] r IH]; intros Hw; [split; reflexivity|]. cbn [wt_fields] in Hw.
  cbn [flat_map map]. unfold fv_at at 1 3, num_of at 1. cbn [fst snd].
  destruct (find_field (m_fields md) name) as [f|] eqn:Ef; [|discriminate Hw].
  apply andb_prop in Hw. destruct (IH (proj2 Hw)) as [H1 H2]. cbn [app map fst snd].
  rewrite H1, H2, (sw_entry_strip sc md name f v Ef), (proj2 (find_field_spec _ _ _ Ef)). split; reflexivity.
Qed.

Lemma assemble_strip m :
  msg_ok md = true -> sorted_Z (map (fun e => num_of md (fst e)) m) = true -> wt_fields sc md m = true ->
  assemble (flat_map (fun f => opt_list (fv_of m f)) (m_fields md)) = map (EmptyFacts.sw_entry sc md) m.
Proof.
  intros Hok Hsorted Hwf.
  pose proof (CodecBase.sorted_names_nodup md m Hsorted) as Hnames.
  destruct (fv_at_entries m Hwf) as [Hents Hnums].
  set (fvs := flat_map (fun f => opt_list (fv_of m f)) (m_fields md)).
  assert (Hin : forall x, In x fvs <-> In x (flat_map fv_at m)).
  { intros x. unfold fvs. rewrite !in_flat_map. split.
    - intros [f [Hf Hx]]. unfold fv_of in Hx. destruct (mget m (f_name f)) as [v|] eqn:Eg; [|destruct Hx].
      exists (f_name f, v). split; [exact (CodecBase.mget_pair m _ v Eg)|].
      unfold fv_at. cbn [fst snd]. rewrite (find_field_complete md f Hok Hf). exact Hx.
    - intros [[name v] [He Hx]]. unfold fv_at in Hx. cbn [fst snd] in Hx.
      destruct (find_field (m_fields md) name) as [f|] eqn:Ef; [|destruct Hx].
      destruct (find_field_spec _ _ _ Ef) as [Hf Hname]. exists f. split; [exact Hf|].
      unfold fv_of. rewrite Hname, (CodecBase.mget_nodup m name v Hnames He). exact Hx. }
  rewrite (assemble_perm fvs (flat_map fv_at m)).
  - exact Hents.
  - apply Forall_forall. intros x Hx. apply Hin, in_flat_map in Hx. destruct Hx as [[name v] [He Hx]].
    unfold fv_at in Hx. cbn [fst snd] in Hx.
    destruct (CodecBase.wt_fields_in sc md m name v Hwf He) as [f [Ef Hwe]]. rewrite Ef in Hx.
    destruct Hx as [<-|[]]. exact (populated_strip sc f v Hwe).
  - rewrite Hnums. exact Hsorted.
  - apply NoDup_Permutation; [| |exact Hin].
    + apply (NoDup_map_inv (fun fv : field * fval => f_number (fst fv))).
      apply (NoDup_flat_map_key _ f_number); [|apply nodup_Z_NoDup; unfold msg_ok in Hok; apply andb_prop in Hok; apply Hok].
      intros f _. unfold fv_of. destruct (mget m (f_name f)) as [v|]; [right|left; reflexivity].
      exists (f, strip sc f v). split; reflexivity.
    + apply (NoDup_map_inv (fun fv : field * fval => f_number (fst fv))). rewrite Hnums.
      exact (sorted_Z_NoDup _ Hsorted).
Qed.
End Assemble.

Section Main.
Variable E : ExtLib.
Hypothesis EL : ExtLaws E.
Variable sc : schema.

(* side condition 1: every enum number the codec hands to encoding/json — in a sibling field or among the scalar
   items of a wrapper — is written and read back by the emitted enum MarshalJSON / UnmarshalJSON *)
Definition gj_enums_rt (md : message) (m : mval) : bool :=
  forallb (fun e => match find_field (m_fields md) (fst e) with
                    | Some f => entry_gj_ok sc f (snd e)
                    | None => true
                    end) m.
(* side condition 2: a populated sibling map whose values are messages without an unwrap field is rendered by
   reflection over the Go struct; its values are un-annotated (no codec-owning message below, a Timestamp being
   the struct {seconds, nanos}; no present-but-empty bytes field; enum numbers as in side condition 1) *)
Definition reflected_maps_plain (md : message) (m : mval) : bool :=
  forallb (fun e => match find_field (m_fields md) (fst e) with
                    | Some f => negb (reflected_map sc f) || reflectable sc (f_kind f) (snd e)
                    | None => true
                    end) m.

Lemma pieces_keys m ks fs ps :
  Forall2 (fun f p => enc_field E sc m ks f = ROk p) fs ps ->
  forall k, raw_has k (List.concat ps) = true -> In k (map jn fs).
Proof.
  induction 1 as [|f p r pr Hp _ IH]; cbn [List.concat]; intros k Hk; [discriminate Hk|].
  rewrite RawMap.raw_has_app in Hk. apply Bool.orb_true_iff in Hk. destruct Hk as [Hk|Hk].
  - left. destruct (enc_field_shape E sc m ks f p Hp) as [[j|] Hj]; subst p; [|discriminate Hk].
    unfold raw_has in Hk. cbn [opt_entry existsb fst] in Hk. rewrite Bool.orb_false_r in Hk. apply str_eqb_eq. exact Hk.
  - right. exact (IH k Hk).
Qed.

Lemma raw_get_pieces m ks fs : forall ps pre,
  NullableFacts.nodup_str (map jn fs) = true ->
  Forall2 (fun f p => enc_field E sc m ks f = ROk p) fs ps ->
  (forall f, In f fs -> raw_has (jn f) pre = false) ->
  forall f, In f fs ->
  exists p, enc_field E sc m ks f = ROk p /\ raw_get (jn f) (pre ++ List.concat ps) = hd_error (map snd p).
Proof.
  induction fs as [|f0 r IH]; intros ps pre Hnd HF Hpre f Hin; [contradiction|].
  inversion HF as [|a p0 l pr Hp0 Hrest]; subst. cbn [List.concat].
  cbn [map] in Hnd. destruct (EmptyFacts.nodup_str_inv _ _ Hnd) as [Hnot Hndr].
  destruct Hin as [Hin|Hin].
  - subst f0. exists p0. split; [exact Hp0|].
    rewrite RawMap.raw_get_app_r by (apply Hpre; left; reflexivity).
    destruct (enc_field_shape E sc m ks f p0 Hp0) as [[j|] Hj]; subst p0.
    + cbn [opt_entry app map snd hd_error]. unfold raw_get. cbn [assoc_json]. rewrite str_eqb_refl. reflexivity.
    + cbn [opt_entry app map hd_error]. apply RawMap.raw_get_not_has.
      destruct (raw_has (jn f) (List.concat pr)) eqn:Eh; [|reflexivity]. exfalso.
      apply Hnot. exact (pieces_keys m ks r pr Hrest _ Eh).
  - rewrite app_assoc. apply IH; [exact Hndr|exact Hrest| |exact Hin].
    intros f' Hf'. rewrite RawMap.raw_has_app, (Hpre f' (or_intror Hf')). cbn [orb].
    destruct (enc_field_shape E sc m ks f0 p0 Hp0) as [[j|] Hj]; subst p0; [|reflexivity].
    unfold raw_has. cbn [opt_entry existsb fst]. rewrite Bool.orb_false_r.
    destruct (str_eqb (jn f0) (jn f')) eqn:Eq; [|reflexivity]. exfalso.
    apply str_eqb_eq in Eq. apply Hnot. rewrite Eq. apply in_map. exact Hf'.
Qed.

Lemma defects_go_zero tn md m :
  lookup_message sc tn = Some md -> owner_of sc md = Own FtUnwrapMap -> defects_C04 sc tn m = [] ->
  forall name v f, In (name, v) m -> find_field (m_fields md) name = Some f -> f_card f = Singular ->
  go_zero (f_kind f) v = false.
Proof.
  intros Hlk Hown Hd name v f Hin Hf Hc.
  pose proof (defects_nil_local sc tn md FtUnwrapMap m Hlk Hown Hd) as Hloc.
  unfold local_defects in Hloc. rewrite Hown in Hloc. unfold unwrap_sibling_defects in Hloc.
  apply app_eq_nil in Hloc. destruct Hloc as [_ Hz].
  destruct (existsb (fun e : str * fval => match find_field (m_fields md) (fst e) with
                        | Some f => match f_card f with Singular => go_zero (f_kind f) (snd e) | _ => false end
                        | None => false end) m) eqn:Hex; [discriminate Hz|].
  pose proof (proj1 (existsb_false _ _) Hex (name, v) Hin) as Hx. cbv beta in Hx. cbn [fst snd] in Hx.
  rewrite Hf, Hc in Hx. exact Hx.
Qed.

(* C04 for the map-value unwrap codec: all schemas, all well-typed values without a C04 defect that meet the
   two side conditions above *)
Theorem unwrap_map_roundtrip : forall tn md m j,
  find_message (all_messages sc) tn = Some md -> owner_of sc md = Own FtUnwrapMap ->
  wt sc (KMessage tn) (FM m) = true ->
  defects_C04 sc tn m = [] ->
  gj_enums_rt md m = true -> reflected_maps_plain md m = true ->
  encode E sc tn m = ROk j -> decode E sc tn j = ROk (norm sc tn m).
Proof.
  intros tn md m j Hfm Hown Hwt Hdef Hgj Hnr Henc.
  destruct (str_eqb tn ts_name) eqn:Hts.
  { (* a type named like Timestamp is never given a codec: protojson both ways *)
    apply str_eqb_eq in Hts. subst tn.
    exact (C04_roundtrip_plain E EL sc ts_name m j (owns_ts_name sc) Hwt Henc). }
  destruct (CodecBase.wt_message sc tn m Hts Hwt) as [Hwk [md' [Hfm' [Hlk [Hok [Hsorted Hwf]]]]]].
  assert (md' = md) by congruence. subst md'. clear Hfm'.
  rewrite (CodecBase.norm_owned sc tn md _ m Hlk Hown), EmptyFacts.strip_wrappers_map.
  destruct (encode_owned_inv E sc tn md _ m j Hwk Hlk Hown Henc) as [Hb [ks [Hks Hbody]]].
  unfold codec_body in Hbody. rewrite Hb in Hbody. cbn [negb] in Hbody. cbv iota in Hbody.
  rewrite enc_unwrap_map_pieces in Hbody. apply rbind_ok in Hbody. destruct Hbody as [ps [Hps Hj]].
  inversion Hj; subst j. clear Hj. apply rall_ok in Hps.
  unfold decode. rewrite (owner_owns sc tn md _ Hlk Hown). cbv beta iota.
  rewrite (gj_un_unwrap_map E sc _ tn md _ Hwk Hlk Hown Hb).
  assert (Hfield : forall f, In f (m_fields md) ->
            dec_field E sc (S (json_size (JObj (List.concat ps)))) (List.concat ps) f = ROk (fv_of sc m f)).
  { intros f Hin.
    destruct (raw_get_pieces m ks (m_fields md) ps [] (NullableFacts.msg_ok_nodup_jn md Hok) Hps (fun _ _ => eq_refl) f Hin)
      as [p [Hp Hraw]].
    cbn [app] in Hraw. unfold enc_field in Hp. unfold fv_of, dec_field.
    destruct (mget m (f_name f)) as [v|] eqn:Eg.
    2:{ inversion Hp; subst p. rewrite Hraw. reflexivity. }
    pose proof (CodecBase.mget_pair m _ v Eg) as Hinm.
    pose proof (find_field_complete md f Hok Hin) as Hff.
    destruct (CodecBase.wt_fields_in sc md m _ v Hwf Hinm) as [f' [Hf' Hwe]].
    rewrite Hff in Hf'. inversion Hf'; subst f'. clear Hf'.
    unfold gj_enums_rt in Hgj. rewrite forallb_forall in Hgj. specialize (Hgj _ Hinm). cbn [fst snd] in Hgj. rewrite Hff in Hgj.
    assert (Hrf : reflected_map sc f = true -> reflectable sc (f_kind f) v = true).
    { intros Hrm. unfold reflected_maps_plain in Hnr. rewrite forallb_forall in Hnr. specialize (Hnr _ Hinm).
      cbn [fst snd] in Hnr. rewrite Hff, Hrm in Hnr. exact Hnr. }
    apply rbind_ok in Hp. destruct Hp as [o [Ho Hp]]. inversion Hp; subst p. clear Hp.
    destruct (value_rt E EL sc (json_size (JObj (List.concat ps))) md ks f v o Hb Hin Hwe
                (fun Hn => proj1 (kid_of_kids E sc FtUnwrapMap md m ks Hks _ v f Eg Hff Hn))
                (defects_go_zero tn md m Hlk Hown Hdef _ v f Hinm Hff) Hgj
                Hrf Ho) as [j [Hoj Hdec]].
    subst o. cbn [opt_entry map snd hd_error] in Hraw. rewrite Hraw, Hdec; [reflexivity|].
    exact (Nat.lt_le_incl _ _ (json_size_obj_in _ j _ (RawMap.raw_get_in _ _ _ Hraw))). }
  rewrite (rall_map_pointwise _ (fv_of sc m) (m_fields md) Hfield). cbn [rbind].
  rewrite <- ClashFacts.flat_map_via_map, (assemble_strip sc md m Hok Hsorted Hwf). reflexivity.
Qed.
End Main.

Definition color_enum : enum :=
  {| e_name := s "x.v1.Color";
     e_values := [ {| ev_name := s "COLOR_UNSPECIFIED"; ev_number := 0; ev_custom := None |};
                   {| ev_name := s "COLOR_RED"; ev_number := 1; ev_custom := Some (s "red") |};
                   {| ev_name := s "COLOR_BLUE"; ev_number := 2; ev_custom := None |} ] |}.
(* two values with the same custom enum_value text *)
Definition dup_enum : enum :=
  {| e_name := s "x.v1.Dup";
     e_values := [ {| ev_name := s "DUP_UNSPECIFIED"; ev_number := 0; ev_custom := None |};
                   {| ev_name := s "DUP_A"; ev_number := 1; ev_custom := Some (s "same") |};
                   {| ev_name := s "DUP_B"; ev_number := 2; ev_custom := Some (s "same") |} ] |}.
Definition Color : kind := KEnum (s "x.v1.Color").
Definition Dup : kind := KEnum (s "x.v1.Dup").

(* ScoreBoard: three unwrap maps (message items, string items, enum items) beside siblings of every shape the
   theorem covers; the fields are NOT declared in field-number order *)
Definition ums : schema :=
  [ {| fl_path := s "x/u.proto"; fl_package := s "x.v1"; fl_gopkg := s "x"; fl_generate := true;
       fl_messages :=
         [ msg "Leaf" [fld "a" 1 KString Singular; fld "n" 2 KInt64 Singular] [];
           msg "BarList" [set_unwrap (fld "bars" 1 (T "Leaf") Repeated); fld "note" 2 KString Singular] [];
           msg "Strs" [set_unwrap (fld "vals" 1 KString Repeated)] [];
           msg "Colors" [set_unwrap (fld "cs" 1 Color Repeated)] [];
           msg "Dups" [set_unwrap (fld "ds" 1 Dup Repeated)] [];
           msg "OptB" [fld "b" 1 KBytes Optional; fld "t" 2 KString Singular] [];
           msg "ScoreBoard" [fld "title" 7 KString Singular;
                             fld "by_sym" 1 (T "BarList") (MapOf KString);
                             fld "names" 2 (T "Strs") (MapOf KString);
                             fld "palette" 3 (T "Colors") (MapOf KString);
                             fld "total_count" 4 KInt64 Singular;
                             fld "ratio" 5 KDouble Singular;
                             fld "tags" 6 KString Repeated;
                             fld "by_id" 8 KString (MapOf KInt32);
                             fld "best" 9 (T "Leaf") Singular;
                             fld "all_leaves" 10 (T "Leaf") Repeated;
                             fld "fav" 11 Color Singular;
                             fld "raw" 12 KBytes Singular;
                             fld "ok" 13 KBool Singular;
                             fld "at" 14 TS Singular;
                             fld "weights" 15 KFloat Repeated;
                             fld "shades" 16 Color (MapOf KString)] [];
           msg "DupBoard" [fld "by_sym" 1 (T "Dups") (MapOf KString); fld "d" 2 Dup Singular] [];
           msg "Deep" [fld "leaf" 1 (T "Leaf") Singular; fld "big_nums" 2 KInt64 Repeated; fld "by_k" 3 KInt32 (MapOf KString);
                       fld "c" 4 Color Singular; fld "more" 5 (T "OptB") Repeated; fld "at" 6 TS Singular] [];
           msg "Nick" [set_nullable (fld "nick" 1 KString Optional); fld "id" 2 KString Singular] [];
           msg "DupLeaf" [fld "d" 1 Dup Singular] [];
           msg "RefBoard" [fld "by_sym" 1 (T "BarList") (MapOf KString); fld "opts" 2 (T "OptB") (MapOf KString);
                           fld "deep" 3 (T "Deep") (MapOf KInt32); fld "nicks" 4 (T "Nick") (MapOf KString);
                           fld "dups" 5 (T "DupLeaf") (MapOf KString)] [] ];
       fl_enums := [color_enum; dup_enum]; fl_services := [] |} ].

(* library instance: 1.5 as a double and as a float *)
Definition Eu : ExtLib :=
  E0 [(true, 4609434218613702656, jflt 4609434218613702656); (false, 1069547520, jflt 4609434218613702656)]
     [(jflt 4609434218613702656, (4609434218613702656, 1069547520))].

(* every hypothesis of unwrap_map_roundtrip holds for (sc, tn, m), the codec writes [j] and reads [back] = norm *)
Definition um_case_ok (E : ExtLib) (sc : schema) (tn : str) (m : mval) (j : json) (back : mval) : Prop :=
  exists md, find_message (all_messages sc) tn = Some md /\ owner_of sc md = Own FtUnwrapMap /\
    wt sc (KMessage tn) (FM m) = true /\ defects_C04 sc tn m = [] /\
    gj_enums_rt sc md m = true /\ reflected_maps_plain sc md m = true /\
    encode E sc tn m = ROk j /\ norm sc tn m = back /\ decode E sc tn j = ROk back.

Definition board_val : mval :=
  [ (s "by_sym", FMap [(VStr (s "A"), FM [(s "bars", FL [FM [(s "a", vstr "x"); (s "n", vint 7)]; FM []]); (s "note", vstr "lost")]);
                       (VStr (s "B"), FM [(s "note", vstr "lost too")])]);
    (s "names", FMap [(VStr (s "k"), FM [(s "vals", FL [vstr "p"; vstr ""])])]);
    (s "palette", FMap [(VStr (s "k"), FM [(s "cs", FL [FS (VEnum 1); FS (VEnum 2); FS (VEnum 0)])])]);
    (s "total_count", vint 9007199254740993);
    (s "ratio", FS (VFloat 4609434218613702656));
    (s "tags", FL [vstr "t1"; vstr "t2"]);
    (s "title", vstr "board");
    (s "by_id", FMap [(VInt (-3), vstr "m"); (VInt 12, vstr "p")]);
    (s "best", FM [(s "n", vint 5)]);
    (s "all_leaves", FL [FM []; FM [(s "a", vstr "z")]]);
    (s "fav", FS (VEnum 1));
    (s "raw", FS (VBytes [ch 251; ch 255]));
    (s "ok", FS (VBool true));
    (s "at", tsv 1700000000 500000000);
    (s "weights", FL [FS (VFloat 1069547520)]);
    (s "shades", FMap [(VStr (s "dark"), FS (VEnum 2)); (VStr (s "light"), FS (VEnum 1))]) ].

Definition board_json : json :=
  JObj [ (s "title", JStr (s "board"));
         (s "bySym", JObj [(s "A", JArr [JObj [(s "a", JStr (s "x")); (s "n", JStr (s "7"))]; JObj []]); (s "B", JArr [])]);
         (s "names", JObj [(s "k", JArr [JStr (s "p"); JStr []])]);
         (s "palette", JObj [(s "k", JArr [JStr (s "red"); JStr (s "COLOR_BLUE"); JStr (s "COLOR_UNSPECIFIED")])]);
         (s "totalCount", JNum 9007199254740993);
         (s "ratio", jflt 4609434218613702656);
         (s "tags", JArr [JStr (s "t1"); JStr (s "t2")]);
         (s "byId", JObj [(s "-3", JStr (s "m")); (s "12", JStr (s "p"))]);
         (s "best", JObj [(s "n", JStr (s "5"))]);
         (s "allLeaves", JArr [JObj []; JObj [(s "a", JStr (s "z"))]]);
         (s "fav", JStr (s "red"));
         (s "raw", JStr (s "+/8="));
         (s "ok", JBool true);
         (s "at", JStr (s "2023-11-14T22:13:20.500Z"));
         (s "weights", JArr [jflt 4609434218613702656]);
         (s "shades", JObj [(s "dark", JStr (s "COLOR_BLUE")); (s "light", JStr (s "red"))]) ].

(* the value read back: the wrappers have lost their "note" *)
Definition board_back : mval :=
  [ (s "by_sym", FMap [(VStr (s "A"), FM [(s "bars", FL [FM [(s "a", vstr "x"); (s "n", vint 7)]; FM []])]);
                       (VStr (s "B"), FM [])]) ] ++ tl board_val.

(* the whole case is evaluated once, then read off conjunct by conjunct *)
Ltac umok := unfold um_case_ok; apply ex_md_of_match; vm_compute; conj_split; reflexivity.

Example unwrap_map_roundtrip_nonvacuous :
  um_case_ok Eu ums (q "ScoreBoard") board_val board_json board_back /\
  um_case_ok Ex xs (q "Series")
    [(s "by_sym", FMap [(VStr (s "A"), FM [(s "bars", FL [FM [(s "a", vstr "x")]; FM []])])]);
     (s "total_count", vint 4); (s "ratio", FS (VFloat 4609434218613702656))]
    (JObj [(s "bySym", JObj [(s "A", JArr [JObj [(s "a", JStr (s "x"))]; JObj []])]);
           (s "totalCount", JNum 4); (s "ratio", jflt 4609434218613702656)])
    [(s "by_sym", FMap [(VStr (s "A"), FM [(s "bars", FL [FM [(s "a", vstr "x")]; FM []])])]);
     (s "total_count", vint 4); (s "ratio", FS (VFloat 4609434218613702656))].
Proof. split; umok. Qed.

(* sibling maps whose values are messages without an unwrap field (reflection over the Go struct: proto names as
   keys, int64 as numbers, nested structs, a present non-empty optional bytes field) *)
Example unwrap_map_roundtrip_nonvacuous_reflected :
  um_case_ok Eu ums (q "RefBoard")
    [(s "by_sym", FMap [(VStr (s "A"), FM [(s "bars", FL [FM [(s "n", vint 7)]])])]);
     (s "opts", FMap [(VStr (s "k"), FM [(s "b", FS (VBytes [ch 1])); (s "t", vstr "x")]); (VStr (s "l"), FM [])]);
     (s "deep", FMap [(VInt 4, FM [(s "leaf", FM [(s "a", vstr "x"); (s "n", vint 9007199254740993)]);
                                   (s "big_nums", FL [vint 1; vint (-2)]);
                                   (s "by_k", FMap [(VStr (s "p"), vint 3)]);
                                   (s "c", FS (VEnum 1));
                                   (s "more", FL [FM []; FM [(s "t", vstr "y")]]);
                                   (s "at", tsv 5 7)])])]
    (JObj [(s "bySym", JObj [(s "A", JArr [JObj [(s "n", JStr (s "7"))]])]);
           (s "opts", JObj [(s "k", JObj [(s "b", JStr (s "AQ==")); (s "t", JStr (s "x"))]); (s "l", JObj [])]);
           (s "deep", JObj [(s "4", JObj [(s "leaf", JObj [(s "a", JStr (s "x")); (s "n", JNum 9007199254740993)]);
                                          (s "big_nums", JArr [JNum 1; JNum (-2)]);
                                          (s "by_k", JObj [(s "p", JNum 3)]);
                                          (s "c", JStr (s "red"));
                                          (s "more", JArr [JObj []; JObj [(s "t", JStr (s "y"))]]);
                                          (s "at", JObj [(s "seconds", JNum 5); (s "nanos", JNum 7)])])])])
    [(s "by_sym", FMap [(VStr (s "A"), FM [(s "bars", FL [FM [(s "n", vint 7)]])])]);
     (s "opts", FMap [(VStr (s "k"), FM [(s "b", FS (VBytes [ch 1])); (s "t", vstr "x")]); (VStr (s "l"), FM [])]);
     (s "deep", FMap [(VInt 4, FM [(s "leaf", FM [(s "a", vstr "x"); (s "n", vint 9007199254740993)]);
                                   (s "big_nums", FL [vint 1; vint (-2)]);
                                   (s "by_k", FMap [(VStr (s "p"), vint 3)]);
                                   (s "c", FS (VEnum 1));
                                   (s "more", FL [FM []; FM [(s "t", vstr "y")]]);
                                   (s "at", tsv 5 7)])])].
Proof. umok. Qed.

(* all the other hypotheses of unwrap_map_roundtrip hold for (sc, tn, m), [j] is written, and [back] is what
   UnmarshalJSON answers *)
Definition um_case_but (E : ExtLib) (sc : schema) (tn : str) (m : mval) (gj nr : bool) (tags : list c04_defect)
                       (j : json) (back : res mval) : Prop :=
  exists md, find_message (all_messages sc) tn = Some md /\ owner_of sc md = Own FtUnwrapMap /\
    wt sc (KMessage tn) (FM m) = true /\ defects_C04 sc tn m = tags /\
    gj_enums_rt sc md m = gj /\ reflected_maps_plain sc md m = nr /\
    encode E sc tn m = ROk j /\ decode E sc tn j = back /\ back <> ROk (norm sc tn m).

Ltac umbut := unfold um_case_but; apply ex_md_of_match; vm_compute; conj_split; first [reflexivity|discriminate].

(* gj_enums_rt, first half: an UNDEFINED enum number among the scalar items of a wrapper.  json.Marshal of the
   []Color slice calls the emitted Color.MarshalJSON, which writes x.String() = "99"; UnmarshalJSON refuses "99".
   defects_C04 says nothing: its class enum-codec-unknown-number looks at sibling fields only. *)
Example unwrap_map_roundtrip_needs_known_wrapper_enums :
  um_case_but Eu ums (q "ScoreBoard")
    [(s "palette", FMap [(VStr (s "k"), FM [(s "cs", FL [FS (VEnum 1); FS (VEnum 99)])])])]
    false true []
    (JObj [(s "palette", JObj [(s "k", JArr [JStr (s "red"); JStr (s "99")])])])
    (RErr (s "unknown enum value")).
Proof. umbut. Qed.

(* gj_enums_rt, second half: two enum values share one custom enum_value text.  DUP_B is written as "same" and read
   back as DUP_A — as a sibling and as a wrapper item alike; no defect class fires. *)
Example unwrap_map_roundtrip_needs_unambiguous_enum_json :
  um_case_but Eu ums (q "DupBoard")
    [(s "d", FS (VEnum 2))]
    false true []
    (JObj [(s "d", JStr (s "same"))])
    (ROk [(s "d", FS (VEnum 1))]) /\
  um_case_but Eu ums (q "DupBoard")
    [(s "by_sym", FMap [(VStr (s "k"), FM [(s "ds", FL [FS (VEnum 2)])])])]
    false true []
    (JObj [(s "bySym", JObj [(s "k", JArr [JStr (s "same")])])])
    (ROk [(s "by_sym", FMap [(VStr (s "k"), FM [(s "ds", FL [FS (VEnum 1)])])])]).
Proof. split; umbut. Qed.

(* reflected_maps_plain: a sibling map whose values are messages without an unwrap field goes through
   encoding/json's reflection.
   (1) `json:"b,omitempty"` drops a present-but-empty optional bytes field, so its presence is lost
       (defect class D4ReflectedEmptyOptBytes);
   (2) an enum field of such a value whose type has two values with one custom text: DUP_B is written "same" and read
       back as DUP_A; gj_enums_rt looks at the message's own fields and the wrapper items only, no defect class fires. *)
Example unwrap_map_roundtrip_needs_reflected_maps_plain :
  um_case_but Eu ums (q "RefBoard")
    [(s "opts", FMap [(VStr (s "k"), FM [(s "b", FS (VBytes [])); (s "t", vstr "x")])])]
    true false [D4ReflectedEmptyOptBytes]
    (JObj [(s "opts", JObj [(s "k", JObj [(s "t", JStr (s "x"))])])])
    (ROk [(s "opts", FMap [(VStr (s "k"), FM [(s "t", vstr "x")])])]) /\
  um_case_but Eu ums (q "RefBoard")
    [(s "dups", FMap [(VStr (s "k"), FM [(s "d", FS (VEnum 2))])])]
    true false []
    (JObj [(s "dups", JObj [(s "k", JObj [(s "d", JStr (s "same"))])])])
    (ROk [(s "dups", FMap [(VStr (s "k"), FM [(s "d", FS (VEnum 1))])])]).
Proof. split; umbut. Qed.

(* defects_C04 = []: -0.0 in a singular sibling is dropped by `x.F != 0` *)
Example unwrap_map_roundtrip_needs_no_defects :
  um_case_but Ex xs (q "Series")
    [(s "ratio", FS (VFloat 9223372036854775808))]
    true true [D4UnwrapSiblingNegZero]
    (JObj [])
    (ROk []).
Proof. umbut. Qed.

(* [reflected_maps_plain] also refuses a reflected map whose value messages own a codec (encoding/json calls their
   MarshalJSON / UnmarshalJSON): not a failure of the round trip — on this instance every other hypothesis holds and
   so does the conclusion — but those values need the per-codec round trips at the level of gj_fval / gj_un. *)
Example unwrap_map_roundtrip_remainder_example :
  let m := [(s "nicks", FMap [(VStr (s "k"), FM [(s "id", vstr "x")])])] in
  exists md, find_message (all_messages ums) (q "RefBoard") = Some md /\ owner_of ums md = Own FtUnwrapMap /\
    wt ums (KMessage (q "RefBoard")) (FM m) = true /\ defects_C04 ums (q "RefBoard") m = [] /\
    gj_enums_rt ums md m = true /\ reflected_maps_plain ums md m = false /\
    encode Eu ums (q "RefBoard") m = ROk (JObj [(s "nicks", JObj [(s "k", JObj [(s "id", JStr (s "x")); (s "nick", JNull)])])]) /\
    decode Eu ums (q "RefBoard") (JObj [(s "nicks", JObj [(s "k", JObj [(s "id", JStr (s "x")); (s "nick", JNull)])])])
      = ROk (norm ums (q "RefBoard") m).
Proof. cbv zeta. apply ex_md_of_match. vm_compute. conj_split; reflexivity. Qed.

(* the statement under the weaker side condition [reflected_maps_keep]: the values of a reflected map may contain
   codec-owning messages; what has to be kept is only what gj_reflect_roundtrip needs (no present-but-empty bytes
   under a reflected struct, enum numbers that are written and read back); a codec-owning value answers for itself
   through defects_C04.  Stated, not proved: a proof needs, for each of the nine codecs, its round trip for
   gj_fval / gj_un under fuel instead of encode / decode. *)
Section Full.
Variable sc : schema.
Fixpoint reflect_keeps (k : kind) (v : fval) {struct v} : bool :=
  match v with
  | FS x => sval_gj_ok sc k x
  | FL l => (fix all (l : list fval) : bool := match l with [] => true | y :: t => reflect_keeps k y && all t end) l
  | FMap kv => (fix all (kv : list (sval * fval)) : bool :=
                  match kv with [] => true | (_, y) :: t => reflect_keeps k y && all t end) kv
  | FM cm =>
      match k with
      | KMessage tn =>
          match lookup_message sc tn with
          | Some md =>
              match owner_of sc md with
              | OwnNone =>
                  (fix go (cm : list (str * fval)) : bool :=
                     match cm with
                     | [] => true
                     | (name, x) :: r =>
                         match find_field (m_fields md) name with
                         | Some f => negb (match x with FS (VBytes []) => true | _ => false end) &&
                                     reflect_keeps (f_kind f) x && go r
                         | None => false
                         end
                     end) cm
              | _ => true
              end
          | None => false
          end
      | _ => false
      end
  end.
Definition reflected_maps_keep (md : message) (m : mval) : bool :=
  forallb (fun e => match find_field (m_fields md) (fst e) with
                    | Some f => negb (reflected_map sc f) || reflect_keeps (f_kind f) (snd e)
                    | None => true
                    end) m.
End Full.
Definition unwrap_map_roundtrip_full : Prop :=
  forall E, ExtLaws E -> forall sc tn md m j,
  find_message (all_messages sc) tn = Some md -> owner_of sc md = Own FtUnwrapMap ->
  wt sc (KMessage tn) (FM m) = true -> defects_C04 sc tn m = [] ->
  gj_enums_rt sc md m = true -> reflected_maps_keep sc md m = true ->
  encode E sc tn m = ROk j -> decode E sc tn j = ROk (norm sc tn m).

Print Assumptions gj_reflect_roundtrip.
Print Assumptions unwrap_map_roundtrip.
Close Scope Z_scope.
