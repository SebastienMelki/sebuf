(* ProtoJsonFacts.v — protojson round trip: unmarshal (marshal m) = m for every well-typed value of
   every schema (fragment: all scalar kinds, enums, nested messages, Timestamp, optional, repeated,
   maps; messages whose fields are not oneof members), under the library laws ExtLaws. *)
From Sebuf Require Import ProtoJson.
From SebufProofs Require Import ListFacts.
From SebufProofs Require Import TextFacts CodecTextFacts.

Open Scope Z_scope.

Definition is_msgk (k : kind) : bool := match k with KMessage _ => true | _ => false end.

Definition float_ok (is64 : bool) (b : Z) : bool :=
  match fclassify is64 b with
  | FNaN => b =? nan_bits is64
  | FPosInf => b =? pinf_bits is64
  | FNegInf => b =? ninf_bits is64
  | FFinite => 0 <=? b
  end.

Definition enum_rt (e : enum) (n : Z) : bool :=
  (- 2 ^ 31 <=? n) && (n <=? 2 ^ 31 - 1) &&
  match ev_by_number (e_values e) n with
  | Some v => match ev_by_name (e_values e) (ev_name v) with
              | Some v' => ev_number v' =? n
              | None => false
              end
  | None => true
  end.

Fixpoint lt_all_Z (x : Z) (l : list Z) : bool := match l with [] => true | y :: r => (x <? y) && lt_all_Z x r end.
Fixpoint sorted_Z (l : list Z) : bool := match l with [] => true | x :: r => lt_all_Z x r && sorted_Z r end.
Fixpoint lt_all_key (x : sval) (l : list sval) : bool := match l with [] => true | y :: r => sval_ltb x y && lt_all_key x r end.
Fixpoint sorted_key (l : list sval) : bool := match l with [] => true | x :: r => lt_all_key x r && sorted_key r end.

Definition wt_key (kk : kind) (v : sval) : bool :=
  match kk, v with
  | KString, VStr _ => true
  | KBool, VBool _ => true
  | _, VInt z => (is_int32_kind kk || is_int64_kind kk) && in_int_range kk z
  | _, _ => false
  end.

Definition ts_ok (m : mval) : bool :=
  match m with
  | [] => true
  | [(k, FS (VInt z))] =>
      (str_eqb k (s "seconds") && negb (z =? 0) && ts_in_range z 0) ||
      (str_eqb k (s "nanos") && negb (z =? 0) && ts_in_range 0 z)
  | [(k1, FS (VInt a)); (k2, FS (VInt b))] =>
      str_eqb k1 (s "seconds") && str_eqb k2 (s "nanos") && negb (a =? 0) && negb (b =? 0) && ts_in_range a b
  | _ => false
  end.

Fixpoint nodup_Z (l : list Z) : bool :=
  match l with [] => true | x :: r => negb (existsb (Z.eqb x) r) && nodup_Z r end.
(* the message declares distinct field numbers, every field is found again by its json name, and no
   field is a oneof member *)
Definition msg_ok (md : message) : bool :=
  nodup_Z (map f_number (m_fields md)) &&
  forallb (fun f => match field_of_key md (json_name (f_name f)) with
                    | Some f' => f_number f' =? f_number f
                    | None => false
                    end && match f_oneof f with None => true | Some _ => false end) (m_fields md).

Section WT.
Variable sc : schema.

Definition wt_scalar (k : kind) (v : sval) : bool :=
  match k, v with
  | KBool, VBool _ => true
  | KString, VStr _ => true
  | KBytes, VBytes _ => true
  | KDouble, VFloat b => float_ok true b
  | KFloat, VFloat b => float_ok false b
  | KEnum tn, VEnum n => match find_enum (all_enums sc) tn with Some e => enum_rt e n | None => false end
  | _, VInt z => (is_int32_kind k || is_int64_kind k) && in_int_range k z
  | _, _ => false
  end.

Definition num_of (md : message) (name : str) : Z :=
  match find_field (m_fields md) name with Some f => f_number f | None => 0 end.

(* [wt k v]: v is a singular value of kind k: populated fields only, in field-number order, maps in key
   order without duplicates, integers in range, canonical NaN, canonical Timestamp *)
Fixpoint wt (k : kind) (v : fval) {struct v} : bool :=
  match v with
  | FS x => negb (is_msgk k) && wt_scalar k x
  | FM m =>
      match k with
      | KMessage tn =>
          if str_eqb tn ts_name then ts_ok m
          else negb (is_wkt_other tn) &&
            match find_message (all_messages sc) tn with
            | None => false
            | Some md =>
                msg_ok md && sorted_Z (map (fun e => num_of md (fst e)) m) &&
                (fix go (m : list (str * fval)) : bool :=
                   match m with
                   | [] => true
                   | (name, x) :: r =>
                       match find_field (m_fields md) name with
                       | None => false
                       | Some f =>
                           match f_card f, x with
                           | Repeated, FL (e :: l) =>
                               (fix all (l : list fval) : bool :=
                                  match l with [] => true | y :: t => wt (f_kind f) y && all t end) (e :: l)
                           | MapOf kk, FMap (e :: kv) =>
                               sorted_key (map fst (e :: kv)) &&
                               (fix all (kv : list (sval * fval)) : bool :=
                                  match kv with
                                  | [] => true
                                  | (key, y) :: t => wt_key kk key && wt (f_kind f) y && all t
                                  end) (e :: kv)
                           | Singular, FS _ | Optional, FS _ => wt (f_kind f) x && populated f x
                           | Singular, FM _ | Optional, FM _ => wt (f_kind f) x
                           | _, _ => false
                           end && go r
                       end
                   end) m
            end
      | _ => false
      end
  | _ => false
  end.
End WT.

(* the inner loops of ProtoJson.pj_fval / pj_un, named *)
Section Loops.
Variable E : ExtLib.
Variable sc : schema.

Definition m_list (k : kind) : list fval -> res (list json) :=
  fix go (l : list fval) : res (list json) :=
    match l with
    | [] => ROk []
    | x :: r => pj_fval E sc k x >>= (fun j => go r >>= (fun t => ROk (j :: t)))
    end.
Definition m_map (k : kind) : list (sval * fval) -> res (list (str * json)) :=
  fix go (kv : list (sval * fval)) : res (list (str * json)) :=
    match kv with
    | [] => ROk []
    | (key, x) :: r => key_text key >>= (fun kt => pj_fval E sc k x >>= (fun j => go r >>= (fun t => ROk ((kt, j) :: t))))
    end.
Definition m_msg (md : message) : list (str * fval) -> res (list (str * json)) :=
  fix go (m : list (str * fval)) : res (list (str * json)) :=
    match m with
    | [] => ROk []
    | (name, x) :: r =>
        match find_field (m_fields md) name with
        | None => RUnm (s "value names an undeclared field")
        | Some f => pj_fval E sc (f_kind f) x >>= (fun j => go r >>= (fun t => ROk ((json_name name, j) :: t)))
        end
    end.

Lemma pj_fval_FS k x : pj_fval E sc k (FS x) = pj_scalar E sc k x.
Proof. reflexivity. Qed.
Lemma pj_fval_FL k l : pj_fval E sc k (FL l) = m_list k l >>= (fun js => ROk (JArr js)).
Proof. reflexivity. Qed.
Lemma pj_fval_FMap k kv : pj_fval E sc k (FMap kv) = m_map k kv >>= (fun es => ROk (JObj es)).
Proof. reflexivity. Qed.
Lemma pj_fval_FM tn m :
  pj_fval E sc (KMessage tn) (FM m) =
  if str_eqb tn ts_name then pj_timestamp E m
  else if is_wkt_other tn then RUnm (s "well-known type other than Timestamp")
  else match find_message (all_messages sc) tn with
       | None => RUnm (s "unknown message type")
       | Some md => m_msg md m >>= (fun es => ROk (JObj es))
       end.
Proof. reflexivity. Qed.

Definition u_elems (k : kind) : list json -> res (list fval) :=
  fix elems (l : list json) : res (list fval) :=
    match l with
    | [] => ROk []
    | x :: t => pj_un E sc k x >>= (fun v => elems t >>= (fun vs => ROk (v :: vs)))
    end.
Definition u_ents (kk k : kind) : list (str * json) -> res (list (sval * fval)) :=
  fix ents (mkv : list (str * json)) : res (list (sval * fval)) :=
    match mkv with
    | [] => ROk []
    | (mk, x) :: t =>
        key_of_text kk mk >>= (fun kvv => pj_un E sc k x >>= (fun v => ents t >>= (fun vs => ROk ((kvv, v) :: vs))))
    end.
Definition u_value (f : field) (jv : json) : res (option fval) :=
  match jv with
  | JNull => ROk None
  | _ =>
      match f_card f with
      | Repeated =>
          match jv with
          | JArr l => u_elems (f_kind f) l >>= (fun vs => ROk (Some (FL vs)))
          | _ => RErr (s "expected array")
          end
      | MapOf kk =>
          match jv with
          | JObj mkv =>
              u_ents kk (f_kind f) mkv >>= (fun es =>
              if has_dup_key (map fst es) then RErr (s "duplicate map key")
              else ROk (Some (FMap (sort_entries es))))
          | _ => RErr (s "expected object")
          end
      | _ => pj_un E sc (f_kind f) jv >>= (fun v => ROk (Some v))
      end
  end.
Definition u_fields (md : message) : list (str * json) -> res (list (field * fval)) :=
  fix fields (kv : list (str * json)) : res (list (field * fval)) :=
    match kv with
    | [] => ROk []
    | (key, jv) :: r =>
        match field_of_key md key with
        | None => RErr (s "unknown field")
        | Some f =>
            u_value f jv >>= (fun ov =>
            fields r >>= (fun rest => ROk (match ov with Some v => (f, v) :: rest | None => rest end)))
        end
    end.

Lemma pj_un_msg tn j :
  str_eqb tn ts_name = false -> is_wkt_other tn = false ->
  pj_un E sc (KMessage tn) j =
  match find_message (all_messages sc) tn with
  | None => RUnm (s "unknown message type")
  | Some md =>
      match j with
      | JObj kv =>
          if dup_check md kv then RErr (s "duplicate field or oneof already set")
          else u_fields md kv >>= (fun fvs => ROk (FM (assemble fvs)))
      | _ => RErr (s "expected object")
      end
  end.
Proof.
  intros H1 H2. destruct j; cbn [pj_un]; rewrite H1, H2; reflexivity.
Qed.

Lemma pj_un_ts j : pj_un E sc (KMessage ts_name) j = ts_of_json E j.
Proof. destruct j; reflexivity. Qed.

Lemma pj_un_scalar k j : is_msgk k = false -> pj_un E sc k j = pj_unscalar E sc k j >>= (fun v => ROk (FS v)).
Proof. intros H. destruct k; try discriminate H; destruct j; reflexivity. Qed.
End Loops.

Section FvalInd.
Variable P : fval -> Prop.
Hypothesis HS : forall x, P (FS x).
Hypothesis HM : forall m, Forall (fun e => P (snd e)) m -> P (FM m).
Hypothesis HL : forall l, Forall P l -> P (FL l).
Hypothesis HMap : forall kv, Forall (fun e => P (snd e)) kv -> P (FMap kv).
Fixpoint fval_ind' (v : fval) : P v :=
  match v with
  | FS x => HS x
  | FM m => HM m ((fix go (m : list (str * fval)) : Forall (fun e => P (snd e)) m :=
                     match m with
                     | [] => Forall_nil _
                     | e :: r => Forall_cons e (fval_ind' (snd e)) (go r)
                     end) m)
  | FL l => HL l ((fix go (l : list fval) : Forall P l :=
                     match l with [] => Forall_nil _ | x :: r => Forall_cons x (fval_ind' x) (go r) end) l)
  | FMap kv => HMap kv ((fix go (kv : list (sval * fval)) : Forall (fun e => P (snd e)) kv :=
                           match kv with
                           | [] => Forall_nil _
                           | e :: r => Forall_cons e (fval_ind' (snd e)) (go r)
                           end) kv)
  end.
End FvalInd.

Lemma rbind_ok {A B} (x : res A) (f : A -> res B) b : x >>= f = ROk b -> exists a, x = ROk a /\ f a = ROk b.
Proof. destruct x; simpl; intros H; try discriminate. eauto. Qed.

Lemma rbind_ROk {A B} (a : A) (f : A -> res B) : ROk a >>= f = f a.
Proof. reflexivity. Qed.

Lemma find_field_spec fs n f : find_field fs n = Some f -> In f fs /\ f_name f = n.
Proof.
  induction fs as [|g r IH]; simpl; [discriminate|].
  destruct (str_eqb (f_name g) n) eqn:Eq; intros H.
  - inversion H; subst. split; [left; reflexivity|]. apply str_eqb_eq. exact Eq.
  - destruct (IH H) as [Hin Hn]. split; [right; exact Hin|exact Hn].
Qed.

Lemma field_by_json_in fs x f : field_by_json fs x = Some f -> In f fs.
Proof.
  induction fs as [|g r IH]; simpl; [discriminate|].
  destruct (str_eqb (json_name (f_name g)) x); intros H.
  - inversion H. left. reflexivity.
  - right. apply IH. exact H.
Qed.

Lemma field_of_key_in md x f : field_of_key md x = Some f -> In f (m_fields md).
Proof.
  unfold field_of_key. destruct (field_by_json (m_fields md) x) eqn:Eb; intros H.
  - inversion H; subst. eapply field_by_json_in. exact Eb.
  - apply find_field_spec in H. apply H.
Qed.

Lemma nodup_num_inj fs a b :
  nodup_Z (map f_number fs) = true -> In a fs -> In b fs -> f_number a = f_number b -> a = b.
Proof.
  induction fs as [|g r IH]; simpl; [intros _ []|].
  intros Hn Ha Hb Heq. apply andb_prop in Hn. destruct Hn as [Hg Hr].
  assert (Hnot : forall c, In c r -> f_number g <> f_number c).
  { intros c Hc E. apply Bool.negb_true_iff in Hg.
    assert (existsb (Z.eqb (f_number g)) (map f_number r) = true).
    { apply existsb_exists. exists (f_number c). split; [apply in_map; exact Hc|apply Z.eqb_eq; exact E]. }
    congruence. }
  destruct Ha as [Ha|Ha], Hb as [Hb|Hb]; subst.
  - reflexivity.
  - exfalso. eapply Hnot; eauto.
  - exfalso. eapply Hnot; eauto.
  - apply IH; auto.
Qed.

Lemma msg_ok_key md name f :
  msg_ok md = true -> find_field (m_fields md) name = Some f ->
  field_of_key md (json_name name) = Some f /\ f_oneof f = None.
Proof.
  intros Hok Hf. unfold msg_ok in Hok. apply andb_prop in Hok. destruct Hok as [Hnd Hall].
  destruct (find_field_spec _ _ _ Hf) as [Hin Hn]. subst name.
  rewrite forallb_forall in Hall. specialize (Hall f Hin). apply andb_prop in Hall. destruct Hall as [Hk Ho].
  destruct (field_of_key md (json_name (f_name f))) as [f'|] eqn:Ek; [|discriminate].
  split.
  - f_equal. eapply nodup_num_inj; eauto.
    + eapply field_of_key_in. exact Ek.
    + apply Z.eqb_eq. exact Hk.
  - destruct (f_oneof f); [discriminate|reflexivity].
Qed.

Lemma lt_all_no_dup x l : lt_all_Z x l = true -> existsb (Z.eqb x) l = false.
Proof.
  induction l as [|y r IH]; simpl; [reflexivity|].
  intros H. apply andb_prop in H. destruct H as [H1 H2].
  rewrite (IH H2). apply Z.ltb_lt in H1.
  destruct (Z.eqb_spec x y); [lia|reflexivity].
Qed.
Lemma sorted_no_dup l : sorted_Z l = true -> dup_nums l = false.
Proof.
  induction l as [|x r IH]; simpl; [reflexivity|].
  intros H. apply andb_prop in H. destruct H as [H1 H2].
  rewrite (lt_all_no_dup _ _ H1), (IH H2). reflexivity.
Qed.

Lemma sval_ltb_neq a b : sval_ltb a b = true -> sval_eqb a b = false.
Proof.
  destruct a, b; simpl; try discriminate.
  - intros H. apply Z.ltb_lt in H. destruct (Z.eqb_spec z z0); [lia|reflexivity].
  - destruct b, b0; simpl; try discriminate; reflexivity.
  - intros H. apply andb_prop in H. destruct H as [_ H]. apply Bool.negb_true_iff in H. exact H.
Qed.
Lemma lt_all_key_no_dup x l : lt_all_key x l = true -> existsb (sval_eqb x) l = false.
Proof.
  induction l as [|y r IH]; simpl; [reflexivity|].
  intros H. apply andb_prop in H. destruct H as [H1 H2].
  rewrite (IH H2), (sval_ltb_neq _ _ H1). reflexivity.
Qed.
Lemma sorted_key_no_dup l : sorted_key l = true -> has_dup_key l = false.
Proof.
  induction l as [|x r IH]; simpl; [reflexivity|].
  intros H. apply andb_prop in H. destruct H as [H1 H2].
  rewrite (lt_all_key_no_dup _ _ H1), (IH H2). reflexivity.
Qed.
Lemma sorted_key_sort (es : list (sval * fval)) : sorted_key (map fst es) = true -> sort_entries es = es.
Proof.
  induction es as [|e r IH]; simpl; [reflexivity|].
  intros H. apply andb_prop in H. destruct H as [H1 H2].
  unfold sort_entries in *. simpl. rewrite (IH H2).
  destruct r as [|e' r']; [reflexivity|].
  simpl in H1. apply andb_prop in H1. destruct H1 as [H1 _].
  simpl. rewrite H1. reflexivity.
Qed.

(* the body of ProtoJson.assemble's fold *)
Definition step (fv : field * fval) (acc : list (Z * (str * fval))) :=
  if populated (fst fv) (snd fv) then insert_by_num (f_number (fst fv)) (f_name (fst fv), snd fv) acc else acc.
Lemma assemble_sorted fvs :
  sorted_Z (map (fun fv => f_number (fst fv)) fvs) = true ->
  Forall (fun fv => populated (fst fv) (snd fv) = true) fvs ->
  fold_right step [] fvs = map (fun fv => (f_number (fst fv), (f_name (fst fv), snd fv))) fvs.
Proof.
  induction fvs as [|fv r IH]; simpl; [reflexivity|].
  intros Hs Hp. apply andb_prop in Hs. destruct Hs as [H1 H2].
  inversion Hp; subst. rewrite (IH H2 H4). unfold step at 1. rewrite H3.
  destruct r as [|fv' r']; [reflexivity|].
  simpl in H1. apply andb_prop in H1. destruct H1 as [H1 _]. apply Z.ltb_lt in H1.
  simpl. destruct (Z.leb_spec (f_number (fst fv)) (f_number (fst fv'))); [reflexivity|lia].
Qed.
Lemma assemble_canon fvs :
  sorted_Z (map (fun fv => f_number (fst fv)) fvs) = true ->
  Forall (fun fv => populated (fst fv) (snd fv) = true) fvs ->
  assemble fvs = map (fun fv => (f_name (fst fv), snd fv)) fvs.
Proof.
  intros Hs Hp. unfold assemble.
  change (fold_right _ [] fvs) with (fold_right step [] fvs).
  rewrite (assemble_sorted fvs Hs Hp). rewrite map_map. reflexivity.
Qed.

(* ProtoJson.pj_b64_dec picks the alphabet by the presence of "-" / "_" and the padding by the length; on what
   protojson wrote (padded standard base64, no CR / LF) that is the padded standard decoder *)
Definition std_charb (c : ascii) : bool := ncrlf c && std_only c.
Lemma b64_std_chars x : forallb std_charb (b64_enc false true x) = true.
Proof.
  apply b64_enc_forallb; [|reflexivity]. intros y. unfold std_charb. rewrite b64_char_ncrlf, b64_char_std. reflexivity.
Qed.
Lemma b64_std_len x : exists q, List.length (b64_enc false true x) = (4 * q)%nat.
Proof.
  induction x as [|a|a b|a b c r [q IH]] using list_ind3.
  - exists 0%nat. reflexivity.
  - exists 1%nat. destruct a. reflexivity.
  - exists 1%nat. destruct a, b. reflexivity.
  - exists (S q). change (b64_enc false true (a :: b :: c :: r)) with (enc3 false a b c ++ b64_enc false true r).
    rewrite app_length, IH. destruct a, b, c. cbn [enc3 Datatypes.length]. lia.
Qed.
Lemma pj_b64_roundtrip x : pj_b64_dec (b64_enc false true x) = ROk x.
Proof.
  unfold pj_b64_dec.
  assert (Hc : has_crlf (b64_enc false true x) = false).
  { unfold has_crlf. eapply existsb_false_of_forallb; [|apply b64_std_chars].
    intros c Hc. unfold std_charb, ncrlf in Hc. apply andb_prop in Hc. destruct Hc as [Hc _].
    apply Bool.negb_true_iff in Hc. exact Hc. }
  rewrite Hc.
  assert (Hu : existsb (fun c => Ascii.eqb c "-"%char || Ascii.eqb c "_"%char) (b64_enc false true x) = false).
  { eapply existsb_false_of_forallb; [|apply b64_std_chars].
    intros c Hc'. unfold std_charb, std_only in Hc'. apply andb_prop in Hc'. destruct Hc' as [_ Hc'].
    apply Bool.negb_true_iff in Hc'. exact Hc'. }
  rewrite Hu.
  destruct (b64_std_len x) as [q Hq]. rewrite Hq.
  replace (Nat.modulo (4 * q) 4 =? 0)%nat with true.
  - rewrite b64_roundtrip. reflexivity.
  - symmetry. apply Nat.eqb_eq. rewrite Nat.mul_comm. apply Nat.mod_mul. discriminate.
Qed.

Section RT.
Variable E : ExtLib.
Hypothesis EL : ExtLaws E.
Variable sc : schema.

Lemma float_rt is64 b j :
  float_ok is64 b = true -> float_json E is64 b = ROk j -> float_of_json E is64 j = ROk (VFloat b).
Proof.
  unfold float_ok, float_json. destruct (fclassify is64 b) eqn:Ec; intros Hok Hj.
  - inversion Hj; subst. apply Z.eqb_eq in Hok. subst. reflexivity.
  - inversion Hj; subst. apply Z.eqb_eq in Hok. subst. reflexivity.
  - inversion Hj; subst. apply Z.eqb_eq in Hok. subst. reflexivity.
  - destruct (x_fprint E is64 b) as [j'|] eqn:Ep; [|discriminate]. inversion Hj; subst j'.
    apply Z.leb_le in Hok.
    destruct (law_fprint_num E EL _ _ _ Ep) as [[z Hz]|[f Hf]]; subst j.
    + unfold float_of_json. simpl is_jnumber. cbv iota.
      destruct is64.
      * destruct (law_f64 E EL _ _ Ep) as [b32 Hs]. rewrite Hs.
        destruct (Z.ltb_spec b 0); [lia|reflexivity].
      * destruct (law_f32 E EL _ _ Ep) as [b64 Hs]. rewrite Hs.
        destruct (Z.ltb_spec b 0); [lia|reflexivity].
    + unfold float_of_json, jflt.
      assert (Hn : is_jnumber (JObj [(s "$f", JNum f)]) = true) by reflexivity.
      rewrite Hn.
      destruct is64.
      * destruct (law_f64 E EL _ _ Ep) as [b32 Hs]. unfold jflt in Hs. rewrite Hs.
        destruct (Z.ltb_spec b 0); [lia|reflexivity].
      * destruct (law_f32 E EL _ _ Ep) as [b64 Hs]. unfold jflt in Hs. rewrite Hs.
        destruct (Z.ltb_spec b 0); [lia|reflexivity].
Qed.

Lemma pj_scalar_VInt k z :
  pj_scalar E sc k (VInt z) = if is_int32_kind k then ROk (JNum z)
                               else if is_int64_kind k then ROk (JStr (show_Z z)) else RUnm (s "ill-typed value").
Proof. destruct k; reflexivity. Qed.

Lemma int_rt k z j :
  (is_int32_kind k || is_int64_kind k) = true -> in_int_range k z = true ->
  (if is_int32_kind k then ROk (JNum z) else if is_int64_kind k then ROk (JStr (show_Z z)) else RUnm (s "ill-typed value")) = ROk j ->
  int_of_json k j = ROk (VInt z).
Proof.
  intros Hk Hr Hj. destruct (is_int32_kind k) eqn:E32.
  - inversion Hj; subst. simpl. rewrite Hr. reflexivity.
  - simpl in Hk. rewrite Hk in Hj. inversion Hj; subst. simpl.
    rewrite decimal_roundtrip, Hr. reflexivity.
Qed.

(* which kinds a scalar of each form can have *)
Lemma wt_scalar_inv k x : wt_scalar sc k x = true ->
  match x with
  | VInt z => (is_int32_kind k || is_int64_kind k) = true /\ in_int_range k z = true
  | VBool _ => k = KBool
  | VStr _ => k = KString
  | VBytes _ => k = KBytes
  | VFloat b => exists is64 : bool, k = (if is64 then KDouble else KFloat) /\ float_ok is64 b = true
  | VEnum n => exists tn e, k = KEnum tn /\ find_enum (all_enums sc) tn = Some e /\ enum_rt e n = true
  end.
Proof.
  intros H. destruct x as [z|b|x|x|b|n].
  - apply andb_prop. destruct k; exact H.
  - destruct k; try discriminate H. reflexivity.
  - destruct k; try discriminate H. reflexivity.
  - destruct k; try discriminate H. reflexivity.
  - destruct k; try discriminate H; [exists true|exists false]; split; [reflexivity|exact H|reflexivity|exact H].
  - destruct k; try discriminate H. cbn [wt_scalar] in H.
    destruct (find_enum (all_enums sc) tn) as [e|] eqn:He; [|discriminate H]. exists tn, e. auto.
Qed.
Lemma pj_unscalar_int k j : (is_int32_kind k || is_int64_kind k) = true -> pj_unscalar E sc k j = int_of_json k j.
Proof. destruct k; try discriminate; reflexivity. Qed.

Lemma scalar_rt k x j :
  is_msgk k = false -> wt_scalar sc k x = true -> pj_scalar E sc k x = ROk j -> pj_unscalar E sc k j = ROk x.
Proof.
  intros _ Hwt Hj. pose proof (wt_scalar_inv k x Hwt) as Hi. destruct x as [z|b|x|x|b|n].
  - destruct Hi as [Hw1 Hw2]. rewrite pj_scalar_VInt in Hj. rewrite (pj_unscalar_int k j Hw1).
    exact (int_rt k z j Hw1 Hw2 Hj).
  - subst k. inversion Hj. reflexivity.
  - subst k. inversion Hj. reflexivity.
  - subst k. inversion Hj. cbn [pj_unscalar]. rewrite pj_b64_roundtrip. reflexivity.
  - destruct Hi as [is64 [-> Hf]]. destruct is64; exact (float_rt _ b j Hf Hj).
  - destruct Hi as [tn [e [-> [He Hr]]]]. cbn [pj_scalar] in Hj. cbn [pj_unscalar]. unfold enum_json in Hj. unfold enum_of_json.
    rewrite He in *. unfold enum_rt in Hr. apply andb_prop in Hr. destruct Hr as [Hr Hv].
    destruct (ev_by_number (e_values e) n) as [v|] eqn:Ev.
    + inversion Hj; subst j.
      destruct (ev_by_name (e_values e) (ev_name v)) as [v'|]; [|discriminate].
      apply Z.eqb_eq in Hv. rewrite Hv. reflexivity.
    + inversion Hj; subst j. rewrite Hr. reflexivity.
Qed.

Lemma key_rt kk key t : wt_key kk key = true -> key_text key = ROk t -> key_of_text kk t = ROk key.
Proof.
  intros Hw Ht. destruct key as [z|b|x|x|b|n]; simpl in Ht; try discriminate; inversion Ht; subst t.
  - assert (Hw' : (is_int32_kind kk || is_int64_kind kk) = true /\ in_int_range kk z = true).
    { destruct kk; try discriminate Hw; apply andb_prop; exact Hw. }
    destruct Hw' as [H1 H2].
    destruct kk; simpl in H1; try discriminate; simpl; rewrite decimal_roundtrip, H2; reflexivity.
  - destruct kk; simpl in Hw; try discriminate. destruct b; reflexivity.
  - destruct kk; simpl in Hw; try discriminate. reflexivity.
Qed.

Lemma ts_ok_canon m :
  ts_ok m = true ->
  ts_in_range (mget_int m (s "seconds")) (mget_int m (s "nanos")) = true /\
  FM m = ts_value (mget_int m (s "seconds")) (mget_int m (s "nanos")).
Proof.
  unfold ts_ok. destruct m as [|[k1 v1] [|[k2 v2] [|e3 r]]].
  - intros _. split; reflexivity.
  - destruct v1 as [[z| | | | | ]| | | ]; try discriminate.
    intros H. apply Bool.orb_true_iff in H. destruct H as [H|H].
    + apply andb_prop in H. destruct H as [H Hr]. apply andb_prop in H. destruct H as [Hk Hz].
      apply str_eqb_eq in Hk. subst k1. apply Bool.negb_true_iff in Hz.
      unfold mget_int, ts_value. simpl. rewrite Hz. split; [exact Hr|reflexivity].
    + apply andb_prop in H. destruct H as [H Hr]. apply andb_prop in H. destruct H as [Hk Hz].
      apply str_eqb_eq in Hk. subst k1. apply Bool.negb_true_iff in Hz.
      unfold mget_int, ts_value. simpl. rewrite Hz. split; [exact Hr|reflexivity].
  - destruct v1 as [[a| | | | | ]| | | ]; try discriminate.
    destruct v2 as [[b| | | | | ]| | | ]; try discriminate.
    intros H. repeat (apply andb_prop in H; destruct H as [H ?]).
    apply str_eqb_eq in H. apply str_eqb_eq in H3. subst k1 k2.
    apply Bool.negb_true_iff in H2. apply Bool.negb_true_iff in H1.
    unfold mget_int, ts_value. simpl. rewrite H2, H1. split; [assumption|reflexivity].
  - destruct v1 as [[a| | | | | ]| | | ]; try discriminate.
    destruct v2 as [[b| | | | | ]| | | ]; discriminate.
Qed.

(* the round trip at the value v, at every kind; [PP] asks it of the members of a list or map instead: those have
   no kind of their own ([wt] is false of them, so that [Q] holds of them for no reason) and are well-typed only
   as the value of a repeated or map field ([wt_entry]) *)
Definition Q (v : fval) : Prop :=
  forall k j, wt sc k v = true -> pj_fval E sc k v = ROk j -> pj_un E sc k j = ROk v.
Definition PP (v : fval) : Prop :=
  match v with
  | FL l => Forall Q l
  | FMap kv => Forall (fun e => Q (snd e)) kv
  | _ => Q v
  end.

Lemma Q_of_PP v : PP v -> Q v.
Proof.
  destruct v; simpl; auto; intros _ k j Hwt; simpl in Hwt; discriminate.
Qed.

Lemma float_json_not_null is64 b j : float_json E is64 b = ROk j -> j <> JNull.
Proof.
  unfold float_json. destruct (fclassify is64 b); intros H Hn; subst j; try discriminate H.
  destruct (x_fprint E is64 b) eqn:Ep; [|discriminate H]. inversion H; subst.
  destruct (law_fprint_num E EL _ _ _ Ep) as [[? ?]|[? ?]]; discriminate.
Qed.

Lemma pj_scalar_not_null k x j : pj_scalar E sc k x = ROk j -> j <> JNull.
Proof.
  destruct x as [z|b|x|x|b|n].
  - rewrite pj_scalar_VInt. intros H Hn. subst j.
    destruct (is_int32_kind k); [discriminate H|]. destruct (is_int64_kind k); discriminate H.
  - destruct k; intros H Hn; subst j; discriminate H.
  - destruct k; intros H Hn; subst j; discriminate H.
  - destruct k; intros H Hn; subst j; discriminate H.
  - destruct k; try (intros H; discriminate H); apply float_json_not_null.
  - destruct k; try (intros H; discriminate H). cbn [pj_scalar]. unfold enum_json. intros H Hn. subst j.
    destruct (find_enum _ _); [|discriminate H]. destruct (ev_by_number _ _); discriminate H.
Qed.

Lemma pj_not_null k v j : pj_fval E sc k v = ROk j -> j <> JNull.
Proof.
  destruct v as [x|m|l|kv].
  - rewrite pj_fval_FS. apply pj_scalar_not_null.
  - destruct k; try (intros H; discriminate H). rewrite pj_fval_FM.
    destruct (str_eqb tn ts_name).
    + unfold pj_timestamp. destruct (ts_in_range _ _); intros H; inversion H; discriminate.
    + destruct (is_wkt_other tn); [discriminate|]. destruct (find_message _ _); [|discriminate].
      intros H. apply rbind_ok in H. destruct H as [es [_ H]]. inversion H. discriminate.
  - rewrite pj_fval_FL. intros H. apply rbind_ok in H. destruct H as [js [_ H]]. inversion H. discriminate.
  - rewrite pj_fval_FMap. intros H. apply rbind_ok in H. destruct H as [js [_ H]]. inversion H. discriminate.
Qed.

Lemma list_rt k l js :
  Forall Q l ->
  (fix all (l : list fval) : bool := match l with [] => true | y :: t => wt sc k y && all t end) l = true ->
  m_list E sc k l = ROk js -> u_elems E sc k js = ROk l.
Proof.
  intros HQ. revert js. induction HQ as [|x r Hx Hr IH]; intros js Hw Hm.
  - simpl in Hm. inversion Hm. reflexivity.
  - apply andb_prop in Hw. destruct Hw as [Hwx Hwr].
    simpl in Hm. apply rbind_ok in Hm. destruct Hm as [j [Hj Hm]].
    apply rbind_ok in Hm. destruct Hm as [t [Ht Hm]]. inversion Hm; subst js.
    simpl. rewrite (Hx k j Hwx Hj). simpl. rewrite (IH t Hwr Ht). reflexivity.
Qed.

Lemma map_rt kk k kv es :
  Forall (fun e => Q (snd e)) kv ->
  (fix all (kv : list (sval * fval)) : bool :=
     match kv with [] => true | (key, y) :: t => wt_key kk key && wt sc k y && all t end) kv = true ->
  m_map E sc k kv = ROk es -> u_ents E sc kk k es = ROk kv.
Proof.
  intros HQ. revert es. induction HQ as [|[key x] r Hx Hr IH]; intros es Hw Hm.
  - simpl in Hm. inversion Hm. reflexivity.
  - apply andb_prop in Hw. destruct Hw as [Hw Hwr]. apply andb_prop in Hw. destruct Hw as [Hwk Hwx].
    simpl in Hm. apply rbind_ok in Hm. destruct Hm as [kt [Hkt Hm]].
    apply rbind_ok in Hm. destruct Hm as [j [Hj Hm]].
    apply rbind_ok in Hm. destruct Hm as [t [Ht Hm]]. inversion Hm; subst es.
    simpl. rewrite (key_rt kk key kt Hwk Hkt). simpl. simpl in Hx. rewrite (Hx k j Hwx Hj). simpl.
    rewrite (IH t Hwr Ht). reflexivity.
Qed.

(* one populated field *)
Definition wt_entry (f : field) (x : fval) : bool :=
  match f_card f, x with
  | Repeated, FL (e :: l) =>
      (fix all (l : list fval) : bool := match l with [] => true | y :: t => wt sc (f_kind f) y && all t end) (e :: l)
  | MapOf kk, FMap (e :: kv) =>
      sorted_key (map fst (e :: kv)) &&
      (fix all (kv : list (sval * fval)) : bool :=
         match kv with [] => true | (key, y) :: t => wt_key kk key && wt sc (f_kind f) y && all t end) (e :: kv)
  | Singular, FS _ | Optional, FS _ => wt sc (f_kind f) x && populated f x
  | Singular, FM _ | Optional, FM _ => wt sc (f_kind f) x
  | _, _ => false
  end.

(* one field's entry through protojson and back.  A singular value goes by the round trip at its kind, since
   Marshal never writes null; a list or map goes member by member ([list_rt], [map_rt]), a map's entries coming
   back in the order of their keys, which is the order a well-typed map has *)
Lemma entry_rt f x j :
  PP x -> wt_entry f x = true -> pj_fval E sc (f_kind f) x = ROk j ->
  u_value E sc f j = ROk (Some x) /\ populated f x = true.
Proof.
  intros HP Hw Hj.
  pose proof (pj_not_null _ _ _ Hj) as Hnn.
  unfold wt_entry in Hw.
  destruct x as [sx|cm|l|kv].
  - assert (Hc : (wt sc (f_kind f) (FS sx) && populated f (FS sx)) = true /\
                 match f_card f with Singular | Optional => True | _ => False end).
    { destruct (f_card f); try discriminate; split; auto. }
    destruct Hc as [Hw' Hcard]. apply andb_prop in Hw'. destruct Hw' as [Hwt Hpop].
    split; [|exact Hpop].
    pose proof (HP (f_kind f) j Hwt Hj) as Hu.
    unfold u_value. destruct j; try (exfalso; apply Hnn; reflexivity);
      destruct (f_card f); try contradiction; rewrite Hu; reflexivity.
  - assert (Hc : wt sc (f_kind f) (FM cm) = true /\
                 match f_card f with Singular | Optional => True | _ => False end).
    { destruct (f_card f); try discriminate; split; auto. }
    destruct Hc as [Hwt Hcard]. split; [|reflexivity].
    pose proof (HP (f_kind f) j Hwt Hj) as Hu.
    unfold u_value. destruct j; try (exfalso; apply Hnn; reflexivity);
      destruct (f_card f); try contradiction; rewrite Hu; reflexivity.
  - destruct l as [|e l]; [destruct (f_card f); discriminate|].
    assert (Hc : f_card f = Repeated) by (destruct (f_card f); try discriminate; reflexivity).
    rewrite Hc in Hw. split; [|reflexivity].
    rewrite pj_fval_FL in Hj. apply rbind_ok in Hj. destruct Hj as [js [Hjs Hj]]. inversion Hj; subst j.
    unfold u_value. rewrite Hc.
    rewrite (list_rt (f_kind f) (e :: l) js HP Hw Hjs). reflexivity.
  - destruct kv as [|e kv]; [destruct (f_card f); discriminate|].
    destruct (f_card f) as [| | |kk] eqn:Hc; try discriminate.
    apply andb_prop in Hw. destruct Hw as [Hs Hw]. split; [|reflexivity].
    rewrite pj_fval_FMap in Hj. apply rbind_ok in Hj. destruct Hj as [es [Hes Hj]]. inversion Hj; subst j.
    unfold u_value. rewrite Hc.
    rewrite (map_rt kk (f_kind f) (e :: kv) es HP Hw Hes). rewrite rbind_ROk.
    rewrite (sorted_key_no_dup _ Hs), (sorted_key_sort _ Hs). reflexivity.
Qed.

Definition wt_fields (md : message) : list (str * fval) -> bool :=
  fix go (m : list (str * fval)) : bool :=
    match m with
    | [] => true
    | (name, x) :: r =>
        match find_field (m_fields md) name with
        | None => false
        | Some f => wt_entry f x && go r
        end
    end.

Lemma wt_FM tn m :
  wt sc (KMessage tn) (FM m) =
  if str_eqb tn ts_name then ts_ok m
  else negb (is_wkt_other tn) &&
    match find_message (all_messages sc) tn with
    | None => false
    | Some md => msg_ok md && sorted_Z (map (fun e => num_of md (fst e)) m) && wt_fields md m
    end.
Proof. reflexivity. Qed.

(* the entry e of a value, and what protojson.Unmarshal has for it before [assemble] puts the fields in order *)
Definition rel (md : message) (e : str * fval) (fv : field * fval) : Prop :=
  find_field (m_fields md) (fst e) = Some (fst fv) /\ snd e = snd fv /\ populated (fst fv) (snd fv) = true.

(* the JSON entry decodes to the value entry *)
Definition ent_ok (md : message) (e : str * fval) (e' : str * json) : Prop :=
  exists g, find_field (m_fields md) (fst e) = Some g /\ fst e' = json_name (fst e) /\
            u_value E sc g (snd e') = ROk (Some (snd e)) /\ populated g (snd e) = true.

Lemma m_msg_ent_ok md m es :
  Forall (fun e => PP (snd e)) m -> wt_fields md m = true -> m_msg E sc md m = ROk es -> Forall2 (ent_ok md) m es.
Proof.
  intros HP. revert es. induction HP as [|[name x] r Hx Hr IH]; intros es Hw Hm.
  - simpl in Hm. inversion Hm; subst. constructor.
  - simpl in Hw. destruct (find_field (m_fields md) name) as [f|] eqn:Ef; [|discriminate].
    apply andb_prop in Hw. destruct Hw as [Hwe Hwr].
    simpl in Hm. rewrite Ef in Hm. apply rbind_ok in Hm. destruct Hm as [j [Hj Hm]].
    apply rbind_ok in Hm. destruct Hm as [t [Ht Hm]]. inversion Hm; subst es.
    destruct (entry_rt f x j Hx Hwe Hj) as [Huv Hpop].
    constructor; [|exact (IH t Hwr Ht)]. exists f. cbn [fst snd]. auto.
Qed.

Lemma u_fields_entries md m es :
  msg_ok md = true -> Forall2 (ent_ok md) m es ->
  exists fvs, u_fields E sc md es = ROk fvs /\ Forall2 (rel md) m fvs /\
              flat_map (fun e => match field_of_key md (fst e) with Some f => [(f, snd e)] | None => [] end) es
              = map (fun p => (fst (fst p), snd p)) (combine fvs (map snd es)) /\
              List.length es = List.length fvs.
Proof.
  intros Hok HF. induction HF as [|[name x] [k j] r r' Hhd _ IH].
  - exists []. repeat split; constructor.
  - destruct Hhd as [g [Hg [Hk [Hu Hpop]]]]. simpl in Hg, Hk, Hu, Hpop. subst k.
    destruct IH as [fvs [Hfs [Hrel [Hfm Hlen]]]].
    destruct (msg_ok_key md name g Hok Hg) as [Hkey _].
    exists ((g, x) :: fvs). repeat split.
    + simpl. rewrite Hkey, Hu. simpl. rewrite Hfs. reflexivity.
    + constructor; [|exact Hrel]. unfold rel. simpl. auto.
    + simpl. rewrite Hkey. simpl. rewrite Hfm. reflexivity.
    + simpl. rewrite Hlen. reflexivity.
Qed.

Lemma rel_names md m fvs : Forall2 (rel md) m fvs -> map (fun fv => (f_name (fst fv), snd fv)) fvs = m.
Proof.
  induction 1 as [|[n x] [f v] r r' [H1 [H2 _]] _ IH]; [reflexivity|].
  simpl in *. subst v. apply find_field_spec in H1. destruct H1 as [_ H1]. rewrite H1, IH. reflexivity.
Qed.
Lemma rel_nums md m fvs : Forall2 (rel md) m fvs ->
  map (fun fv => f_number (fst fv)) fvs = map (fun e => num_of md (fst e)) m.
Proof.
  induction 1 as [|[n x] [f v] r r' [H1 _] _ IH]; [reflexivity|].
  simpl in *. unfold num_of at 1. rewrite H1, IH. reflexivity.
Qed.
Lemma rel_pop md m fvs : Forall2 (rel md) m fvs -> Forall (fun fv => populated (fst fv) (snd fv) = true) fvs.
Proof. induction 1 as [|e fv r r' [_ [_ H]] _ IH]; constructor; auto. Qed.
Lemma rel_oneof md m fvs : msg_ok md = true -> Forall2 (rel md) m fvs -> Forall (fun fv => f_oneof (fst fv) = None) fvs.
Proof.
  intros Hok. induction 1 as [|e fv r r' [H _] _ IH]; constructor; auto.
  eapply msg_ok_key; eauto.
Qed.

Lemma no_oneof_marks (l : list (field * json)) :
  Forall (fun p => f_oneof (fst p) = None) l ->
  flat_map (fun p => match snd p, f_oneof (fst p) with JNull, _ => [] | _, Some o => [o] | _, None => [] end) l = [].
Proof.
  induction 1 as [|p r Hp _ IH]; [reflexivity|]. simpl. rewrite Hp, IH. destruct (snd p); reflexivity.
Qed.

Lemma combine_fst_map {A B C} (g : A -> C) (l1 : list A) (l2 : list B) :
  List.length l1 = List.length l2 -> map (fun x => g (fst x)) (combine l1 l2) = map g l1.
Proof.
  revert l2. induction l1 as [|a r IH]; intros [|b l] Hl; simpl in *; try discriminate; [reflexivity|].
  f_equal. apply IH. injection Hl as Hl. exact Hl.
Qed.
Lemma Forall_combine_fst {A B} (P : A -> Prop) (l1 : list A) (l2 : list B) :
  Forall P l1 -> Forall (fun p => P (fst p)) (combine l1 l2).
Proof.
  intros H. revert l2. induction H as [|a r Ha _ IH]; intros [|b l]; simpl; constructor; auto.
Qed.

(* an object whose entries decode one by one to the entries of a value in field-number order decodes to it *)
Lemma pj_un_entries tn md m es :
  str_eqb tn ts_name = false -> is_wkt_other tn = false ->
  find_message (all_messages sc) tn = Some md -> msg_ok md = true ->
  sorted_Z (map (fun e => num_of md (fst e)) m) = true ->
  Forall2 (ent_ok md) m es ->
  pj_un E sc (KMessage tn) (JObj es) = ROk (FM m).
Proof.
  intros Hts Hwk Hfm Hok Hsorted HF.
  rewrite (pj_un_msg E sc tn (JObj es) Hts Hwk), Hfm.
  destruct (u_fields_entries md m es Hok HF) as [fvs [Hu [Hrel [Hflat Hlen]]]].
  assert (Hdup : dup_check md es = false).
  { unfold dup_check. rewrite Hflat. rewrite map_map. simpl.
    assert (Hn : map (fun x => f_number (fst (fst x))) (combine fvs (map snd es)) = map (fun fv => f_number (fst fv)) fvs).
    { apply (combine_fst_map (fun fv : field * fval => f_number (fst fv))). rewrite map_length. symmetry. exact Hlen. }
    rewrite Hn, (rel_nums md m fvs Hrel), (sorted_no_dup _ Hsorted). simpl.
    rewrite no_oneof_marks; [reflexivity|].
    apply Forall_map. simpl.
    apply (Forall_combine_fst (fun fv : field * fval => f_oneof (fst fv) = None)).
    exact (rel_oneof md m fvs Hok Hrel). }
  rewrite Hdup, Hu. simpl.
  rewrite assemble_canon.
  - rewrite (rel_names md m fvs Hrel). reflexivity.
  - rewrite (rel_nums md m fvs Hrel). exact Hsorted.
  - exact (rel_pop md m fvs Hrel).
Qed.

Theorem pj_roundtrip_fval : forall v, PP v.
Proof.
  apply fval_ind'.
  - intros x k j Hwt Hj. simpl in Hwt. apply andb_prop in Hwt. destruct Hwt as [Hk Hwt].
    apply Bool.negb_true_iff in Hk. rewrite pj_fval_FS in Hj.
    rewrite pj_un_scalar by exact Hk. rewrite (scalar_rt k x j Hk Hwt Hj). reflexivity.
  - intros m HP k j Hwt Hj.
    destruct k as [| | | | | | | | | | | | | | | tn0 | tn]; try (simpl in Hwt; discriminate).
    rewrite wt_FM in Hwt. rewrite pj_fval_FM in Hj.
    destruct (str_eqb tn ts_name) eqn:Ets.
    + apply str_eqb_eq in Ets. subst tn. rewrite pj_un_ts.
      destruct (ts_ok_canon m Hwt) as [Hr Hc]. unfold pj_timestamp in Hj.
      remember (mget_int m (s "seconds")) as sec. remember (mget_int m (s "nanos")) as nn.
      cbv zeta in Hj. rewrite Hr in Hj.
      assert (Hjj : j = JStr (x_ts_text E sec nn)) by congruence. subst j.
      unfold ts_of_json. rewrite (law_ts E EL _ _ Hr), Hr, Hc. reflexivity.
    + apply andb_prop in Hwt. destruct Hwt as [Hwk Hwt]. apply Bool.negb_true_iff in Hwk.
      rewrite Hwk in Hj.
      destruct (find_message (all_messages sc) tn) as [md|] eqn:Hfm; [|discriminate].
      apply andb_prop in Hwt. destruct Hwt as [Hwt Hwf]. apply andb_prop in Hwt. destruct Hwt as [Hok Hsorted].
      apply rbind_ok in Hj. destruct Hj as [es [Hes Hj]]. inversion Hj; subst j.
      apply (pj_un_entries tn md m es Ets Hwk Hfm Hok Hsorted).
      exact (m_msg_ent_ok md m es HP Hwf Hes).
  - intros l HP. simpl. eapply Forall_impl; [|exact HP]. intros a. apply Q_of_PP.
  - intros kv HP. simpl. eapply Forall_impl; [|exact HP]. intros a. apply Q_of_PP.
Qed.

Theorem pj_roundtrip : forall tn m j,
  wt sc (KMessage tn) (FM m) = true -> pj_marshal E sc tn m = ROk j -> pj_unmarshal E sc tn j = ROk m.
Proof.
  intros tn m j Hwt Hj. unfold pj_unmarshal, pj_marshal in *.
  rewrite (Q_of_PP _ (pj_roundtrip_fval (FM m)) (KMessage tn) j Hwt Hj). reflexivity.
Qed.
End RT.
Close Scope Z_scope.
