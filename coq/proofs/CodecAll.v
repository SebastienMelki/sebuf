(* CodecAll.v — C04, every per-codec round-trip theorem put together.
     C04_roundtrip_all_codecs : ONE theorem for every message type, whatever owns its MarshalJSON: no codec, the five
       field codecs (CodecCompose), root unwrap (UnwrapRootFacts), map-value unwrap (UnwrapMapFacts), flatten
       (FlattenFacts: the region defects_C04 = [] is "no flatten field populated"), discriminated oneof (OneofFacts),
       and two features at once (vacuous: the emitted code does not compile, the model's encoder answers RUnm).
       Hypotheses: OneofPj.wt1 (ProtoJsonFacts.wt generalised to types that declare oneofs), defects_C04 = [],
       encode = ROk, and ONE computable predicate [codec_side_ok], the case distinction on the owner that collects what
       each per-codec theorem still asks for: nothing for "no codec" (FlattenFacts.C04_roundtrip_plain1); "no field is a
       member of a real oneof" for the five field codecs (their theorems are stated with wt); the per-codec side
       conditions of root unwrap, map-value unwrap, flatten and discriminated oneof.
     C04_roundtrip_all_codecs_wt : the same with the hypothesis of props/C04.v's C04_roundtrip_full (wt), i.e.
       C04_roundtrip_full restricted by [codec_side_ok] and nothing else. *)
From Coq Require Import ZArith List.
From Sebuf Require Import CodecCases.
From SebufProofs Require Import TextFacts CodecTextFacts ProtoJsonFacts CodecExamples CodecFacts CodecBase.
From SebufProofs Require NullableFacts CodecCompose UnwrapRootFacts UnwrapMapFacts OneofPj OneofFacts FlattenFacts.
Import ListNotations.

Open Scope Z_scope.


(* no field is a member of a (real) oneof: what ProtoJsonFacts.wt asks of every message type (msg_ok).  The theorems
   of the five field codecs are stated with wt; "no codec" and flatten are proved for wt1 here (FlattenFacts), the
   unwrap codecs cannot have members *)
Definition no_members (md : message) : bool :=
  forallb (fun f => match f_oneof f with None => true | Some _ => false end) (m_fields md).

Definition codec_side_ok (sc : schema) (tn : str) (m : mval) : bool :=
  match lookup_message sc tn with
  | None => true                                   (* no such type: wt1 is false *)
  | Some md =>
      match owner_of sc md with
      | OwnNone => true                            (* protojson both ways, plain oneofs included *)
      | OwnMany => true                            (* encode = RUnm: nothing to show *)
      | Own FtNullable | Own FtInt64 | Own FtBytes | Own FtTs | Own FtEmpty => no_members md
      | Own FtUnwrapRoot => UnwrapRootFacts.unwrap_root_dom sc md
      | Own FtUnwrapMap => UnwrapMapFacts.gj_enums_rt sc md m && UnwrapMapFacts.reflected_maps_plain sc md m
      | Own FtFlatten => FlattenFacts.flatten_children_known sc md && FlattenFacts.flatten_probe_ok sc md m
      | Own FtOneof =>
          NullableFacts.nodup_str (map o_name (m_oneofs md)) && OneofFacts.oneof_keys_ok sc md m &&
          OneofFacts.disc_values_ok md && OneofFacts.variant_types_plain sc md m && OneofFacts.variant_no_gap sc md m
      end
  end.


Lemma msg_ok1_ok md : OneofPj.msg_ok1 md = true -> no_members md = true -> msg_ok md = true.
Proof.
  intros H1 Hn. destruct (proj1 (OneofPj.msg_ok1_iff md) H1) as [Hnd Hall]. unfold msg_ok, no_members in *.
  rewrite Hnd. cbn [andb]. rewrite forallb_forall in Hn. apply forallb_forall. intros f Hin.
  rewrite (proj1 (Hall f Hin)), (Hn f Hin). reflexivity.
Qed.

Lemma msg_ok_no_members md : msg_ok md = true -> no_members md = true.
Proof.
  unfold msg_ok, no_members. intros H. apply andb_prop in H. destruct H as [_ Hall].
  rewrite forallb_forall in Hall. apply forallb_forall. intros f Hin. specialize (Hall f Hin).
  apply andb_prop in Hall. apply Hall.
Qed.

Lemma wt1_wt sc tn md m :
  str_eqb tn ts_name = false -> is_wkt_other tn = false -> find_message (all_messages sc) tn = Some md ->
  OneofPj.msg_ok1 md = true -> sorted_Z (map (fun e => num_of md (fst e)) m) = true -> wt_fields sc md m = true ->
  no_members md = true -> wt sc (KMessage tn) (FM m) = true.
Proof.
  intros Hts Hwk Hfm Hok1 Hsorted Hwf Hn. rewrite wt_FM, Hts, Hwk, Hfm, (msg_ok1_ok md Hok1 Hn), Hsorted, Hwf. reflexivity.
Qed.

(* under wt (the hypothesis of C04_roundtrip_full) no_members holds by itself *)
Lemma wt_no_members sc tn md m :
  str_eqb tn ts_name = false -> find_message (all_messages sc) tn = Some md ->
  wt sc (KMessage tn) (FM m) = true -> no_members md = true.
Proof.
  intros Hts Hfm Hwt. destruct (wt_message sc tn m Hts Hwt) as [_ [md' [Hfm' [_ [Hok _]]]]].
  assert (md' = md) by congruence. subst md'. exact (msg_ok_no_members md Hok).
Qed.

(* a root-unwrap field is repeated or a map, a oneof member is singular *)
Lemma root_unwrap_no_members sc md :
  owner_of sc md = Own FtUnwrapRoot -> OneofPj.msg_ok1 md = true -> no_members md = true.
Proof.
  intros Hown Hok1.
  destruct (UnwrapRootFacts.root_unwrap_fields md (UnwrapRootFacts.owner_root_unwrap sc md Hown)) as [f [Hf [_ Hrm]]].
  unfold no_members. rewrite Hf. cbn [forallb]. rewrite Bool.andb_true_r.
  destruct (f_oneof f) as [o|] eqn:Ho; [exfalso|reflexivity].
  assert (Hin : In f (m_fields md)) by (rewrite Hf; left; reflexivity).
  pose proof (OneofPj.msg_ok1_member_singular md f o Hok1 Hin Ho) as Hc.
  unfold is_repeated, is_map in Hrm. rewrite Hc in Hrm. discriminate Hrm.
Qed.

(* the map-value unwrap codec compiles only when no field is a oneof member *)
Lemma unwrap_map_buildable_no_members sc md : buildable sc FtUnwrapMap md = true -> no_members md = true.
Proof.
  unfold buildable, no_members. intros Hb. rewrite forallb_forall in Hb. apply forallb_forall. intros f Hin.
  specialize (Hb f Hin). destruct (f_oneof f); [|reflexivity]. destruct (f_card f); discriminate Hb.
Qed.

(* two features on one message: MarshalJSON is declared twice, the model's encoder declines *)
Lemma encode_own_many_unm E sc tn md m :
  is_wkt_other tn = false -> lookup_message sc tn = Some md -> owner_of sc md = OwnMany ->
  encode E sc tn m = RUnm (s "two MarshalJSON features on one message (does not compile, C13)").
Proof.
  intros Hwk Hlk Hown.
  assert (Howns : owns sc tn = true) by (unfold owns; rewrite Hlk, Hown; reflexivity).
  unfold encode. rewrite Howns. cbn [gj_fval]. apply (owner_branch _ _ md _ OwnMany _ _ _ _ _ _ Hwk Hlk Hown). reflexivity.
Qed.

Theorem C04_roundtrip_all_codecs : forall E, ExtLaws E -> forall sc tn m j,
  OneofPj.wt1 sc tn m = true ->
  defects_C04 sc tn m = [] ->
  codec_side_ok sc tn m = true ->
  encode E sc tn m = ROk j -> decode E sc tn j = ROk (norm sc tn m).
Proof.
  intros E EL sc tn m j Hwt1 Hdef Hside Henc.
  destruct (OneofPj.wt1_inv sc tn m Hwt1) as [Hts [Hwk [md [Hfm [Hlk [Hok1 [Hsorted [Hwf Hex]]]]]]]].
  unfold codec_side_ok in Hside. rewrite Hlk in Hside.
  assert (Hfield : forall ft, owner_of sc md = Own ft -> CodecCompose.field_codec_ft ft = true ->
                              no_members md = true -> decode E sc tn j = ROk (norm sc tn m)).
  { intros ft Hown Hft Hn.
    apply (CodecCompose.C04_roundtrip_field_codecs E EL sc tn m j); [|exact (wt1_wt sc tn md m Hts Hwk Hfm Hok1 Hsorted Hwf Hn)|exact Hdef|exact Henc].
    unfold CodecCompose.field_codec_owner. rewrite Hlk, Hown. exact Hft. }
  destruct (owner_of sc md) as [|ft|] eqn:Hown.
  - assert (Howns : owns sc tn = false) by (unfold owns; rewrite Hlk, Hown; reflexivity).
    exact (FlattenFacts.C04_roundtrip_plain1 E EL sc tn m j Howns Hwt1 Henc).
  - destruct ft.
    + pose proof (root_unwrap_no_members sc md Hown Hok1) as Hn.
      exact (UnwrapRootFacts.unwrap_root_roundtrip E EL sc tn md m j Hts Hwk Hfm Hown Hside
               (wt1_wt sc tn md m Hts Hwk Hfm Hok1 Hsorted Hwf Hn) Hdef Henc).
    + pose proof (unwrap_map_buildable_no_members sc md
                    (encode_ok_buildable E sc tn md FtUnwrapMap m j Hwk Hlk Hown Henc)) as Hn.
      apply andb_prop in Hside. destruct Hside as [Hgj Hrefl].
      exact (UnwrapMapFacts.unwrap_map_roundtrip E EL sc tn md m j Hfm Hown
               (wt1_wt sc tn md m Hts Hwk Hfm Hok1 Hsorted Hwf Hn) Hdef Hgj Hrefl Henc).
    + exact (Hfield FtInt64 eq_refl eq_refl Hside).
    + exact (Hfield FtNullable eq_refl eq_refl Hside).
    + exact (Hfield FtEmpty eq_refl eq_refl Hside).
    + exact (Hfield FtTs eq_refl eq_refl Hside).
    + exact (Hfield FtBytes eq_refl eq_refl Hside).
    + apply andb_prop in Hside. destruct Hside as [Hknown Hprobe].
      exact (FlattenFacts.flatten_roundtrip_unset1 E EL sc tn md m j Hfm Hown Hwt1 Hdef Hknown Hprobe Henc).
    + apply andb_prop in Hside. destruct Hside as [Hside Hng]. apply andb_prop in Hside. destruct Hside as [Hside Htp].
      apply andb_prop in Hside. destruct Hside as [Hside Hdv]. apply andb_prop in Hside. destruct Hside as [Hon Hkeys].
      exact (OneofFacts.oneof_roundtrip E EL sc tn md m j Hfm Hown Hwt1 Hdef Hon Hkeys Hdv Htp Hng Henc).
  - rewrite (encode_own_many_unm E sc tn md m Hwk Hlk Hown) in Henc. discriminate Henc.
Qed.

(* C04_roundtrip_full (props/C04.v) restricted by codec_side_ok and nothing else: same hypotheses otherwise *)
Theorem C04_roundtrip_all_codecs_wt : forall E, ExtLaws E -> forall sc tn m j,
  wt sc (KMessage tn) (FM m) = true ->
  defects_C04 sc tn m = [] ->
  codec_side_ok sc tn m = true ->
  encode E sc tn m = ROk j -> decode E sc tn j = ROk (norm sc tn m).
Proof.
  intros E EL sc tn m j Hwt Hdef Hside Henc.
  destruct (OneofPj.wt_cases sc tn m Hwt) as [->|[_ Hwt1]].
  - exact (C04_roundtrip_plain E EL sc ts_name m j (owns_ts_name sc) Hwt Henc).
  - exact (C04_roundtrip_all_codecs E EL sc tn m j Hwt1 Hdef Hside Henc).
Qed.

(* how far the full statement is: what codec_side_ok still demands, owner kind by owner kind *)
Example codec_side_ok_demands : forall sc tn md m, lookup_message sc tn = Some md ->
  (owner_of sc md = OwnNone -> codec_side_ok sc tn m = true) /\
  (forall ft, CodecCompose.field_codec_ft ft = true -> owner_of sc md = Own ft -> codec_side_ok sc tn m = no_members md) /\
  (owner_of sc md = Own FtUnwrapRoot -> codec_side_ok sc tn m = UnwrapRootFacts.unwrap_root_dom sc md) /\
  (owner_of sc md = Own FtUnwrapMap ->
     codec_side_ok sc tn m = UnwrapMapFacts.gj_enums_rt sc md m && UnwrapMapFacts.reflected_maps_plain sc md m) /\
  (owner_of sc md = Own FtFlatten ->
     codec_side_ok sc tn m = FlattenFacts.flatten_children_known sc md && FlattenFacts.flatten_probe_ok sc md m) /\
  (owner_of sc md = Own FtOneof ->
     codec_side_ok sc tn m =
       NullableFacts.nodup_str (map o_name (m_oneofs md)) && OneofFacts.oneof_keys_ok sc md m &&
       OneofFacts.disc_values_ok md && OneofFacts.variant_types_plain sc md m && OneofFacts.variant_no_gap sc md m) /\
  (owner_of sc md = OwnMany -> codec_side_ok sc tn m = true).
Proof.
  intros sc tn md m Hlk. unfold codec_side_ok. rewrite Hlk.
  repeat split; try (intros Hown; rewrite Hown; reflexivity).
  intros ft Hft Hown. rewrite Hown. destruct ft; try discriminate Hft; reflexivity.
Qed.

(* the same for a value that is well-typed in the sense of C04_roundtrip_full (wt): no_members holds by itself, so
   nothing remains for the five field codecs either; root unwrap whose elements are messages: nothing *)
Example codec_side_ok_demands_wt : forall sc tn md m,
  str_eqb tn ts_name = false -> find_message (all_messages sc) tn = Some md -> wt sc (KMessage tn) (FM m) = true ->
  (owner_of sc md = OwnNone -> codec_side_ok sc tn m = true) /\
  (forall ft, CodecCompose.field_codec_ft ft = true -> owner_of sc md = Own ft -> codec_side_ok sc tn m = true) /\
  (owner_of sc md = Own FtUnwrapRoot -> UnwrapRootFacts.msg_elems sc md = true -> codec_side_ok sc tn m = true).
Proof.
  intros sc tn md m Hts Hfm Hwt.
  assert (Hlk : lookup_message sc tn = Some md) by (unfold lookup_message; rewrite Hts; exact Hfm).
  pose proof (wt_no_members sc tn md m Hts Hfm Hwt) as Hn.
  unfold codec_side_ok. rewrite Hlk. repeat split.
  - intros Hown. rewrite Hown. reflexivity.
  - intros ft Hft Hown. rewrite Hown. destruct ft; try discriminate Hft; exact Hn.
  - intros Hown Hme. rewrite Hown.
    destruct (UnwrapRootFacts.root_unwrap_fields md (UnwrapRootFacts.owner_root_unwrap sc md Hown)) as [f [Hf _]].
    unfold UnwrapRootFacts.msg_elems in Hme. rewrite Hf in Hme. apply andb_prop in Hme. destruct Hme as [Hk Hu].
    unfold UnwrapRootFacts.unwrap_root_dom. rewrite Hf. destruct (value_unwrap sc f) as [uf|].
    + unfold UnwrapRootFacts.uf_ok. rewrite Hu. reflexivity.
    + rewrite Hk. reflexivity.
Qed.


(* every hypothesis of C04_roundtrip_all_codecs holds for (tn, m) — owner [ow], JSON [j] — and so does its
   conclusion, [back] being the normalised value *)
Definition all_case_ok (sc : schema) (tn : str) (ow : owner) (m : mval) (j : json) (back : mval) : Prop :=
  (exists md, lookup_message sc tn = Some md /\ owner_of sc md = ow) /\
  OneofPj.wt1 sc tn m = true /\ defects_C04 sc tn m = [] /\ codec_side_ok sc tn m = true /\
  encode Ex sc tn m = ROk j /\ norm sc tn m = back /\ decode Ex sc tn j = ROk back.

Ltac allok := split; [eexists; split; reflexivity|do 5 (split; [reflexivity|]); reflexivity].

(* non-vacuity on the shared schema xs: ten owner kinds — no codec, int64 NUMBER, nullable, empty_behavior,
   timestamp_format, bytes_encoding, root unwrap, map-value unwrap, flatten (unset), discriminated oneof (non-flattened
   and flattened) *)
Example roundtrip_all_codecs_nonvacuous :
  all_case_ok xs (q "Leaf") OwnNone
    [(s "a", vstr "x"); (s "n", vint 3)]
    (JObj [(s "a", JStr (s "x")); (s "n", JStr (s "3"))])
    [(s "a", vstr "x"); (s "n", vint 3)] /\
  all_case_ok xs (q "Nums") (Own FtInt64)
    [(s "big", vint 9007199254740993); (s "name", vstr "n")]
    (JObj [(s "big", JNum 9007199254740993); (s "name", JStr (s "n"))])
    [(s "big", vint 9007199254740993); (s "name", vstr "n")] /\
  all_case_ok xs (q "Nul") (Own FtNullable)
    [(s "id", vstr "x")]
    (JObj [(s "id", JStr (s "x")); (s "nick", JNull)])
    [(s "id", vstr "x")] /\
  all_case_ok xs (q "Emp") (Own FtEmpty)
    [(s "nul_it", FM []); (s "omit", FM []); (s "id", vstr "x")]
    (JObj [(s "nulIt", JNull); (s "id", JStr (s "x"))])
    [(s "nul_it", FM []); (s "id", vstr "x")] /\
  all_case_ok xs (q "Times") (Own FtTs)
    [(s "secs", tsv 5 123456789); (s "day", tsv 90000 1); (s "id", vstr "x")]
    (JObj [(s "secs", JNum 5); (s "day", JStr (s "1970-01-02")); (s "id", JStr (s "x"))])
    [(s "secs", tsv 5 0); (s "day", tsv 86400 0); (s "id", vstr "x")] /\
  all_case_ok xs (q "Blob") (Own FtBytes)
    [(s "h", FS (VBytes [ch 105; ch 183])); (s "id", vstr "x")]
    (JObj [(s "h", JStr (s "69b7")); (s "id", JStr (s "x"))])
    [(s "h", FS (VBytes [ch 105; ch 183])); (s "id", vstr "x")] /\
  all_case_ok xs (q "BarList") (Own FtUnwrapRoot)
    [(s "bars", FL [FM [(s "a", vstr "x")]; FM []])]
    (JArr [JObj [(s "a", JStr (s "x"))]; JObj []])
    [(s "bars", FL [FM [(s "a", vstr "x")]; FM []])] /\
  all_case_ok xs (q "Series") (Own FtUnwrapMap)
    [(s "by_sym", FMap [(VStr (s "A"), FM [(s "bars", FL [FM [(s "a", vstr "x")]; FM []])])]);
     (s "total_count", vint 4); (s "ratio", FS (VFloat 4609434218613702656))]
    (JObj [(s "bySym", JObj [(s "A", JArr [JObj [(s "a", JStr (s "x"))]; JObj []])]);
           (s "totalCount", JNum 4); (s "ratio", jflt 4609434218613702656)])
    [(s "by_sym", FMap [(VStr (s "A"), FM [(s "bars", FL [FM [(s "a", vstr "x")]; FM []])])]);
     (s "total_count", vint 4); (s "ratio", FS (VFloat 4609434218613702656))] /\
  all_case_ok xs (q "Person") (Own FtFlatten)
    [(s "id", vstr "1")]
    (JObj [(s "id", JStr (s "1"))])
    [(s "id", vstr "1")] /\
  all_case_ok xs (q "Event") (Own FtOneof)
    [(s "eid", vstr "e"); (s "image", FM [(s "url", vstr "u")])]
    (JObj [(s "eid", JStr (s "e")); (s "image", JObj [(s "url", JStr (s "u"))]); (s "ctype", JStr (s "image"))])
    [(s "eid", vstr "e"); (s "image", FM [(s "url", vstr "u")])] /\
  all_case_ok xs (q "FlatEvent") (Own FtOneof)
    [(s "eid", vstr "e"); (s "wide", FM [])]
    (JObj [(s "eid", JStr (s "e")); (s "ctype", JStr (s "wide"))])
    [(s "eid", vstr "e"); (s "wide", FM [])].
Proof. do 10 (split; [allok|]). allok. Qed.

(* a schema for the two remaining corners *)
Definition als : schema :=
  [ {| fl_path := s "x/all.proto"; fl_package := s "x.v1"; fl_gopkg := s "x"; fl_generate := true;
       fl_messages :=
         [ (* two MarshalJSON features on one message *)
           msg "Two" [set_i64 (fld "big" 1 KInt64 Singular); set_nullable (fld "nick" 2 KString Optional)] [];
           (* a plain (not discriminated) oneof on a message without a codec, and beside a field codec *)
           msg "Pick" [fld "id" 1 KString Singular; set_oneof "c" (fld "a" 2 KString Singular); set_oneof "c" (fld "b" 3 KInt32 Singular)]
               [{| o_name := s "c"; o_has_cfg := false; o_discriminator := []; o_flatten := false |}];
           (* a plain oneof beside a flatten field *)
           msg "Addr" [fld "street" 1 KString Singular] [];
           msg "FlatPick" [fld "id" 1 KString Singular; set_flatten (fld "home" 2 (T "Addr") Singular);
                           set_oneof "c" (fld "a" 3 KString Singular); set_oneof "c" (fld "b" 4 KInt32 Singular)]
               [{| o_name := s "c"; o_has_cfg := false; o_discriminator := []; o_flatten := false |}];
           msg "PickNum" [set_i64 (fld "big" 1 KInt64 Singular); set_oneof "c" (fld "a" 2 KString Singular); set_oneof "c" (fld "b" 3 KInt32 Singular)]
               [{| o_name := s "c"; o_has_cfg := false; o_discriminator := []; o_flatten := false |}] ];
       fl_enums := []; fl_services := [] |} ].

(* OwnMany: every other hypothesis holds and the encoder answers RUnm — the case is vacuous *)
Example roundtrip_all_codecs_own_many_vacuous :
  let m := [(s "big", vint 5)] in
  (exists md, lookup_message als (q "Two") = Some md /\ owner_of als md = OwnMany) /\
  OneofPj.wt1 als (q "Two") m = true /\ defects_C04 als (q "Two") m = [] /\ codec_side_ok als (q "Two") m = true /\
  encode Ex als (q "Two") m = RUnm (s "two MarshalJSON features on one message (does not compile, C13)").
Proof. cbv zeta. split; [eexists; split; reflexivity|]. do 3 (split; [reflexivity|]). reflexivity. Qed.

(* beyond wt: a plain (not discriminated) oneof on a message without a codec, and beside an unset flatten field — wt
   rejects the type, wt1 accepts the value, codec_side_ok is true, and the theorem gives the round trip *)
Example roundtrip_all_codecs_plain_oneof :
  all_case_ok als (q "Pick") OwnNone
    [(s "id", vstr "x"); (s "b", vint 0)]
    (JObj [(s "id", JStr (s "x")); (s "b", JNum 0)])
    [(s "id", vstr "x"); (s "b", vint 0)] /\
  wt als (KMessage (q "Pick")) (FM [(s "id", vstr "x"); (s "b", vint 0)]) = false /\
  all_case_ok als (q "FlatPick") (Own FtFlatten)
    [(s "id", vstr "x"); (s "a", vstr "y")]
    (JObj [(s "id", JStr (s "x")); (s "a", JStr (s "y"))])
    [(s "id", vstr "x"); (s "a", vstr "y")] /\
  wt als (KMessage (q "FlatPick")) (FM [(s "id", vstr "x"); (s "a", vstr "y")]) = false.
Proof. split; [allok|]. split; [reflexivity|]. split; [allok|reflexivity]. Qed.

(* no_members (asked of the five field codecs only) is a limit of the proofs — the per-codec theorems are stated with
   wt — not a known exception: a plain oneof beside an int64 NUMBER field: codec_side_ok is false, every other
   hypothesis holds, and the round trip holds *)
Example roundtrip_all_codecs_no_members_limit :
  let m := [(s "big", vint 9007199254740993); (s "b", vint 0)] in
  (exists md, lookup_message als (q "PickNum") = Some md /\ owner_of als md = Own FtInt64 /\ no_members md = false) /\
  OneofPj.wt1 als (q "PickNum") m = true /\ wt als (KMessage (q "PickNum")) (FM m) = false /\
  defects_C04 als (q "PickNum") m = [] /\ codec_side_ok als (q "PickNum") m = false /\
  rt_holds Ex als (q "PickNum") m = true.
Proof.
  cbv zeta. split; [eexists; split; [reflexivity|split; reflexivity]|]. do 4 (split; [reflexivity|]). reflexivity.
Qed.

(* what codec_side_ok says on the shared schema: true for the un-annotated and field-codec types, for root unwrap, for
   flatten with the field unset; false where a per-codec side condition fails (FlatEvent with a Times member: the
   member's type owns a codec, OneofFacts.variant_types_plain) *)
Example codec_side_ok_examples :
  codec_side_ok xs (q "Plain") [] = true /\ codec_side_ok xs (q "Strs") [(s "vals", FL [vstr "a"])] = true /\
  codec_side_ok xs (q "Post") [(s "id", vstr "p")] = true /\
  codec_side_ok xs (q "FlatEvent") [(s "times", FM [(s "secs", tsv 5 0)])] = false /\
  codec_side_ok FlattenFacts.fls (q "Clash") [(s "street", vstr "s")] = false /\
  codec_side_ok xs ts_name [] = true /\ codec_side_ok xs (s "x.v1.Missing") [] = true /\
  OneofPj.wt1 xs (s "x.v1.Missing") [] = false.
Proof. do 7 (split; [reflexivity|]). reflexivity. Qed.
Close Scope Z_scope.
