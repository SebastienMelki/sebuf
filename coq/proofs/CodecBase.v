(* CodecBase.v — what the five field codecs (int64 NUMBER, nullable, empty_behavior, timestamp_format,
   bytes_encoding) have in common.  MarshalJSON is protojson followed by one pass over the declared fields
   that keeps, sets or deletes the entry under each field's JSON name ([astep]); UnmarshalJSON is a pass of
   the same kind whose action looks at the value it finds ([gstep]), followed by protojson.  With distinct
   JSON names either pass acts entry by entry ([fold_astep], [fold_gstep_closed]), so the round trip is
   decided one field at a time: [field_codec_roundtrip].  Before that, what holds of a message owned by any one
   codec: the owner's branch of gj_fval and gj_un ([own_branch]), MarshalJSON opened up ([encode_owned_inv]), and
   that the owner's test is the only one of [features] that succeeds ([owner_excl]). *)
From Coq Require Import Lia ZArith.
From Sebuf Require Import CodecCases.
From SebufProofs Require Import TextFacts ListFacts ProtoJsonFacts.
From SebufProofs Require Export RawMap.

Open Scope Z_scope.

(* every entry of the value names a field of the message: what protojson's pass over the value ([m_msg]) needs
   in order to answer at all, and what makes the JSON keys of its output distinct *)
Definition declared (md : message) (m : mval) : bool :=
  forallb (fun e => match find_field (m_fields md) (fst e) with Some _ => true | None => false end) m.

Lemma mget_pair (r : mval) k x : mget r k = Some x -> In (k, x) r.
Proof.
  induction r as [|[k' v'] r IH]; cbn [mget]; [discriminate|].
  destruct (str_eqb k k') eqn:Ek; intros H.
  - inversion H; subst v'. apply str_eqb_eq in Ek. subst k'. left. reflexivity.
  - right. apply IH. exact H.
Qed.
Lemma mget_some_in (m : mval) name v : mget m name = Some v -> In name (map fst m).
Proof. intros H. apply mget_pair in H. apply (in_map fst) in H. exact H. Qed.
Lemma mget_in (m : mval) name : In name (map fst m) -> mget m name <> None.
Proof.
  induction m as [|[k v] r IH]; cbn [map fst mget]; [intros []|].
  intros [H|H].
  - subst. rewrite str_eqb_refl. discriminate.
  - destruct (str_eqb name k); [discriminate|]. apply IH. exact H.
Qed.
Lemma mget_nodup (m : mval) name x : NoDup (map fst m) -> In (name, x) m -> mget m name = Some x.
Proof.
  induction m as [|[k v] r IH]; [intros _ []|].
  cbn [map fst mget]. intros Hn Hin. inversion Hn as [|k0 l0 Hk Hr]; subst.
  destruct Hin as [Hin|Hin].
  - inversion Hin; subst. rewrite str_eqb_refl. reflexivity.
  - destruct (str_eqb name k) eqn:Enk; [|apply IH; assumption].
    exfalso. apply str_eqb_eq in Enk. subst k. apply Hk. apply (in_map fst) in Hin. exact Hin.
Qed.

Lemma lt_all_Z_in x l y : lt_all_Z x l = true -> In y l -> x < y.
Proof.
  induction l as [|z r IH]; cbn [lt_all_Z]; [intros _ []|].
  intros Hl Hin. apply andb_prop in Hl. destruct Hl as [Hz Hr].
  destruct Hin as [Hin|Hin]; [subst z; apply Z.ltb_lt; exact Hz|apply IH; assumption].
Qed.
Lemma lt_all_notin x l : lt_all_Z x l = true -> ~ In x l.
Proof. intros H Hin. pose proof (lt_all_Z_in x l x H Hin). lia. Qed.

Lemma sorted_names_nodup md (m : mval) :
  sorted_Z (map (fun e => num_of md (fst e)) m) = true -> NoDup (map fst m).
Proof.
  induction m as [|[n0 x0] r IH]; cbn [map sorted_Z fst]; intros Hs; [constructor|].
  apply andb_prop in Hs. destruct Hs as [Hlt Hs]. constructor; [|apply IH; exact Hs].
  intros Hin. apply (lt_all_notin _ _ Hlt). apply in_map_iff in Hin. destruct Hin as [[n1 x1] [Hn Hin]].
  cbn [fst] in Hn. subst n1. apply (in_map (fun e => num_of md (fst e))) in Hin. exact Hin.
Qed.
Lemma sorted_mget md (m : mval) name x :
  sorted_Z (map (fun e => num_of md (fst e)) m) = true -> In (name, x) m -> mget m name = Some x.
Proof. intros Hs. apply mget_nodup. exact (sorted_names_nodup md m Hs). Qed.

(* the documented losses as a per-field function: [None] drops the entry *)
Definition nmap (nf : field -> fval -> option fval) (md : message) (m : mval) : mval :=
  flat_map (fun e => match find_field (m_fields md) (fst e) with
                     | Some f => match nf f (snd e) with Some x' => [(fst e, x')] | None => [] end
                     | None => [e]
                     end) m.

Lemma nmap_id nf md m : (forall f x, nf f x = Some x) -> nmap nf md m = m.
Proof.
  intros H. induction m as [|[n x] r IH]; [reflexivity|]. unfold nmap in *. cbn [flat_map fst snd]. rewrite IH.
  destruct (find_field (m_fields md) n); [rewrite H|]; reflexivity.
Qed.
Lemma nmap_idem nf md m :
  (forall f x x', nf f x = Some x' -> nf f x' = Some x') -> nmap nf md (nmap nf md m) = nmap nf md m.
Proof.
  intros H. induction m as [|[n x] r IH]; [reflexivity|]. unfold nmap in *. cbn [flat_map fst snd].
  rewrite flat_map_app, IH. f_equal.
  destruct (find_field (m_fields md) n) as [f|] eqn:Ef.
  - destruct (nf f x) as [x'|] eqn:Ex; [|reflexivity]. cbn [flat_map fst snd]. rewrite Ef, (H f x x' Ex). reflexivity.
  - cbn [flat_map fst]. rewrite Ef. reflexivity.
Qed.
Lemma lt_all_nmap nf md z m :
  lt_all_Z z (map (fun e => num_of md (fst e)) m) = true ->
  lt_all_Z z (map (fun e => num_of md (fst e)) (nmap nf md m)) = true.
Proof.
  induction m as [|[n x] r IH]; [reflexivity|]. unfold nmap in *. cbn [flat_map map lt_all_Z fst snd].
  intros H. apply andb_prop in H. destruct H as [H1 H2]. specialize (IH H2).
  destruct (find_field (m_fields md) n) as [f|]; [destruct (nf f x)|]; cbn [app map lt_all_Z fst]; rewrite ?H1; exact IH.
Qed.
Lemma sorted_nmap nf md m :
  sorted_Z (map (fun e => num_of md (fst e)) m) = true ->
  sorted_Z (map (fun e => num_of md (fst e)) (nmap nf md m)) = true.
Proof.
  induction m as [|[n x] r IH]; [reflexivity|]. cbn [map sorted_Z fst].
  intros H. apply andb_prop in H. destruct H as [H1 H2]. specialize (IH H2).
  pose proof (lt_all_nmap nf md _ r H1) as Hl. unfold nmap in *. cbn [flat_map fst snd].
  destruct (find_field (m_fields md) n) as [f|]; [destruct (nf f x)|]; cbn [app map sorted_Z fst]; rewrite ?Hl; exact IH.
Qed.

Definition nf_norm (f : field) (x : fval) : option fval :=
  match tsfmt_of f, empty_of f, x with
  | Some fmt, _, v => Some (trunc_ts fmt v)
  | None, Some EBOmit, FM [] => None
  | _, _, v => Some v
  end.
Lemma norm_fields_nmap md m : norm_fields md m = nmap nf_norm md m.
Proof.
  unfold norm_fields, nmap. apply flat_map_ext. intros [n x]. cbn [fst snd].
  destruct (find_field (m_fields md) n) as [f|]; [|reflexivity]. unfold nf_norm.
  destruct (tsfmt_of f); [reflexivity|].
  destruct (empty_of f) as [[| | |]|]; try reflexivity. destruct x as [?|[|? ?]|?|?]; reflexivity.
Qed.

Lemma field_by_json_find fs name f :
  NoDup (map jn fs) -> find_field fs name = Some f -> field_by_json fs (json_name name) = Some f.
Proof.
  intros Hnd Hf. destruct (find_field_spec _ _ _ Hf) as [Hin Hn]. subst name. exact (field_by_json_jn fs f Hnd Hin).
Qed.

Lemma NoDup_jn_of_numbers fs :
  nodup_Z (map f_number fs) = true ->
  (forall a b, In a fs -> In b fs -> jn a = jn b -> f_number a = f_number b) -> NoDup (map jn fs).
Proof.
  induction fs as [|g r IH]; intros Hnd Hinj; [constructor|].
  cbn [map nodup_Z] in Hnd. apply andb_prop in Hnd. destruct Hnd as [Hg Hr]. cbn [map]. constructor.
  - intros Hin. apply in_map_iff in Hin. destruct Hin as [c [Hc Hinc]].
    apply Bool.negb_true_iff in Hg. apply (proj1 (existsb_false _ _)) with (x := f_number c) in Hg; [|apply in_map; exact Hinc].
    rewrite (Hinj g c (or_introl eq_refl) (or_intror Hinc) (eq_sym Hc)), Z.eqb_refl in Hg. discriminate.
  - apply IH; [exact Hr|]. intros a b Ha Hb. apply Hinj; right; assumption.
Qed.

(* distinct JSON names are part of well-typedness (msg_ok) *)
Lemma msg_ok_jn_NoDup md : msg_ok md = true -> NoDup (map jn (m_fields md)).
Proof.
  intros Hok. unfold msg_ok in Hok. apply andb_prop in Hok. destruct Hok as [Hnd Hall].
  rewrite forallb_forall in Hall. apply NoDup_jn_of_numbers; [exact Hnd|].
  intros a b Ha Hb Hab.
  pose proof (Hall a Ha) as Hka. pose proof (Hall b Hb) as Hkb.
  apply andb_prop in Hka. destruct Hka as [Hka _]. apply andb_prop in Hkb. destruct Hkb as [Hkb _].
  change (json_name (f_name a)) with (jn a) in Hka. change (json_name (f_name b)) with (jn b) in Hkb.
  rewrite <- Hab in Hkb. destruct (field_of_key md (jn a)) as [f'|]; [|discriminate].
  apply Z.eqb_eq in Hka. apply Z.eqb_eq in Hkb. congruence.
Qed.

Lemma find_self fs f : NoDup (map jn fs) -> In f fs -> find_field fs (f_name f) = Some f.
Proof.
  intros Hnd Hin. destruct (find_field fs (f_name f)) as [g|] eqn:Eg.
  - destruct (find_field_spec _ _ _ Eg) as [Hg Hn]. f_equal.
    apply (NoDup_map_inj jn fs g f Hnd Hg Hin). unfold jn. rewrite Hn. reflexivity.
  - exfalso. clear Hnd. induction fs as [|h r IH]; [destruct Hin|]. cbn [find_field] in Eg.
    destruct (str_eqb (f_name h) (f_name f)) eqn:Eh; [discriminate Eg|].
    destruct Hin as [Hin|Hin]; [subst h; rewrite str_eqb_refl in Eh; discriminate Eh|exact (IH Hin Eg)].
Qed.
Lemma find_field_complete md f :
  msg_ok md = true -> In f (m_fields md) -> find_field (m_fields md) (f_name f) = Some f.
Proof. intros Hok. apply find_self. exact (msg_ok_jn_NoDup md Hok). Qed.

Lemma json_keys_NoDup md (m : mval) :
  NoDup (map jn (m_fields md)) -> NoDup (map fst m) -> declared md m = true ->
  NoDup (map (fun e => json_name (fst e)) m).
Proof.
  intros Hjn Hnames Hd. rewrite <- (map_map fst json_name).
  apply NoDup_map_in; [exact Hnames|]. intros a b Ha Hb Hab.
  unfold declared in Hd. rewrite forallb_forall in Hd.
  apply in_map_iff in Ha. destruct Ha as [[na xa] [<- Ha]]. apply in_map_iff in Hb. destruct Hb as [[nb xb] [<- Hb]].
  pose proof (Hd _ Ha) as Hda. pose proof (Hd _ Hb) as Hdb. cbn [fst] in *.
  destruct (find_field (m_fields md) na) as [fa|] eqn:Ea; [|discriminate].
  destruct (find_field (m_fields md) nb) as [fb|] eqn:Eb; [|discriminate].
  destruct (find_field_spec _ _ _ Ea) as [Hina Hna]. destruct (find_field_spec _ _ _ Eb) as [Hinb Hnb].
  assert (fa = fb) by (apply (NoDup_map_inj jn _ fa fb Hjn Hina Hinb); unfold jn; rewrite Hna, Hnb; exact Hab).
  congruence.
Qed.

Lemma wt_fields_in sc md (m : mval) name x :
  wt_fields sc md m = true -> In (name, x) m ->
  exists f, find_field (m_fields md) name = Some f /\ wt_entry sc f x = true.
Proof.
  induction m as [|[n0 x0] r IH]; intros Hw Hin; [destruct Hin|].
  cbn [wt_fields] in Hw. destruct (find_field (m_fields md) n0) as [f|] eqn:Ef; [|discriminate].
  apply andb_prop in Hw. destruct Hw as [Hwe Hwr].
  destruct Hin as [Hin|Hin].
  - inversion Hin; subst. exists f. split; [exact Ef|exact Hwe].
  - apply IH; assumption.
Qed.
Lemma wt_fields_declared sc md (m : mval) : wt_fields sc md m = true -> declared md m = true.
Proof.
  induction m as [|[n0 x0] r IH]; intros Hw; [reflexivity|].
  cbn [wt_fields] in Hw. unfold declared. cbn [forallb fst].
  destruct (find_field (m_fields md) n0); [|discriminate].
  apply andb_prop in Hw. destruct Hw as [_ Hwr]. exact (IH Hwr).
Qed.

(* a populated field's entry by the shape of its value, and by the cardinality of the field *)
Section Shapes.
Variable sc : schema.

Lemma wt_all_list k l :
  (fix all (l : list fval) : bool := match l with [] => true | y :: t => wt sc k y && all t end) l = true ->
  forall y, In y l -> wt sc k y = true.
Proof.
  induction l as [|a t IH]; intros H y Hy; [destruct Hy|]. apply andb_prop in H. destruct H as [Ha Ht].
  destruct Hy as [Hy|Hy]; [subst a; exact Ha|exact (IH Ht y Hy)].
Qed.

Lemma wt_all_map kk k kv :
  (fix all (kv : list (sval * fval)) : bool :=
     match kv with [] => true | (key, y) :: t => wt_key kk key && wt sc k y && all t end) kv = true ->
  forall key y, In (key, y) kv -> wt_key kk key = true /\ wt sc k y = true.
Proof.
  induction kv as [|[k0 a] t IH]; intros H key y Hy; [destruct Hy|]. apply andb_prop in H. destruct H as [Ha Ht].
  destruct Hy as [Hy|Hy]; [inversion Hy; subst k0 a; apply andb_prop; exact Ha|exact (IH Ht key y Hy)].
Qed.

Lemma wt_entry_inv f x : wt_entry sc f x = true ->
  populated f x = true /\
  match x with
  | FL l => f_card f = Repeated /\ forall y, In y l -> wt sc (f_kind f) y = true
  | FMap kv => exists kk, f_card f = MapOf kk /\ sorted_key (map fst kv) = true /\
                          forall key y, In (key, y) kv -> wt_key kk key = true /\ wt sc (f_kind f) y = true
  | _ => (f_card f = Singular \/ f_card f = Optional) /\ wt sc (f_kind f) x = true
  end.
Proof.
  unfold wt_entry. intros H.
  destruct x as [sx|cm|[|e l]|[|e kv]]; destruct (f_card f) as [| | |kk]; try discriminate H.
  - apply andb_prop in H. destruct H as [Hw Hp]. auto.
  - apply andb_prop in H. destruct H as [Hw Hp]. auto.
  - auto.
  - auto.
  - split; [reflexivity|]. split; [reflexivity|]. exact (wt_all_list (f_kind f) (e :: l) H).
  - apply andb_prop in H. destruct H as [Hs H]. split; [reflexivity|]. exists kk. split; [reflexivity|].
    split; [exact Hs|]. exact (wt_all_map kk (f_kind f) (e :: kv) H).
Qed.

Lemma wt_entry_card f x : wt_entry sc f x = true ->
  match f_card f with
  | Repeated => exists l, x = FL l /\ forall y, In y l -> wt sc (f_kind f) y = true
  | MapOf kk => exists kv, x = FMap kv /\ sorted_key (map fst kv) = true /\
                           forall key y, In (key, y) kv -> wt_key kk key = true /\ wt sc (f_kind f) y = true
  | _ => wt sc (f_kind f) x = true
  end.
Proof.
  intros H. destruct (wt_entry_inv f x H) as [_ Hsh]. destruct x as [sx|cm|l|kv].
  - destruct Hsh as [[Hc|Hc] Hw]; rewrite Hc; exact Hw.
  - destruct Hsh as [[Hc|Hc] Hw]; rewrite Hc; exact Hw.
  - destruct Hsh as [Hc HF]. rewrite Hc. exists l. split; [reflexivity|exact HF].
  - destruct Hsh as [kk [Hc [Hs HF]]]. rewrite Hc. exists kv. split; [reflexivity|]. split; assumption.
Qed.
End Shapes.

Lemma wt_message sc tn m :
  str_eqb tn ts_name = false -> wt sc (KMessage tn) (FM m) = true ->
  is_wkt_other tn = false /\
  exists md, find_message (all_messages sc) tn = Some md /\ lookup_message sc tn = Some md /\
             msg_ok md = true /\ sorted_Z (map (fun e => num_of md (fst e)) m) = true /\ wt_fields sc md m = true.
Proof.
  intros Hts Hwt. rewrite wt_FM, Hts in Hwt. apply andb_prop in Hwt. destruct Hwt as [Hwk Hwt].
  apply Bool.negb_true_iff in Hwk. split; [exact Hwk|].
  destruct (find_message (all_messages sc) tn) as [md|] eqn:Hfm; [|discriminate Hwt].
  apply andb_prop in Hwt. destruct Hwt as [Hwt Hwf]. apply andb_prop in Hwt. destruct Hwt as [Hok Hsorted].
  exists md. unfold lookup_message. rewrite Hts. repeat split; assumption.
Qed.

Section Entries.
Variable E : ExtLib.
Variable sc : schema.

(* what protojson.Marshal wrote, entry by entry *)
Definition ent_enc (md : message) (e : str * fval) (e' : str * json) : Prop :=
  exists g, find_field (m_fields md) (fst e) = Some g /\ fst e' = json_name (fst e) /\
            pj_fval E sc (f_kind g) (snd e) = ROk (snd e').

Lemma m_msg_Forall2 md m es : m_msg E sc md m = ROk es -> Forall2 (ent_enc md) m es.
Proof.
  revert es. induction m as [|[name x] r IH]; intros es Hm; cbn [m_msg] in Hm.
  - inversion Hm. constructor.
  - destruct (find_field (m_fields md) name) as [g|] eqn:Hg; [|discriminate Hm].
    apply rbind_ok in Hm. destruct Hm as [j [Hj Hm]]. apply rbind_ok in Hm. destruct Hm as [t [Ht Hm]].
    inversion Hm; subst es. constructor; [|apply IH; exact Ht].
    exists g. cbn [fst snd]. auto.
Qed.

Lemma m_msg_keys md m es : m_msg E sc md m = ROk es -> map fst es = map (fun e => json_name (fst e)) m.
Proof.
  intros H. apply m_msg_Forall2 in H. induction H as [|e e' r r' [g [_ [Hk _]]] _ IH]; [reflexivity|].
  cbn [map]. rewrite Hk, IH. reflexivity.
Qed.
Lemma m_msg_declared md m es : m_msg E sc md m = ROk es -> declared md m = true.
Proof.
  intros H. apply m_msg_Forall2 in H. unfold declared. induction H as [|e e' r r' [g [Hg _]] _ IH]; [reflexivity|].
  cbn [forallb]. rewrite Hg, IH. reflexivity.
Qed.
Lemma m_msg_in md m es k v : m_msg E sc md m = ROk es -> In (k, v) es ->
  exists name x f, In (name, x) m /\ k = json_name name /\ find_field (m_fields md) name = Some f /\
                   pj_fval E sc (f_kind f) x = ROk v.
Proof.
  intros H Hin. apply m_msg_Forall2 in H. induction H as [|[name x] e' r r' [g [Hg [Hk Hj]]] _ IH]; [destruct Hin|].
  destruct Hin as [->|Hin].
  - exists name, x, g. cbn [fst snd] in *. split; [left; reflexivity|]. split; [exact Hk|]. split; [exact Hg|exact Hj].
  - destruct (IH Hin) as [n' [x' [f' [H1 H2]]]]. exists n', x', f'. split; [right; exact H1|exact H2].
Qed.

Lemma m_msg_has md m es f : m_msg E sc md m = ROk es -> mget m (f_name f) <> None -> raw_has (jn f) es = true.
Proof.
  intros Hes Hm. apply raw_has_keys. rewrite (m_msg_keys md m es Hes).
  destruct (mget m (f_name f)) as [x|] eqn:Eg; [|exfalso; apply Hm; reflexivity].
  apply mget_pair in Eg. apply (in_map (fun e : str * fval => json_name (fst e))) in Eg. exact Eg.
Qed.

Lemma m_msg_keys_NoDup md m es :
  NoDup (map jn (m_fields md)) -> NoDup (map fst m) -> m_msg E sc md m = ROk es -> NoDup (map fst es).
Proof.
  intros Hjn Hnames Hes. rewrite (m_msg_keys md m es Hes).
  exact (json_keys_NoDup md m Hjn Hnames (m_msg_declared md m es Hes)).
Qed.

End Entries.

(* a fold of binds stops at the first failure, and a relation every successful step respects holds across it *)
Lemma fold_bind_fail {A B} (g : A -> B -> res A) l (acc : res A) :
  (forall a, acc <> ROk a) -> fold_left (fun acc b => acc >>= (fun a => g a b)) l acc = acc.
Proof.
  revert acc. induction l as [|b r IH]; intros acc Hacc; [reflexivity|]. cbn [fold_left].
  assert (Hstep : acc >>= (fun a => g a b) = acc).
  { destruct acc as [a|e|w]; [exfalso; exact (Hacc a eq_refl)|reflexivity|reflexivity]. }
  rewrite Hstep. apply IH. exact Hacc.
Qed.
Lemma fold_bind_inv {A B} (g : A -> B -> res A) (P : A -> A -> Prop) :
  (forall a, P a a) -> (forall a b c, P a b -> P b c -> P a c) ->
  (forall a b a', g a b = ROk a' -> P a a') ->
  forall l a a', fold_left (fun acc b => acc >>= (fun a => g a b)) l (ROk a) = ROk a' -> P a a'.
Proof.
  intros Hrefl Htrans Hstep. induction l as [|b r IH]; intros a a' H.
  - cbn [fold_left] in H. inversion H; subst. apply Hrefl.
  - cbn [fold_left rbind] in H. destruct (g a b) as [a1|e|w] eqn:Eg.
    + eapply Htrans; [exact (Hstep a b a1 Eg)|exact (IH a1 a' H)].
    + rewrite fold_bind_fail in H by (intros x; discriminate). discriminate H.
    + rewrite fold_bind_fail in H by (intros x; discriminate). discriminate H.
Qed.

Lemma is_msg_kind_inv k : is_msg_kind k = true -> exists tn, k = KMessage tn.
Proof. destruct k; try discriminate. intros _. eexists. reflexivity. Qed.
Lemma is_msg_kind_msgk k : is_msg_kind k = is_msgk k.
Proof. destruct k; reflexivity. Qed.

Lemma msg_ok_no_oneof md f : msg_ok md = true -> In f (m_fields md) -> f_oneof f = None.
Proof.
  unfold msg_ok. intros H Hin. apply andb_prop in H. destruct H as [_ H]. rewrite forallb_forall in H.
  specialize (H f Hin). apply andb_prop in H. destruct H as [_ H]. destruct (f_oneof f); [discriminate H|reflexivity].
Qed.
Lemma msg_ok_no_real_oneof md : msg_ok md = true -> has_real_oneof md = false.
Proof.
  intros Hok. apply existsb_false. intros f Hin. rewrite (msg_ok_no_oneof md f Hok Hin). reflexivity.
Qed.
Lemma msg_ok_no_oneof_set md m : msg_ok md = true -> real_oneof_set md m = false.
Proof.
  intros Hok. apply existsb_false. intros f Hin. rewrite (msg_ok_no_oneof md f Hok Hin). reflexivity.
Qed.

Lemma wt_nonmsg_scalar sc k y : is_msgk k = false -> wt sc k y = true -> exists x, y = FS x /\ wt_scalar sc k x = true.
Proof.
  intros Hk Hw. destruct y as [x|cm|l|kv]; try discriminate Hw.
  - exists x. split; [reflexivity|]. cbn [wt] in Hw. rewrite Hk in Hw. exact Hw.
  - destruct k; try discriminate Hw. discriminate Hk.
Qed.

Lemma find_lookup sc tn md :
  str_eqb tn ts_name = false -> find_message (all_messages sc) tn = Some md -> lookup_message sc tn = Some md.
Proof. intros Hts Hfm. unfold lookup_message. rewrite Hts. exact Hfm. Qed.

(* for witnesses: the message is looked up before anything is said about it *)
Lemma ex_md_of_match (ms : list message) (tn : str) (P : message -> Prop) :
  match find_message ms tn with Some md => P md | None => False end ->
  exists md, find_message ms tn = Some md /\ P md.
Proof. destruct (find_message ms tn) as [md|]; [|intros []]. intros H. exists md. split; [reflexivity|exact H]. Qed.
Ltac conj_split := repeat match goal with |- _ /\ _ => split end.

Lemma owner_owns sc tn md ft : lookup_message sc tn = Some md -> owner_of sc md = Own ft -> owns sc tn = true.
Proof. intros Hlk Hown. unfold owns. rewrite Hlk, Hown. reflexivity. Qed.

Lemma owner_single sc md ft : owner_of sc md = Own ft -> features sc md = [ft].
Proof. unfold owner_of. destruct (features sc md) as [|a [|b l]]; intros H; inversion H; reflexivity. Qed.
Lemma own_excl sc md ft ft' : owner_of sc md = Own ft -> In ft' (features sc md) -> ft' = ft.
Proof. intros Hown Hin. rewrite (owner_single sc md ft Hown) in Hin. destruct Hin as [<-|[]]. reflexivity. Qed.

(* the test [features] runs for each feature *)
Definition feature_test (sc : schema) (md : message) (ft : feature) : bool :=
  match ft with
  | FtUnwrapRoot => is_root_unwrap md
  | FtUnwrapMap => negb (is_root_unwrap md) &&
                   existsb (fun f => match value_unwrap sc f with Some _ => true | None => false end) (m_fields md)
  | FtInt64 => existsb is_number_i64 (m_fields md)
  | FtNullable => existsb is_nullable (m_fields md)
  | FtEmpty => existsb (fun f => match empty_of f with Some _ => true | None => false end) (m_fields md)
  | FtTs => existsb (fun f => match tsfmt_of f with Some _ => true | None => false end) (m_fields md)
  | FtBytes => existsb (fun f => match bytesenc_of f with Some _ => true | None => false end) (m_fields md)
  | FtFlatten => existsb is_flatten (m_fields md)
  | FtOneof => existsb oneof_cfg (m_oneofs md)
  end.
Lemma features_filter sc md :
  features sc md = filter (feature_test sc md)
                     [FtUnwrapRoot; FtUnwrapMap; FtInt64; FtNullable; FtEmpty; FtTs; FtBytes; FtFlatten; FtOneof].
Proof.
  rewrite !filter_cons_app. cbn [filter feature_test]. rewrite app_nil_r. unfold features.
  destruct (is_root_unwrap md); reflexivity.
Qed.
Lemma features_test sc md ft : In ft (features sc md) <-> feature_test sc md ft = true.
Proof.
  rewrite features_filter, filter_In. split; [intros [_ H]; exact H|]. intros H. split; [|exact H].
  destruct ft; cbn [In]; auto 10.
Qed.
Lemma in_features sc md ft : feature_test sc md ft = true -> In ft (features sc md).
Proof. apply features_test. Qed.
Lemma owner_test sc md ft : owner_of sc md = Own ft -> feature_test sc md ft = true.
Proof. intros H. apply features_test. rewrite (owner_single sc md ft H). left. reflexivity. Qed.
Lemma owner_excl sc md ft g : owner_of sc md = Own ft -> g <> ft -> feature_test sc md g = false.
Proof.
  intros Hown Hne. destruct (feature_test sc md g) eqn:Hg; [|reflexivity].
  contradiction Hne. exact (own_excl sc md ft g Hown (in_features sc md g Hg)).
Qed.

Lemma feature_empty sc md f b : In f (m_fields md) -> empty_of f = Some b -> In FtEmpty (features sc md).
Proof.
  intros Hin He. apply in_features. apply existsb_exists. exists f. split; [exact Hin|]. rewrite He. reflexivity.
Qed.
Lemma feature_ts sc md f t : In f (m_fields md) -> tsfmt_of f = Some t -> In FtTs (features sc md).
Proof.
  intros Hin He. apply in_features. apply existsb_exists. exists f. split; [exact Hin|]. rewrite He. reflexivity.
Qed.

Lemma ts_message_unowned sc : owner_of sc ts_message = OwnNone.
Proof. reflexivity. Qed.
Lemma owns_ts_name sc : owns sc ts_name = false.
Proof. unfold owns, lookup_message. rewrite str_eqb_refl, ts_message_unowned. reflexivity. Qed.

Lemma dedup4_nil l : dedup4 l = [] -> l = [].
Proof.
  induction l as [|d r IH]; [reflexivity|]. cbn [dedup4].
  destruct (existsb (fun e => str_eqb (c04_defect_str e) (c04_defect_str d)) r) eqn:Hex; [|discriminate].
  intros Hr. rewrite (IH Hr) in Hex. discriminate Hex.
Qed.
Lemma defects_nil_local sc tn md ft m :
  lookup_message sc tn = Some md -> owner_of sc md = Own ft -> defects_C04 sc tn m = [] -> local_defects sc md m = [].
Proof.
  intros Hlk Hown Hd. unfold defects_C04 in Hd. rewrite (owner_owns sc tn md ft Hlk Hown) in Hd. apply dedup4_nil in Hd.
  cbn [gj_defects] in Hd. rewrite Hlk, Hown in Hd. apply app_eq_nil in Hd. apply Hd.
Qed.

Lemma norm_owned sc tn md ft m :
  lookup_message sc tn = Some md -> owner_of sc md = Own ft ->
  norm sc tn m = match ft with
                 | FtTs | FtEmpty => norm_fields md m
                 | FtUnwrapMap | FtUnwrapRoot => strip_wrappers sc md m
                 | _ => m
                 end.
Proof. intros Hlk Hown. unfold norm. rewrite Hlk, Hown. reflexivity. Qed.

(* Codec.enc_nullable ... enc_bytes, the codecs' MarshalJSON after protojson, are passes of [astep]: [act_X m f]
   is what the body of enc_X's fold does under the key of f ([enc_X_act]) *)
Definition act_nullable (m : mval) (f : field) : action :=
  if is_nullable f then match mget m (f_name f) with None => Some (Some JNull) | Some _ => None end else None.
Definition act_int64 (m : mval) (f : field) : action :=
  if is_number_i64 f then
    match f_card f with
    | Repeated => match mget m (f_name f) with
                  | Some (FL (x :: l)) => Some (Some (JArr (map (fun v => match v with FS (VInt z) => JNum z | _ => JNull end) (x :: l))))
                  | _ => None
                  end
    | _ => match mget m (f_name f) with
           | Some (FS (VInt z)) => if (z =? 0)%Z then Some None else Some (Some (JNum z))
           | _ => Some None
           end
    end
  else None.
Definition act_empty (m : mval) (f : field) : action :=
  match empty_of f, mget m (f_name f) with
  | Some EBNull, Some (FM []) => Some (Some JNull)
  | Some EBOmit, Some (FM []) => Some None
  | _, _ => None
  end.
Definition act_ts (E : ExtLib) (m : mval) (f : field) : action :=
  match tsfmt_of f, mget m (f_name f) with
  | Some fmt, Some (FM tm) =>
      let sec := mget_int tm (s "seconds") in
      let nanos := mget_int tm (s "nanos") in
      match fmt with
      | TFUnixSeconds => Some (Some (JNum sec))
      | TFUnixMillis => Some (Some (JNum (sec * 1000 + nanos / 1000000)%Z))
      | TFDate => Some (Some (JStr (x_date_text E sec)))
      | _ => None
      end
  | _, _ => None
  end.
Definition act_bytes (m : mval) (f : field) : action :=
  match bytesenc_of f, mget m (f_name f) with
  | Some e, Some (FS (VBytes (c :: b))) => Some (Some (JStr (bytes_enc_text e (c :: b))))
  | _, _ => None
  end.

Lemma enc_nullable_act md m raw : enc_nullable md m raw = fold_left (astep (act_nullable m)) (m_fields md) raw.
Proof.
  unfold enc_nullable. apply fold_left_ext. intros a f. unfold astep, act_nullable.
  destruct (is_nullable f); [|reflexivity]. destruct (mget m (f_name f)); reflexivity.
Qed.
Lemma enc_int64_act md m raw : enc_int64 md m raw = fold_left (astep (act_int64 m)) (m_fields md) raw.
Proof.
  unfold enc_int64. apply fold_left_ext. intros a f. unfold astep, act_int64.
  destruct (is_number_i64 f); [|reflexivity].
  destruct (f_card f); destruct (mget m (f_name f)) as [[[z| | | | |]|?|[|? ?]|?]|]; try reflexivity;
    destruct (z =? 0)%Z; reflexivity.
Qed.
Lemma enc_empty_act md m raw : enc_empty md m raw = fold_left (astep (act_empty m)) (m_fields md) raw.
Proof.
  unfold enc_empty. apply fold_left_ext. intros a f. unfold astep, act_empty.
  destruct (empty_of f) as [[| | |]|]; try reflexivity;
    destruct (mget m (f_name f)) as [[?|[|? ?]|?|?]|]; reflexivity.
Qed.
Lemma enc_ts_act E md m raw : enc_ts E md m raw = fold_left (astep (act_ts E m)) (m_fields md) raw.
Proof.
  unfold enc_ts. apply fold_left_ext. intros a f. unfold astep, act_ts.
  destruct (tsfmt_of f) as [fmt|]; [|reflexivity].
  destruct (mget m (f_name f)) as [[?|tm|?|?]|]; try reflexivity. destruct fmt; reflexivity.
Qed.
Lemma enc_bytes_act md m raw : enc_bytes md m raw = fold_left (astep (act_bytes m)) (m_fields md) raw.
Proof.
  unfold enc_bytes. apply fold_left_ext. intros a f. unfold astep, act_bytes.
  destruct (bytesenc_of f) as [e|]; [|reflexivity].
  destruct (mget m (f_name f)) as [[[?|?|?|[|? ?]|?|?]|?|?|?]|]; reflexivity.
Qed.

Definition act_of (E : ExtLib) (ft : feature) (m : mval) : field -> action :=
  match ft with
  | FtNullable => act_nullable m
  | FtInt64 => act_int64 m
  | FtEmpty => act_empty m
  | FtTs => act_ts E m
  | FtBytes => act_bytes m
  | _ => fun _ => None
  end.

(* Codec.dec_nullable ... dec_bytes, the codecs' UnmarshalJSON before protojson, are passes of [gstep]: [gd_X f v]
   (the g of the step, for decoding) is what the body of dec_X's fold does when it finds v under the key of f
   ([dec_X_gstep]) *)
Definition gd_nullable (f : field) (v : json) : action :=
  if is_nullable f then match v with JNull => Some None | _ => None end else None.
Definition gd_int64 (f : field) (v : json) : action :=
  if is_number_i64 f then
    match f_card f with
    | Repeated =>
        match v with
        | JArr l => match go_ints (f_kind f) l with
                    | Some zs => Some (Some (JArr (map (fun z => JStr (show_Z z)) zs)))
                    | None => None
                    end
        | JNull => Some (Some (JArr []))
        | _ => None
        end
    | _ => match go_int (f_kind f) v with Some z => Some (Some (JStr (show_Z z))) | None => None end
    end
  else None.
Definition gd_empty (f : field) (v : json) : action :=
  match empty_of f, v with Some EBNull, JNull => Some (Some (JObj [])) | _, _ => None end.
Definition gd_ts (E : ExtLib) (f : field) (v : json) : action :=
  match tsfmt_of f with
  | Some TFUnixSeconds =>
      match go_int KInt64 v with Some n => Some (Some (nano_text_or_bad E n 0)) | None => None end
  | Some TFUnixMillis =>
      match go_int KInt64 v with
      | Some n => Some (Some (nano_text_or_bad E (n / 1000) ((n mod 1000) * 1000000)))
      | None => None
      end
  | Some TFDate =>
      match v with
      | JStr x => match x_date_parse E x with Some sec => Some (Some (nano_text_or_bad E sec 0)) | None => None end
      | _ => None
      end
  | _ => None
  end.
Definition gd_bytes (f : field) (v : json) : action :=
  match bytesenc_of f, v with
  | Some e, JStr x => match bytes_dec_text e x with Some b => Some (Some (JStr (b64_enc false true b))) | None => None end
  | _, _ => None
  end.

Lemma dec_nullable_gstep md raw : dec_nullable md raw = fold_left (gstep gd_nullable) (m_fields md) raw.
Proof.
  unfold dec_nullable. apply fold_left_ext. intros a f. unfold gstep, gd_nullable.
  destruct (is_nullable f); destruct (raw_get (jn f) a) as [[]|]; reflexivity.
Qed.
Lemma dec_int64_gstep md raw : dec_int64 md raw = fold_left (gstep gd_int64) (m_fields md) raw.
Proof.
  unfold dec_int64. apply fold_left_ext. intros a f. unfold gstep, gd_int64.
  destruct (is_number_i64 f); destruct (raw_get (jn f) a) as [v|]; try reflexivity.
  destruct (f_card f); try (destruct (go_int (f_kind f) v); reflexivity).
  destruct v as [|b|z|x|l|kv]; try reflexivity. destruct (go_ints (f_kind f) l); reflexivity.
Qed.
Lemma dec_empty_gstep md raw : dec_empty md raw = fold_left (gstep gd_empty) (m_fields md) raw.
Proof.
  unfold dec_empty. apply fold_left_ext. intros a f. unfold gstep, gd_empty.
  destruct (empty_of f) as [[| | |]|]; destruct (raw_get (jn f) a) as [[]|]; reflexivity.
Qed.
Lemma dec_ts_gstep E md raw : dec_ts E md raw = fold_left (gstep (gd_ts E)) (m_fields md) raw.
Proof.
  unfold dec_ts. apply fold_left_ext. intros a f. unfold gstep, gd_ts.
  destruct (tsfmt_of f) as [[| | | |]|]; destruct (raw_get (jn f) a) as [v|]; try reflexivity.
  - destruct (go_int KInt64 v); reflexivity.
  - destruct (go_int KInt64 v); reflexivity.
  - destruct v; try reflexivity. destruct (x_date_parse E x); reflexivity.
Qed.

(* bytes_encoding.go's decoder declines a text with CR / LF (the model's "Unmodelled" branch); away from such
   texts it is a pass like the others *)
Definition dec_bytes_step (raw : rawmap) (f : field) : res rawmap :=
  match bytesenc_of f, raw_get (jn f) raw with
  | Some e, Some (JStr x) =>
      if has_crlf x then RUnm (s "bytes text with CR/LF") else
      match bytes_dec_text e x with
      | Some b => ROk (raw_set (jn f) (JStr (b64_enc false true b)) raw)
      | None => ROk raw
      end
  | _, _ => ROk raw
  end.
Lemma dec_bytes_step_gstep raw f :
  (forall e x, bytesenc_of f = Some e -> raw_get (jn f) raw = Some (JStr x) -> has_crlf x = false) ->
  dec_bytes_step raw f = ROk (gstep gd_bytes raw f).
Proof.
  intros H. unfold dec_bytes_step, gstep, gd_bytes.
  destruct (bytesenc_of f) as [e|]; [|destruct (raw_get (jn f) raw); reflexivity].
  destruct (raw_get (jn f) raw) as [[| | |x| |]|]; try reflexivity.
  rewrite (H e x eq_refl eq_refl). destruct (bytes_dec_text e x); reflexivity.
Qed.
Lemma dec_bytes_gstep md : forall raw,
  NoDup (map jn (m_fields md)) ->
  (forall f e x, In f (m_fields md) -> bytesenc_of f = Some e -> raw_get (jn f) raw = Some (JStr x) -> has_crlf x = false) ->
  dec_bytes md raw = ROk (fold_left (gstep gd_bytes) (m_fields md) raw).
Proof.
  change (forall raw, NoDup (map jn (m_fields md)) ->
    (forall f e x, In f (m_fields md) -> bytesenc_of f = Some e -> raw_get (jn f) raw = Some (JStr x) -> has_crlf x = false) ->
    fold_left (fun acc f => acc >>= (fun raw => dec_bytes_step raw f)) (m_fields md) (ROk raw)
    = ROk (fold_left (gstep gd_bytes) (m_fields md) raw)).
  induction (m_fields md) as [|f r IH]; intros raw Hnd Hcr; [reflexivity|].
  cbn [map] in Hnd. inversion Hnd as [|k0 l0 Hnot Hnd']; subst.
  cbn [fold_left]. rewrite rbind_ROk, (dec_bytes_step_gstep raw f (fun e x => Hcr f e x (or_introl eq_refl))).
  apply (IH _ Hnd'). intros h e x Hh He Hg. apply (Hcr h e x (or_intror Hh) He). rewrite <- Hg.
  unfold gstep. destruct (raw_get (jn f) raw); [|reflexivity]. symmetry. apply raw_get_alter.
  intros Heq. apply Hnot. rewrite <- Heq. apply in_map. exact Hh.
Qed.

Definition gd_of (E : ExtLib) (ft : feature) : field -> json -> action :=
  match ft with
  | FtNullable => gd_nullable
  | FtInt64 => gd_int64
  | FtEmpty => gd_empty
  | FtTs => gd_ts E
  | FtBytes => gd_bytes
  | _ => fun _ _ => None
  end.
Definition dec_of (E : ExtLib) (ft : feature) (md : message) (raw : rawmap) : res rawmap :=
  match ft with
  | FtNullable => ROk (dec_nullable md raw)
  | FtInt64 => ROk (dec_int64 md raw)
  | FtEmpty => ROk (dec_empty md raw)
  | FtTs => ROk (dec_ts E md raw)
  | FtBytes => dec_bytes md raw
  | _ => ROk raw
  end.

Definition is_field_codec (ft : feature) : bool :=
  match ft with FtNullable | FtInt64 | FtBytes | FtTs | FtEmpty => true | _ => false end.

(* a case analysis over the features in which only the five field codecs matter *)
Lemma field_codec_match {A} ft (g : feature -> A) (ur um i n e t b fl oo : A) :
  is_field_codec ft = true ->
  i = g FtInt64 -> n = g FtNullable -> e = g FtEmpty -> t = g FtTs -> b = g FtBytes ->
  match ft with
  | FtUnwrapRoot => ur | FtUnwrapMap => um | FtInt64 => i | FtNullable => n | FtEmpty => e | FtTs => t | FtBytes => b
  | FtFlatten => fl | FtOneof => oo
  end = g ft.
Proof. intros Hft. destruct ft; try discriminate Hft; intros; assumption. Qed.

Lemma dec_of_gstep E ft md raw : is_field_codec ft = true -> ft <> FtBytes ->
  dec_of E ft md raw = ROk (fold_left (gstep (gd_of E ft)) (m_fields md) raw).
Proof.
  intros Hft Hb. destruct ft; try discriminate Hft; cbn [dec_of gd_of].
  - rewrite dec_int64_gstep. reflexivity.
  - rewrite dec_nullable_gstep. reflexivity.
  - rewrite dec_empty_gstep. reflexivity.
  - rewrite dec_ts_gstep. reflexivity.
  - contradiction Hb. reflexivity.
Qed.

(* only the nullable codec writes under the key of an unpopulated field *)
Lemma act_of_absent E ft m f :
  mget m (f_name f) = None ->
  fresh1 (jn f) (act_of E ft m f) = match ft with FtNullable => if is_nullable f then [(jn f, JNull)] else [] | _ => [] end.
Proof.
  intros Hg. destruct ft; cbn [act_of]; try reflexivity.
  - unfold act_int64. rewrite Hg. destruct (is_number_i64 f); [|reflexivity]. destruct (f_card f); reflexivity.
  - unfold act_nullable. rewrite Hg. destruct (is_nullable f); reflexivity.
  - unfold act_empty. rewrite Hg. destruct (empty_of f) as [[| | |]|]; reflexivity.
  - unfold act_ts. rewrite Hg. destruct (tsfmt_of f); reflexivity.
  - unfold act_bytes. rewrite Hg. destruct (bytesenc_of f); reflexivity.
Qed.
(* ... and UnmarshalJSON deletes what it wrote there *)
Lemma absent_deleted E ft m f v :
  mget m (f_name f) = None -> act_of E ft m f = Some (Some v) -> gd_of E ft f v = Some None.
Proof.
  intros Hm Ha. pose proof (act_of_absent E ft m f Hm) as H. rewrite Ha in H. cbn [fresh1] in H.
  destruct ft; try discriminate H. cbn [gd_of]. unfold gd_nullable.
  destruct (is_nullable f); [|discriminate H]. injection H as ->. reflexivity.
Qed.

(* gj_un and gj_fval on a message type start alike: not a well-known type, a declared type, then the case of its
   owner.  Selecting the owner's branch by three rewrites copies the unfolded body three times; this selects it in
   one step (apply it after unfolding one step; what remains is the owner's branch) *)
Lemma owner_branch {A} (b : bool) (o : option message) md (ow : message -> owner) w (u v a : A) (c : message -> A)
    (d : message -> feature -> A) (r : A) :
  b = false -> o = Some md -> ow md = w ->
  match w with OwnMany => a | OwnNone => c md | Own f => d md f end = r ->
  (if b then u else match o with
                    | None => v
                    | Some y => match ow y with OwnMany => a | OwnNone => c y | Own f => d y f end
                    end) = r.
Proof. intros -> -> <- <-. reflexivity. Qed.
Lemma own_branch {A} (b : bool) (o : option message) md (ow : message -> owner) ft (u v a : A) (c : message -> A)
    (d : message -> feature -> A) (r : A) :
  b = false -> o = Some md -> ow md = Own ft -> d md ft = r ->
  (if b then u else match o with
                    | None => v
                    | Some y => match ow y with OwnMany => a | OwnNone => c y | Own f => d y f end
                    end) = r.
Proof. intros H1 H2 H3. exact (owner_branch b o md ow (Own ft) u v a c d r H1 H2 H3). Qed.

Lemma if_negb_true {A} (b : bool) (u v r : A) : b = true -> v = r -> (if negb b then u else v) = r.
Proof. intros -> <-. reflexivity. Qed.

Section Codec.
Variable E : ExtLib.
Variable sc : schema.

(* the inner [fix] of Codec.gj_fval on a message with a codec, under a name: the children the codec renders by
   their own MarshalJSON, in the order of the value ([gj_fval_owned] holds by conversion) *)
Definition kids_loop (ft : feature) (md : message) : list (str * fval) -> res kids_t :=
  fix go (m0 : list (str * fval)) : res kids_t :=
    match m0 with
    | [] => ROk []
    | (name, x) :: r =>
        match find_field (m_fields md) name with
        | None => RUnm (s "value names an undeclared field")
        | Some f =>
            if needs_gj sc ft md f
            then match gj_fval E sc (f_kind f) x with
                 | RUnm w => RUnm w
                 | rj => go r >>= (fun t => ROk ((name, rj) :: t))
                 end
            else go r
        end
    end.

Lemma gj_fval_owned tn md ft m :
  is_wkt_other tn = false -> lookup_message sc tn = Some md -> owner_of sc md = Own ft ->
  gj_fval E sc (KMessage tn) (FM m) = kids_loop ft md m >>= (fun ks => codec_body E sc ft tn md m ks).
Proof. intros H1 H2 H3. cbn [gj_fval]. apply (own_branch _ _ md _ ft _ _ _ _ _ _ H1 H2 H3). reflexivity. Qed.

Lemma kids_loop_none ft md m :
  (forall f, needs_gj sc ft md f = false) -> declared md m = true -> kids_loop ft md m = ROk [].
Proof.
  intros Hn. unfold declared. induction m as [|[name x] r IH]; cbn [kids_loop forallb fst]; [reflexivity|].
  destruct (find_field (m_fields md) name) as [f|]; [|discriminate]. rewrite (Hn f). exact IH.
Qed.
Lemma needs_gj_field_codec ft md f : is_field_codec ft = true -> needs_gj sc ft md f = false.
Proof. destruct ft; try discriminate; reflexivity. Qed.

(* MarshalJSON of a message with a codec, opened up: the emitted code compiles, the children are rendered, and the
   body of the codec answers *)
Lemma encode_owned_inv tn md ft m j :
  is_wkt_other tn = false -> lookup_message sc tn = Some md -> owner_of sc md = Own ft ->
  encode E sc tn m = ROk j ->
  buildable sc ft md = true /\ exists ks, kids_loop ft md m = ROk ks /\ codec_body E sc ft tn md m ks = ROk j.
Proof.
  intros Hwk Hlk Hown Henc. unfold encode in Henc.
  rewrite (owner_owns sc tn md ft Hlk Hown), (gj_fval_owned tn md ft m Hwk Hlk Hown) in Henc.
  apply rbind_ok in Henc. destruct Henc as [ks [Hks Hbody]].
  split; [|exists ks; split; assumption].
  unfold codec_body in Hbody. destruct (buildable sc ft md); [reflexivity|discriminate Hbody].
Qed.

Lemma encode_ok_buildable tn md ft m j :
  is_wkt_other tn = false -> lookup_message sc tn = Some md -> owner_of sc md = Own ft ->
  encode E sc tn m = ROk j -> buildable sc ft md = true.
Proof. intros Hwk Hlk Hown Henc. exact (proj1 (encode_owned_inv tn md ft m j Hwk Hlk Hown Henc)). Qed.

Lemma codec_body_field_codec ft tn md m ks :
  is_field_codec ft = true -> str_eqb tn ts_name = false -> is_wkt_other tn = false ->
  find_message (all_messages sc) tn = Some md -> buildable sc ft md = true ->
  codec_body E sc ft tn md m ks =
  m_msg E sc md m >>= (fun es => ROk (JObj (fold_left (astep (act_of E ft m)) (m_fields md) es))).
Proof.
  intros Hft Hts Hwk Hfm Hb. unfold codec_body. rewrite Hb. cbn [negb]. unfold pj_marshal. rewrite pj_fval_FM, Hts, Hwk, Hfm.
  destruct (m_msg E sc md m) as [es|e|w]; [|destruct ft; try discriminate Hft; reflexivity..].
  destruct ft; try discriminate Hft; cbn [rbind as_obj act_of].
  - rewrite enc_int64_act. reflexivity.
  - rewrite enc_nullable_act. reflexivity.
  - rewrite enc_empty_act. reflexivity.
  - rewrite enc_ts_act. reflexivity.
  - rewrite enc_bytes_act. reflexivity.
Qed.

Lemma encode_field_codec tn md ft m j :
  str_eqb tn ts_name = false -> is_wkt_other tn = false ->
  find_message (all_messages sc) tn = Some md -> owner_of sc md = Own ft ->
  is_field_codec ft = true ->
  encode E sc tn m = ROk j ->
  exists es, m_msg E sc md m = ROk es /\ buildable sc ft md = true /\
             j = JObj (fold_left (astep (act_of E ft m)) (m_fields md) es).
Proof.
  intros Hts Hwk Hfm Hown Hft Henc.
  destruct (encode_owned_inv tn md ft m j Hwk (find_lookup sc tn md Hts Hfm) Hown Henc) as [Hb [ks [_ Hbody]]].
  rewrite (codec_body_field_codec ft tn md m ks Hft Hts Hwk Hfm Hb) in Hbody.
  apply rbind_ok in Hbody. destruct Hbody as [es [Hes Hj]]. inversion Hj. exists es. auto.
Qed.

Lemma gj_un_field_codec n tn md ft raw :
  is_field_codec ft = true -> is_wkt_other tn = false -> lookup_message sc tn = Some md ->
  owner_of sc md = Own ft -> buildable sc ft md = true ->
  gj_un E sc (S n) (KMessage tn) (JObj raw) =
  dec_of E ft md raw >>= (fun r => pj_un E sc (KMessage tn) (JObj r) >>= (fun v => ROk (Some v))).
Proof.
  intros Hft H1 H2 H3 H4. cbn [gj_un]. apply (own_branch _ _ md _ ft _ _ _ _ _ _ H1 H2 H3).
  apply (if_negb_true _ _ _ _ H4). cbv zeta.
  (* [reflexivity] alone would compare the two calls of pj_un before it looks at their arguments *)
  apply (field_codec_match ft (fun ft => dec_of E ft md raw >>= _) _ _ _ _ _ _ _ _ _ Hft);
    cbn [unobj dec_of]; rewrite ?rbind_ROk; reflexivity.
Qed.

Lemma decode_field_codec tn md ft raw :
  is_field_codec ft = true -> is_wkt_other tn = false -> lookup_message sc tn = Some md ->
  owner_of sc md = Own ft -> buildable sc ft md = true ->
  decode E sc tn (JObj raw) = dec_of E ft md raw >>= (fun r => pj_unmarshal E sc tn (JObj r)).
Proof.
  intros Hft Hwk Hlk Hown Hb. unfold decode. rewrite (owner_owns sc tn md ft Hlk Hown). cbv beta iota.
  rewrite (gj_un_field_codec _ tn md ft raw Hft Hwk Hlk Hown Hb). unfold pj_unmarshal.
  destruct (dec_of E ft md raw) as [r|e|w]; [|reflexivity..]. cbn [rbind].
  destruct (pj_un E sc (KMessage tn) (JObj r)) as [[]|e|w]; reflexivity.
Qed.
End Codec.

Section RoundTrip.
Variable E : ExtLib.
Hypothesis EL : ExtLaws E.
Variable sc : schema.

(* a value through MarshalJSON's action and then UnmarshalJSON's *)
Definition thru (a : action) (d : json -> action) (j : json) : option json :=
  match aval a j with Some j1 => aval (d j1) j1 | None => None end.

Lemma slots_thru ge gd fs g k j :
  field_by_json fs k = Some g ->
  flat_map (gslot gd fs) (slot ge fs (k, j)) = match thru (ge g) (gd g) j with Some j' => [(k, j')] | None => [] end.
Proof.
  intros Hbj. unfold slot, upd, thru. cbn [fst snd]. rewrite Hbj. destruct (aval (ge g) j) as [j1|]; [|reflexivity].
  cbn [flat_map]. rewrite app_nil_r. unfold gslot, upd. cbn [fst snd]. rewrite Hbj. reflexivity.
Qed.

(* field f holds x, which protojson writes as j: what arrives at protojson.Unmarshal under f's key reads back
   as what [nf] keeps of x *)
Definition slot_ok (nf : field -> fval -> option fval) (a : action) (d : json -> action)
                   (f : field) (x : fval) (j : json) : Prop :=
  match nf f x with
  | Some x' => exists j', thru a d j = Some j' /\ u_value E sc f j' = ROk (Some x') /\ populated f x' = true
  | None => thru a d j = None
  end.

Lemma slot_ok_plain nf a d f x j :
  a = None -> d j = None -> nf f x = Some x -> wt_entry sc f x = true -> pj_fval E sc (f_kind f) x = ROk j ->
  slot_ok nf a d f x j.
Proof.
  intros -> Hd Hn Hw Hj. unfold slot_ok, thru. rewrite Hn. cbn [aval]. rewrite Hd. exists j. split; [reflexivity|].
  exact (entry_rt E EL sc f x j (pj_roundtrip_fval E EL sc x) Hw Hj).
Qed.

(* MarshalJSON's pass and then UnmarshalJSON's, on what protojson wrote.  Either pass acts entry by entry
   ([fold_astep], [fold_gstep_closed]), so the object that reaches protojson.Unmarshal is the flat_map, over the
   entries of es, of the second slot after the first, plus what becomes of the keys the first pass added: those
   go again (the last hypothesis).  Entry by entry, [slot_ok] says that what is left reads back as [nf] has it,
   and [pj_un_entries] puts the entries together *)
Lemma passes_roundtrip tn md m es (ge : field -> action) (gd : field -> json -> action) nf :
  str_eqb tn ts_name = false -> is_wkt_other tn = false -> find_message (all_messages sc) tn = Some md ->
  msg_ok md = true -> sorted_Z (map (fun e => num_of md (fst e)) m) = true -> wt_fields sc md m = true ->
  m_msg E sc md m = ROk es ->
  (forall x f j, find_field (m_fields md) (f_name f) = Some f -> mget m (f_name f) = Some x -> wt_entry sc f x = true ->
     pj_fval E sc (f_kind f) x = ROk j -> slot_ok nf (ge f) (gd f) f x j) ->
  (forall f v, In f (m_fields md) -> mget m (f_name f) = None -> ge f = Some (Some v) -> gd f v = Some None) ->
  pj_un E sc (KMessage tn) (JObj (fold_left (gstep gd) (m_fields md) (fold_left (astep ge) (m_fields md) es)))
  = ROk (FM (nmap nf md m)).
Proof.
  intros Hts Hwk Hfm Hok Hsorted Hwf Hes Hpres Habs.
  pose proof (msg_ok_jn_NoDup md Hok) as Hnd.
  pose proof (m_msg_keys_NoDup E sc md m es Hnd (sorted_names_nodup md m Hsorted) Hes) as Hkeys.
  rewrite (fold_gstep_closed gd _ _ Hnd (fold_astep_NoDup ge _ es Hkeys)), (fold_astep ge _ es Hnd), flat_map_app.
  (* a key MarshalJSON adds for an unset field is deleted again *)
  assert (Hfresh : flat_map (gslot gd (m_fields md)) (fresh ge (m_fields md) es) = []).
  { apply (fresh_gslot_nil ge gd _ es Hnd). intros f v Hf Eh. apply (Habs f v Hf).
    destruct (mget m (f_name f)) eqn:Em; [|reflexivity].
    rewrite (m_msg_has E sc md m es f Hes) in Eh; [discriminate|rewrite Em; discriminate]. }
  rewrite Hfresh, app_nil_r, flat_map_flat_map.
  apply (pj_un_entries E sc tn md _ _ Hts Hwk Hfm Hok (sorted_nmap nf md m Hsorted)).
  unfold nmap. apply (Forall2_flat_map_in (ent_enc E sc md) _ _ _ m es (m_msg_Forall2 E sc md m es Hes)).
  intros [name x] [k j] Hin [g [Hg [Hk Hpj]]]. cbn [fst snd] in Hg, Hk, Hpj |- *. subst k.
  destruct (wt_fields_in sc md m name x Hwf Hin) as [g' [Hg' Hwe]]. rewrite Hg in Hg'. inversion Hg'; subst g'.
  destruct (find_field_spec _ _ _ Hg) as [Hing Hname].
  assert (Hm : mget m (f_name g) = Some x) by (rewrite Hname; exact (sorted_mget md m name x Hsorted Hin)).
  assert (Hff : find_field (m_fields md) (f_name g) = Some g) by (rewrite Hname; exact Hg).
  pose proof (Hpres x g j Hff Hm Hwe Hpj) as Hs. unfold slot_ok in Hs.
  rewrite Hg, (slots_thru ge gd _ g _ j (field_by_json_find _ name g Hnd Hg)).
  destruct (nf g x) as [x'|].
  - destruct Hs as [j' [Ht [Hu Hp]]]. rewrite Ht. constructor; [|constructor]. exists g. cbn [fst snd]. auto.
  - rewrite Hs. constructor.
Qed.

(* C04 for a message owned by one of the five field codecs: [nf] is the documented loss, and the three
   hypotheses are the codec's own content — a set field, an unset field, and that the decoder's pass is taken *)
Theorem field_codec_roundtrip ft nf tn md m j :
  is_field_codec ft = true -> str_eqb tn ts_name = false ->
  find_message (all_messages sc) tn = Some md -> owner_of sc md = Own ft ->
  wt sc (KMessage tn) (FM m) = true ->
  (buildable sc ft md = true -> forall x f j,
     find_field (m_fields md) (f_name f) = Some f -> mget m (f_name f) = Some x -> wt_entry sc f x = true ->
     pj_fval E sc (f_kind f) x = ROk j -> slot_ok nf (act_of E ft m f) (gd_of E ft f) f x j) ->
  (forall f v, In f (m_fields md) -> mget m (f_name f) = None ->
     act_of E ft m f = Some (Some v) -> gd_of E ft f v = Some None) ->
  (forall es, m_msg E sc md m = ROk es -> msg_ok md = true -> wt_fields sc md m = true ->
     dec_of E ft md (fold_left (astep (act_of E ft m)) (m_fields md) es)
     = ROk (fold_left (gstep (gd_of E ft)) (m_fields md) (fold_left (astep (act_of E ft m)) (m_fields md) es))) ->
  encode E sc tn m = ROk j -> decode E sc tn j = ROk (nmap nf md m).
Proof.
  intros Hft Hts Hfm Hown Hwt Hpres Habs Hdec Henc.
  destruct (wt_message sc tn m Hts Hwt) as [Hwk [md' [Hfm' [Hlk [Hok [Hsorted Hwf]]]]]].
  rewrite Hfm in Hfm'. inversion Hfm'; subst md'. clear Hfm'.
  destruct (encode_field_codec E sc tn md ft m j Hts Hwk Hfm Hown Hft Henc) as [es [Hes [Hb Hj]]]. subst j.
  rewrite (decode_field_codec E sc tn md ft _ Hft Hwk Hlk Hown Hb), (Hdec es Hes Hok Hwf), rbind_ROk.
  unfold pj_unmarshal.
  rewrite (passes_roundtrip tn md m es _ _ nf Hts Hwk Hfm Hok Hsorted Hwf Hes (Hpres Hb) Habs). reflexivity.
Qed.
End RoundTrip.
Close Scope Z_scope.
