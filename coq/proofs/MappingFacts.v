(* MappingFacts.v — C05: the server's JSON against the documented mapping.
   - the loops of Mapping.mp_fval under names, and what they do on an entry without flatten / oneof_config;
   - C05_context_free: the mapping of a message value does not depend on where it occurs; of the enclosing
     field only four options are read, and only at some kinds ([inert_at], [mp_fval_inert]);
   - C05_unannotated_is_proto3: where no annotation is reachable from the value, both the server's
     JSON (Codec.encode) and the documented mapping (Mapping.to_json) ARE ProtoJson.marshal;
   - one refutation per defect class. *)
From Sebuf Require Import CodecCases.
From SebufProofs Require Import ListFacts ProtoJsonFacts CodecExamples.

Open Scope Z_scope.

Definition is_none {A} (o : option A) : bool := match o with None => true | Some _ => false end.

Definition plain_field (f : field) : bool :=
  negb (f_unwrap f) && is_none (f_int64 f) && is_none (f_enumenc f) && is_none (f_nullable f) && is_none (f_empty f) &&
  is_none (f_tsfmt f) && is_none (f_bytesenc f) && is_none (f_oneof_value f) && is_none (f_flatten f) && is_none (f_flatten_prefix f).

Definition plain_msg (md : message) : bool :=
  forallb plain_field (m_fields md) && forallb (fun o => negb (o_has_cfg o)) (m_oneofs md).

Definition plain_enum (sc : schema) (k : kind) : bool :=
  match k with
  | KEnum tn => match find_enum (all_enums sc) tn with
                | Some e => forallb (fun v => is_none (ev_custom v)) (e_values e)
                | None => true
                end
  | _ => true
  end.

(* every message and enum type that occurs in the value is un-annotated *)
Fixpoint plain_in (sc : schema) (k : kind) (v : fval) {struct v} : bool :=
  match v with
  | FS _ => plain_enum sc k
  | FL l => (fix go (l : list fval) : bool := match l with [] => true | x :: r => plain_in sc k x && go r end) l
  | FMap kv => (fix go (kv : list (sval * fval)) : bool := match kv with [] => true | (_, x) :: r => plain_in sc k x && go r end) kv
  | FM m =>
      match k with
      | KMessage tn =>
          if str_eqb tn ts_name then true else
          match find_message (all_messages sc) tn with
          | None => true
          | Some md =>
              plain_msg md &&
              (fix go (m : list (str * fval)) : bool :=
                 match m with
                 | [] => true
                 | (name, x) :: r =>
                     match find_field (m_fields md) name with
                     | Some f => plain_in sc (f_kind f) x && go r
                     | None => go r
                     end
                 end) m
          end
      | _ => true
      end
  end.

(* the top-level message: additionally none of its map fields has unwrap-wrapper values (that alone
   makes the generator emit a codec for it, whatever the value) *)
Definition plain_top (sc : schema) (tn : str) : bool :=
  match lookup_message sc tn with
  | Some md => plain_msg md && forallb (fun f => is_none (value_unwrap sc f)) (m_fields md)
  | None => true
  end.

Lemma is_none_true {A} (o : option A) : is_none o = true -> o = None.
Proof. destruct o; [discriminate|reflexivity]. Qed.

Lemma existsb_none {A} (p : A -> bool) l : (forall a, In a l -> p a = false) -> existsb p l = false.
Proof. apply existsb_false. Qed.

Lemma plain_field_facts f : plain_field f = true ->
  f_unwrap f = false /\ f_int64 f = None /\ f_enumenc f = None /\ f_nullable f = None /\ f_empty f = None /\
  f_tsfmt f = None /\ f_bytesenc f = None /\ f_oneof_value f = None /\ f_flatten f = None /\ f_flatten_prefix f = None.
Proof.
  unfold plain_field.
  intros [[[[[[[[[Hu Hi]%andb_prop He]%andb_prop Hn]%andb_prop Hem]%andb_prop Ht]%andb_prop Hb]%andb_prop
            Hov]%andb_prop Hfl]%andb_prop Hfp]%andb_prop.
  split; [apply Bool.negb_true_iff; exact Hu|]. repeat split; apply is_none_true; assumption.
Qed.

(* what the generators' own predicates say of a field without the option *)
Lemma number_i64_off f : f_int64 f = None -> is_number_i64 f = false.
Proof. intros H. unfold is_number_i64. rewrite H. apply Bool.andb_false_r. Qed.
Lemma nullable_off f : f_nullable f = None -> is_nullable f = false.
Proof. intros H. unfold is_nullable. rewrite H. reflexivity. Qed.
Lemma empty_of_off f : f_empty f = None -> empty_of f = None.
Proof. intros H. unfold empty_of. rewrite H. reflexivity. Qed.
Lemma tsfmt_of_off f : f_tsfmt f = None -> tsfmt_of f = None.
Proof. intros H. unfold tsfmt_of. rewrite H. destruct (is_timestamp (f_kind f) && negb (is_map f)); reflexivity. Qed.
Lemma bytesenc_of_none f : f_bytesenc f = None -> bytesenc_of f = None.
Proof. intros H. unfold bytesenc_of. rewrite H. destruct (f_kind f); try reflexivity. destruct (is_map f); reflexivity. Qed.
Lemma flatten_off f : f_flatten f = None -> is_flatten f = false.
Proof. intros H. unfold is_flatten. rewrite H. reflexivity. Qed.

Lemma plain_msg_fields md f : plain_msg md = true -> In f (m_fields md) -> plain_field f = true.
Proof.
  unfold plain_msg. intros H Hin. apply andb_prop in H. destruct H as [H _].
  rewrite forallb_forall in H. auto.
Qed.

Lemma no_unwrap_fields md : (forall f, In f (m_fields md) -> f_unwrap f = false) -> unwrap_fields md = [].
Proof. intros H. apply filter_nil. exact H. Qed.

Lemma plain_no_features sc md :
  plain_msg md = true -> forallb (fun f => is_none (value_unwrap sc f)) (m_fields md) = true -> features sc md = [].
Proof.
  intros Hp Hv. rewrite forallb_forall in Hv.
  assert (HF : forall f, In f (m_fields md) -> plain_field f = true) by (intros f; apply plain_msg_fields; exact Hp).
  unfold plain_msg in Hp. apply andb_prop in Hp. destruct Hp as [_ Ho]. rewrite forallb_forall in Ho.
  unfold features, is_root_unwrap, unwrap_field.
  rewrite (no_unwrap_fields md (fun f Hin => proj1 (plain_field_facts f (HF f Hin)))).
  rewrite (existsb_none (fun f => match value_unwrap sc f with Some _ => true | None => false end)).
  2:{ intros f Hin. rewrite (is_none_true _ (Hv f Hin)). reflexivity. }
  rewrite (existsb_none is_number_i64).
  2:{ intros f Hin. apply number_i64_off. apply (plain_field_facts f (HF f Hin)). }
  rewrite (existsb_none is_nullable).
  2:{ intros f Hin. apply nullable_off. apply (plain_field_facts f (HF f Hin)). }
  rewrite (existsb_none (fun f => match empty_of f with Some _ => true | None => false end)).
  2:{ intros f Hin. rewrite empty_of_off; [reflexivity|]. apply (plain_field_facts f (HF f Hin)). }
  rewrite (existsb_none (fun f => match tsfmt_of f with Some _ => true | None => false end)).
  2:{ intros f Hin. rewrite tsfmt_of_off; [reflexivity|]. apply (plain_field_facts f (HF f Hin)). }
  rewrite (existsb_none (fun f => match bytesenc_of f with Some _ => true | None => false end)).
  2:{ intros f Hin. rewrite bytesenc_of_none; [reflexivity|]. apply (plain_field_facts f (HF f Hin)). }
  rewrite (existsb_none is_flatten).
  2:{ intros f Hin. apply flatten_off. apply (plain_field_facts f (HF f Hin)). }
  rewrite (existsb_none oneof_cfg).
  2:{ intros o Hin. specialize (Ho o Hin). apply Bool.negb_true_iff in Ho. unfold oneof_cfg. rewrite Ho. reflexivity. }
  reflexivity.
Qed.

Lemma plain_top_not_owned sc tn : plain_top sc tn = true -> owns sc tn = false.
Proof.
  unfold plain_top, owns. destruct (lookup_message sc tn) as [md|]; [|reflexivity].
  intros H. apply andb_prop in H. destruct H as [H1 H2].
  unfold owner_of. rewrite (plain_no_features sc md H1 H2). reflexivity.
Qed.

(* Spec side: the inner loops of Mapping.mp_fval, named *)
Definition mp_nulls (md : message) (m : mval) : list (str * json) :=
  flat_map (fun f => match f_nullable f, mget m (f_name f) with
                     | Some true, None => [(json_name (f_name f), JNull)]
                     | _, _ => []
                     end) (m_fields md).
Definition mp_pieces (ps : list piece) : list (str * json) :=
  flat_map (fun p => match p with
                     | PField k j => [(k, j)]
                     | PSpread pre kv => map (fun e => (pre ++ fst e, snd e)) kv
                     | PDisc k v => [(k, JStr v)]
                     end) ps.
Definition plain_fields (sc : schema) (md : message) : list (str * fval) -> bool :=
  fix go (m : list (str * fval)) : bool :=
    match m with
    | [] => true
    | (name, x) :: r =>
        match find_field (m_fields md) name with
        | Some f => plain_in sc (f_kind f) x && go r
        | None => go r
        end
    end.

Section MapLoops.
Variable E : ExtLib.
Variable sc : schema.

Definition mp_list (ctx : option field) (k : kind) : list fval -> res (list json) :=
  fix go (l : list fval) : res (list json) :=
    match l with
    | [] => ROk []
    | x :: r => mp_fval E sc ctx k x >>= (fun j => go r >>= (fun t => ROk (j :: t)))
    end.
Definition mp_pick (uf : field) : list (str * fval) -> res json :=
  fix pick (wm : list (str * fval)) : res json :=
    match wm with
    | [] => ROk (JArr [])
    | (n, y) :: t => if str_eqb n (f_name uf) then mp_fval E sc (Some uf) (f_kind uf) y else pick t
    end.
Definition mp_uw (k : kind) : option field :=
  match k with
  | KMessage vtn => match lookup_message sc vtn with Some vmd => mp_value_list vmd | None => None end
  | _ => None
  end.
Definition mp_map (ctx : option field) (k : kind) : list (sval * fval) -> res (list (str * json)) :=
  fix go (kv : list (sval * fval)) : res (list (str * json)) :=
    match kv with
    | [] => ROk []
    | (key, x) :: r =>
        key_text key >>= (fun kt =>
        (match mp_uw k, x with
         | Some uf, FM wm => mp_pick uf wm
         | _, _ => mp_fval E sc ctx k x
         end) >>= (fun j => go r >>= (fun t => ROk ((kt, j) :: t))))
    end.
Definition mp_entry (md : message) (name : str) (f : field) (x : fval) : res (list piece) :=
  match f_empty f, x with
  | Some EBNull, FM [] => ROk [PField (json_name name) JNull]
  | Some EBOmit, FM [] => ROk []
  | _, _ =>
      mp_fval E sc (Some f) (f_kind f) x >>= (fun j =>
      match f_flatten f with
      | Some true => spread_of (match f_flatten_prefix f with Some p => p | None => [] end) j >>= (fun p => ROk [p])
      | _ =>
          match mp_oneof_of md f with
          | Some o =>
              if o_flatten o && match f_kind f with KMessage _ => true | _ => false end
              then spread_of [] j >>= (fun p => ROk [PDisc (o_discriminator o) (mp_disc_value f); p])
              else ROk [PDisc (o_discriminator o) (mp_disc_value f); PField (json_name name) j]
          | None => ROk [PField (json_name name) j]
          end
      end)
  end.
Definition mp_msg (md : message) : list (str * fval) -> res (list piece) :=
  fix go (m : list (str * fval)) : res (list piece) :=
    match m with
    | [] => ROk []
    | (name, x) :: r =>
        match find_field (m_fields md) name with
        | None => RUnm (s "value names an undeclared field")
        | Some f => mp_entry md name f x >>= (fun ps => go r >>= (fun t => ROk (ps ++ t)))
        end
    end.
Definition mp_finish (md : message) (m : mval) (ps : list piece) : res json :=
  match mp_root_unwrap md with
  | Some f =>
      match ps with
      | [PField _ j] => ROk j
      | [] => ROk (match f_card f with Repeated => JArr [] | _ => JObj [] end)
      | _ => RUnm (s "root unwrap with unexpected content")
      end
  | None =>
      let entries := flat_map (fun p => match p with
                                        | PField k j => [(k, j)]
                                        | PSpread pre kv => map (fun e => (pre ++ fst e, snd e)) kv
                                        | PDisc k v => [(k, JStr v)]
                                        end) ps in
      let nulls := flat_map (fun f => match f_nullable f, mget m (f_name f) with
                                      | Some true, None => [(json_name (f_name f), JNull)]
                                      | _, _ => []
                                      end) (m_fields md) in
      ROk (JObj (entries ++ nulls))
  end.

Lemma mp_fval_FS ctx k x : mp_fval E sc ctx k (FS x) = mp_scalar E sc ctx k x.
Proof. reflexivity. Qed.
Lemma mp_fval_FL ctx k l : mp_fval E sc ctx k (FL l) = mp_list ctx k l >>= (fun js => ROk (JArr js)).
Proof. reflexivity. Qed.
Lemma mp_fval_FMap ctx k kv : mp_fval E sc ctx k (FMap kv) = mp_map ctx k kv >>= (fun es => ROk (JObj es)).
Proof. reflexivity. Qed.
Lemma mp_fval_FM ctx tn m :
  mp_fval E sc ctx (KMessage tn) (FM m) =
  if str_eqb tn ts_name then mp_timestamp E ctx m
  else if is_wkt_other tn then RUnm (s "well-known type other than Timestamp")
  else match find_message (all_messages sc) tn with
       | None => RUnm (s "unknown message type")
       | Some md => mp_msg md m >>= mp_finish md m
       end.
Proof. reflexivity. Qed.

Lemma plain_in_FM tn m :
  plain_in sc (KMessage tn) (FM m) =
  if str_eqb tn ts_name then true
  else match find_message (all_messages sc) tn with
       | None => true
       | Some md => plain_msg md && plain_fields sc md m
       end.
Proof. reflexivity. Qed.
Lemma plain_fields_in md m n x f :
  plain_fields sc md m = true -> In (n, x) m -> find_field (m_fields md) n = Some f -> plain_in sc (f_kind f) x = true.
Proof.
  induction m as [|[n0 x0] r IH]; intros Hp Hin Hf; [destruct Hin|]. cbn [plain_fields] in Hp.
  destruct Hin as [Heq|Hin].
  - inversion Heq; subst n0 x0. rewrite Hf in Hp. apply andb_prop in Hp. apply Hp.
  - apply IH; [|exact Hin|exact Hf]. destruct (find_field (m_fields md) n0); [apply andb_prop in Hp; apply Hp|exact Hp].
Qed.

(* the entry of a field that is neither flattened nor a variant of a configured oneof is at most one key *)
Lemma mp_entry_unspread md name f x :
  is_flatten f = false -> mp_oneof_of md f = None ->
  mp_entry md name f x =
  match empty_of f, x with
  | Some EBNull, FM [] => ROk [PField (json_name name) JNull]
  | Some EBOmit, FM [] => ROk []
  | _, _ => mp_fval E sc (Some f) (f_kind f) x >>= (fun j => ROk [PField (json_name name) j])
  end.
Proof.
  unfold mp_entry, empty_of, is_flatten. intros Hfl Hoo. rewrite Hoo.
  destruct (f_flatten f) as [[|]|]; try discriminate Hfl; destruct (f_empty f) as [[| | |]|]; reflexivity.
Qed.
Lemma mp_entry_default md name f x :
  empty_of f = None -> is_flatten f = false -> mp_oneof_of md f = None ->
  mp_entry md name f x = mp_fval E sc (Some f) (f_kind f) x >>= (fun j => ROk [PField (json_name name) j]).
Proof. intros Hem Hfl Hoo. rewrite (mp_entry_unspread md name f x Hfl Hoo), Hem. reflexivity. Qed.

(* Mapping's entries against protojson's, entry by entry: [g k j] is what the mapping makes of protojson's
   entry (k, j) *)
Lemma mp_msg_entries md (g : str -> json -> list (str * json)) m :
  (forall n x f, In (n, x) m -> find_field (m_fields md) n = Some f ->
     mp_entry md n f x = pj_fval E sc (f_kind f) x >>= (fun j => ROk (map (fun e => PField (fst e) (snd e)) (g (json_name n) j)))) ->
  mp_msg md m =
  m_msg E sc md m >>= (fun es => ROk (map (fun e => PField (fst e) (snd e)) (flat_map (fun e => g (fst e) (snd e)) es))).
Proof.
  induction m as [|[n x] r IH]; intros H; [reflexivity|]. cbn [mp_msg m_msg].
  destruct (find_field (m_fields md) n) as [f|] eqn:Ef; [|reflexivity].
  rewrite (H n x f (or_introl eq_refl) Ef), (IH (fun n' x' f' Hin => H n' x' f' (or_intror Hin))).
  destruct (pj_fval E sc (f_kind f) x) as [j|e|w]; cbn [rbind]; try reflexivity.
  destruct (m_msg E sc md r) as [t|e|w]; cbn [rbind]; try reflexivity.
  cbn [flat_map fst snd]. rewrite map_app. reflexivity.
Qed.

Lemma fields_of_pieces (es : list (str * json)) : mp_pieces (map (fun e => PField (fst e) (snd e)) es) = es.
Proof.
  unfold mp_pieces. induction es as [|[k j] r IH]; [reflexivity|]. cbn [map flat_map fst snd app]. rewrite IH. reflexivity.
Qed.

Lemma mp_finish_fields md m es :
  mp_root_unwrap md = None ->
  mp_finish md m (map (fun e => PField (fst e) (snd e)) es) = ROk (JObj (es ++ mp_nulls md m)).
Proof.
  intros Hru. unfold mp_finish. rewrite Hru. fold (mp_pieces (map (fun e => PField (fst e) (snd e)) es)). fold (mp_nulls md m).
  rewrite fields_of_pieces. reflexivity.
Qed.
End MapLoops.

Theorem C05_context_free : forall E sc c1 c2 tn m,
  str_eqb tn ts_name = false ->
  mp_fval E sc c1 (KMessage tn) (FM m) = mp_fval E sc c2 (KMessage tn) (FM m).
Proof. intros. rewrite !mp_fval_FM, H. reflexivity. Qed.

(* [inert_at f k]: none of the options of f that Mapping.mp_scalar / mp_timestamp read (int64_encoding,
   enum_encoding, bytes_encoding, timestamp_format) changes how a value of kind k is written *)
Definition inert_at (f : field) (k : kind) : bool :=
  negb (is_int64_kind k && match f_int64 f with Some I64Number => true | _ => false end) &&
  match k with
  | KEnum _ => match f_enumenc f with Some EENumber => false | _ => true end
  | KBytes => match f_bytesenc f with
              | Some BEHex | Some BEBase64Raw | Some BEBase64Url | Some BEBase64UrlRaw => false
              | _ => true
              end
  | KMessage tn => negb (str_eqb tn ts_name) ||
                   match f_tsfmt f with Some TFUnixSeconds | Some TFUnixMillis | Some TFDate => false | _ => true end
  | _ => true
  end.

Section Inert.
Variable E : ExtLib.
Variable sc : schema.

Lemma mp_scalar_int f k z :
  mp_scalar E sc (Some f) k (VInt z) =
  if is_int64_kind k && match f_int64 f with Some I64Number => true | _ => false end
  then ROk (JNum z) else pj_scalar E sc k (VInt z).
Proof. destruct k; reflexivity. Qed.

Lemma mp_scalar_inert f k x : inert_at f k = true -> mp_scalar E sc (Some f) k x = mp_scalar E sc None k x.
Proof.
  unfold inert_at. intros H. apply andb_prop in H. destruct H as [Hi Hk]. apply Bool.negb_true_iff in Hi.
  destruct x as [z|b|y|y|b|n].
  - rewrite mp_scalar_int, Hi. destruct k; reflexivity.
  - destruct k; reflexivity.
  - destruct k; reflexivity.
  - destruct k; try reflexivity. cbn [mp_scalar]. destruct (f_bytesenc f) as [[| | | | |]|]; try reflexivity; discriminate Hk.
  - destruct k; reflexivity.
  - destruct k; try reflexivity. cbn [mp_scalar]. destruct (f_enumenc f) as [[| |]|]; try reflexivity; discriminate Hk.
Qed.

Lemma mp_timestamp_inert f tn m :
  inert_at f (KMessage tn) = true -> str_eqb tn ts_name = true -> mp_timestamp E (Some f) m = mp_timestamp E None m.
Proof.
  unfold inert_at. intros H Ets. rewrite Ets in H. cbn [is_int64_kind andb negb orb] in H.
  unfold mp_timestamp. destruct (f_tsfmt f) as [[| | | |]|]; try reflexivity; discriminate H.
Qed.

Lemma mp_fval_inert f : forall v k, inert_at f k = true -> mp_fval E sc (Some f) k v = mp_fval E sc None k v.
Proof.
  apply (fval_ind' (fun v => forall k, inert_at f k = true -> mp_fval E sc (Some f) k v = mp_fval E sc None k v)).
  - intros x k H. rewrite !mp_fval_FS. apply mp_scalar_inert. exact H.
  - (* a message other than Timestamp does not look at the enclosing field *)
    intros m _ k H. destruct k as [| | | | | | | | | | | | | | | tn0 | tn]; try reflexivity.
    destruct (str_eqb tn ts_name) eqn:Ets; [|apply C05_context_free; exact Ets].
    rewrite !mp_fval_FM, Ets. apply (mp_timestamp_inert f tn m H Ets).
  - intros l IH k H. rewrite !mp_fval_FL. f_equal.
    induction IH as [|x r Hx _ IHr]; [reflexivity|]. cbn [mp_list]. rewrite (Hx k H), IHr. reflexivity.
  - intros kv IH k H. rewrite !mp_fval_FMap. f_equal.
    induction IH as [|[key x] r Hx _ IHr]; [reflexivity|]. cbn [mp_map]. cbn [snd] in Hx. rewrite (Hx k H), IHr. reflexivity.
Qed.
End Inert.

Section Unannotated.
Variable E : ExtLib.
Variable sc : schema.

(* the annotations of the enclosing field that can change the rendering of a scalar / Timestamp *)
Definition ctx_field_ok (f : field) : bool :=
  is_none (f_int64 f) && is_none (f_enumenc f) && is_none (f_bytesenc f) && is_none (f_tsfmt f).
Definition ctx_plain (ctx : option field) : Prop :=
  match ctx with Some f => ctx_field_ok f = true | None => True end.
Lemma ctx_field_ok_facts f : ctx_field_ok f = true ->
  f_int64 f = None /\ f_enumenc f = None /\ f_bytesenc f = None /\ f_tsfmt f = None.
Proof.
  unfold ctx_field_ok. intros [[[Hi He]%andb_prop Hb]%andb_prop Ht]%andb_prop.
  repeat split; apply is_none_true; assumption.
Qed.
Lemma plain_ctx_ok f : plain_field f = true -> ctx_field_ok f = true.
Proof.
  intros H. destruct (plain_field_facts f H) as [_ [H1 [H2 [_ [_ [H3 [H4 _]]]]]]].
  unfold ctx_field_ok. rewrite H1, H2, H3, H4. reflexivity.
Qed.
(* [plain_field] with one of its conjuncts (nullable, or empty_behavior) replaced by any b *)
Lemma plain_but_ctx_ok f (b : bool) :
  negb (f_unwrap f) && is_none (f_int64 f) && is_none (f_enumenc f) && b &&
  is_none (f_tsfmt f) && is_none (f_bytesenc f) && is_none (f_oneof_value f) && is_none (f_flatten f) &&
  is_none (f_flatten_prefix f) = true -> ctx_field_ok f = true.
Proof.
  unfold ctx_field_ok.
  intros [[[[[[[[_ Hi]%andb_prop He]%andb_prop _]%andb_prop Ht]%andb_prop Hb]%andb_prop _]%andb_prop _]%andb_prop _]%andb_prop.
  rewrite Hi, He, Hb, Ht. reflexivity.
Qed.
Lemma ctx_ok_inert f k : ctx_field_ok f = true -> inert_at f k = true.
Proof.
  intros H. destruct (ctx_field_ok_facts f H) as [Hi [He [Hb Ht]]]. unfold inert_at. rewrite Hi, He, Hb, Ht.
  rewrite Bool.andb_false_r. destruct k; try reflexivity. apply Bool.orb_true_r.
Qed.

Lemma plain_enum_names tn e n v :
  find_enum (all_enums sc) tn = Some e -> plain_enum sc (KEnum tn) = true ->
  ev_by_number (e_values e) n = Some v -> mp_custom v = ev_name v.
Proof.
  intros He Hp Hv. simpl in Hp. rewrite He in Hp. rewrite forallb_forall in Hp.
  assert (Hin : In v (e_values e)).
  { clear -Hv. induction (e_values e) as [|a r IH]; simpl in Hv; [discriminate|].
    destruct (ev_number a =? n); [inversion Hv; left; reflexivity|right; auto]. }
  specialize (Hp v Hin). unfold mp_custom. destruct (ev_custom v); [discriminate|reflexivity].
Qed.

Lemma scalar_plain k x : plain_enum sc k = true -> mp_scalar E sc None k x = pj_scalar E sc k x.
Proof.
  intros Hp. destruct k as [| | | | | | | | | | | | | | | tn | tn0]; try reflexivity.
  destruct x as [z|b|y|y|b|n]; try reflexivity. cbn [mp_scalar pj_scalar]. unfold enum_json.
  destruct (find_enum (all_enums sc) tn) as [e|] eqn:He; [|reflexivity].
  destruct (ev_by_number (e_values e) n) as [v|] eqn:Hv; [|reflexivity].
  rewrite (plain_enum_names tn e n v He Hp Hv). reflexivity.
Qed.

Lemma ts_plain m : mp_timestamp E None m = pj_timestamp E m.
Proof.
  unfold mp_timestamp, pj_timestamp.
  destruct (ts_in_range (mget_int m (s "seconds")) (mget_int m (s "nanos"))); reflexivity.
Qed.

Lemma no_root_unwrap md : is_root_unwrap md = false -> mp_root_unwrap md = None.
Proof.
  unfold is_root_unwrap, unwrap_field, unwrap_fields, mp_root_unwrap, mp_unwrap_field.
  destruct (m_fields md) as [|a [|b r]]; try reflexivity.
  simpl. destruct (f_unwrap a); [|reflexivity].
  unfold is_repeated, is_map. destruct (f_card a); simpl; intros H; try reflexivity; discriminate H.
Qed.

Lemma plain_msg_no_unwrap md : plain_msg md = true -> mp_unwrap_field md = None.
Proof.
  intros Hp. unfold mp_unwrap_field. fold (unwrap_fields md).
  rewrite (no_unwrap_fields md (fun f Hin => proj1 (plain_field_facts f (plain_msg_fields md f Hp Hin)))). reflexivity.
Qed.

Lemma no_oneof_cfg md f : existsb oneof_cfg (m_oneofs md) = false -> mp_oneof_of md f = None.
Proof.
  unfold mp_oneof_of. intros H. destruct (f_oneof f) as [n|]; [|reflexivity].
  induction (m_oneofs md) as [|o r IH]; [reflexivity|]. simpl in H. simpl.
  apply Bool.orb_false_iff in H. destruct H as [Ho Hr].
  unfold oneof_cfg in Ho. rewrite <- Bool.andb_assoc, Ho, Bool.andb_false_r. apply IH. exact Hr.
Qed.

Lemma no_cfg_oneof md f : forallb (fun o => negb (o_has_cfg o)) (m_oneofs md) = true -> mp_oneof_of md f = None.
Proof.
  intros H. apply no_oneof_cfg. apply existsb_none. rewrite forallb_forall in H.
  intros o Hin. specialize (H o Hin). apply Bool.negb_true_iff in H. unfold oneof_cfg. rewrite H. reflexivity.
Qed.

Lemma no_nullable_nulls md (m : mval) : (forall f, In f (m_fields md) -> is_nullable f = false) -> mp_nulls md m = [].
Proof.
  intros H. apply flat_map_nil. intros f Hin. specialize (H f Hin). unfold is_nullable in H.
  destruct (f_nullable f) as [[|]|]; try discriminate H; reflexivity.
Qed.

Lemma find_field_in fs n f : find_field fs n = Some f -> In f fs.
Proof. intros H. apply (find_field_spec fs n f H). Qed.

(* a value below a field whose options are inert at its kind, with nothing annotated inside: both are protojson.
   Stated at no enclosing field; mp_fval_inert brings any inert enclosing field back to that.
   By induction on the value.  A message goes entry by entry ([mp_msg_entries]): every field is un-annotated, so
   its entry is the default one under options that are inert, and the induction hypothesis applies to the value;
   no null is appended, since no field is nullable.  In a map no value is collapsed, since a message type with
   an unwrap field is annotated. *)
Lemma mapping_plain_none : forall v k, plain_in sc k v = true -> mp_fval E sc None k v = pj_fval E sc k v.
Proof.
  apply (fval_ind' (fun v => forall k, plain_in sc k v = true -> mp_fval E sc None k v = pj_fval E sc k v)).
  - intros x k Hp. rewrite mp_fval_FS, pj_fval_FS. apply scalar_plain. exact Hp.
  - intros m IH k Hp.
    destruct k as [| | | | | | | | | | | | | | | tn0 | tn]; try reflexivity.
    rewrite mp_fval_FM, pj_fval_FM. rewrite plain_in_FM in Hp.
    destruct (str_eqb tn ts_name); [apply ts_plain|].
    destruct (is_wkt_other tn); [reflexivity|].
    destruct (find_message (all_messages sc) tn) as [md|]; [|reflexivity].
    apply andb_prop in Hp. destruct Hp as [Hmd Hch].
    rewrite (mp_msg_entries E sc md (fun k j => [(k, j)]) m).
    2:{ intros n x f Hin Hf. rewrite Forall_forall in IH.
        pose proof (plain_msg_fields md f Hmd (find_field_in _ _ _ Hf)) as Hpf.
        destruct (plain_field_facts f Hpf) as [_ [_ [_ [_ [Hem [_ [_ [_ [Hfl _]]]]]]]]].
        unfold plain_msg in Hmd. apply andb_prop in Hmd. destruct Hmd as [_ Ho].
        rewrite (mp_entry_default E sc md n f x (empty_of_off f Hem) (flatten_off f Hfl) (no_cfg_oneof md f Ho)).
        rewrite (mp_fval_inert E sc f x (f_kind f) (ctx_ok_inert f (f_kind f) (plain_ctx_ok f Hpf))).
        pose proof (IH (n, x) Hin) as Hx. cbn [snd] in Hx.
        rewrite (Hx (f_kind f) (plain_fields_in sc md m n x f Hch Hin Hf)). reflexivity. }
    destruct (m_msg E sc md m) as [es|e|w]; cbn [rbind]; try reflexivity.
    assert (Hid : flat_map (fun e : str * json => [(fst e, snd e)]) es = es).
    { induction es as [|[k j] r IHr]; [reflexivity|]. cbn [flat_map fst snd app]. rewrite IHr. reflexivity. }
    rewrite Hid, mp_finish_fields.
    + rewrite (no_nullable_nulls md m), app_nil_r; [reflexivity|].
      intros f Hin. apply nullable_off. apply (plain_field_facts f (plain_msg_fields md f Hmd Hin)).
    + unfold mp_root_unwrap. rewrite (plain_msg_no_unwrap md Hmd). destruct (m_fields md) as [|? [|? ?]]; reflexivity.
  - intros l IH k Hp. rewrite mp_fval_FL, pj_fval_FL. f_equal.
    induction IH as [|x r Hx _ IHr]; [reflexivity|].
    cbn [plain_in] in Hp. apply andb_prop in Hp. destruct Hp as [Hpx Hpr].
    cbn [mp_list m_list]. rewrite (Hx k Hpx), (IHr Hpr). reflexivity.
  - intros kv IH k Hp. rewrite mp_fval_FMap, pj_fval_FMap. f_equal.
    (* a message type with an unwrap field is annotated: no map value is collapsed *)
    assert (Hu : forall x, plain_in sc k x = true ->
              match mp_uw sc k, x with Some uf, FM wm => mp_pick E sc uf wm | _, _ => mp_fval E sc None k x end
              = mp_fval E sc None k x).
    { intros x Hpx. destruct (mp_uw sc k) as [uf|] eqn:Eu; [|reflexivity].
      destruct x as [sx|wm|l|kv']; try reflexivity. exfalso.
      unfold mp_uw in Eu. destruct k as [| | | | | | | | | | | | | | | tn0 | vtn]; try discriminate Eu.
      rewrite plain_in_FM in Hpx. unfold lookup_message in Eu.
      destruct (str_eqb vtn ts_name); [discriminate Eu|].
      destruct (find_message (all_messages sc) vtn) as [vmd|]; [|discriminate Eu].
      apply andb_prop in Hpx. destruct Hpx as [Hvm _].
      unfold mp_value_list in Eu. rewrite (plain_msg_no_unwrap vmd Hvm) in Eu. discriminate Eu. }
    induction IH as [|[key x] r Hx _ IHr]; [reflexivity|].
    cbn [plain_in] in Hp. apply andb_prop in Hp. destruct Hp as [Hpx Hpr].
    cbn [mp_map m_map]. cbn [snd] in Hx. rewrite (Hu x Hpx), (Hx k Hpx), (IHr Hpr). reflexivity.
Qed.

Lemma mapping_plain_inert f k v :
  inert_at f k = true -> plain_in sc k v = true -> mp_fval E sc (Some f) k v = pj_fval E sc k v.
Proof. intros Hi Hp. rewrite (mp_fval_inert E sc f v k Hi). apply mapping_plain_none. exact Hp. Qed.

Theorem mapping_plain_fval : forall v ctx k,
  ctx_plain ctx -> plain_in sc k v = true -> mp_fval E sc ctx k v = pj_fval E sc k v.
Proof.
  intros v [f|] k Hc Hp; [|apply mapping_plain_none; exact Hp].
  apply mapping_plain_inert; [apply ctx_ok_inert; exact Hc|exact Hp].
Qed.

Theorem C05_unannotated_is_proto3 : forall tn m,
  plain_top sc tn = true -> plain_in sc (KMessage tn) (FM m) = true ->
  encode E sc tn m = pj_marshal E sc tn m /\ to_json E sc tn m = pj_marshal E sc tn m.
Proof.
  intros tn m Ht Hp. split.
  - unfold encode. rewrite (plain_top_not_owned sc tn Ht). reflexivity.
  - unfold to_json, pj_marshal. apply (mapping_plain_none (FM m) (KMessage tn) Hp).
Qed.
End Unannotated.

(* refutations: one witness per (annotation x context) class *)
Definition refuted5 (d : c05_defect) (tn : str) (m : mval) : Prop :=
  defects_C05 xs tn m = [d] /\
  exists j, to_json Ex xs tn m = ROk j /\ encode Ex xs tn m <> ROk j.
Ltac refute5 := split; [vm_compute; reflexivity | eexists; vm_compute; split; [reflexivity | discriminate]].

Theorem C05_refuted_nested_int64 : refuted5 (D5Pj AInt64) (q "NumsHolder") [(s "inner", FM [(s "big", vint 5)])].
Proof. refute5. Qed.
Theorem C05_refuted_nested_nullable : refuted5 (D5Pj ANullable) (q "NulHolder") [(s "n", FM [(s "id", vstr "x")])].
Proof. refute5. Qed.
Theorem C05_refuted_nested_empty : refuted5 (D5Pj AEmpty) (q "EmpHolder") [(s "e", FM [(s "nul_it", FM [])])].
Proof. refute5. Qed.
Theorem C05_refuted_nested_ts : refuted5 (D5Pj ATs) (q "TimesHolder") [(s "t", FM [(s "secs", tsv 5 0)])].
Proof. refute5. Qed.
Theorem C05_refuted_nested_bytes : refuted5 (D5Pj ABytes) (q "BlobHolder") [(s "b", FM [(s "h", FS (VBytes [ch 105; ch 183]))])].
Proof. refute5. Qed.
Theorem C05_refuted_nested_flatten : refuted5 (D5Pj AFlatten) (q "PostHolder") [(s "p", FM [(s "detail", FM [(s "n", vint 1)])])].
Proof. refute5. Qed.
Theorem C05_refuted_nested_oneof : refuted5 (D5Pj AOneof) (q "EventHolder") [(s "ev", FM [(s "image", FM [(s "url", vstr "u")])])].
Proof. refute5. Qed.
Theorem C05_refuted_nested_unwrap : refuted5 (D5Pj AUnwrap) (q "BarHolder") [(s "bl", FM [(s "bars", FL [FM []])])].
Proof. refute5. Qed.
Theorem C05_refuted_map_int64 : refuted5 (D5MapSkipped AInt64) (q "NumMap") [(s "by_k", FMap [(VStr (s "k"), vint 5)])].
Proof. refute5. Qed.
Theorem C05_refuted_enum_value : refuted5 D5EnumValue (q "WithEnum") [(s "status", FS (VEnum 1))].
Proof. refute5. Qed.
Theorem C05_refuted_enum_number : refuted5 D5EnumNumber (q "WithEnum") [(s "level", FS (VEnum 1))].
Proof. refute5. Qed.
Theorem C05_refuted_reflected_child : refuted5 D5FlattenChild (q "Post") [(s "detail", FM [(s "body_text", vstr "b")])].
Proof. refute5. Qed.
Theorem C05_refuted_flat_oneof_child :
  defects_C05 xs (q "FlatEvent") [(s "wide", FM [(s "alt_text", vstr "a")])] = [D5FlatOneofChild; D5FlattenChild] /\
  exists j, to_json Ex xs (q "FlatEvent") [(s "wide", FM [(s "alt_text", vstr "a")])] = ROk j /\
            encode Ex xs (q "FlatEvent") [(s "wide", FM [(s "alt_text", vstr "a")])] <> ROk j.
Proof. refute5. Qed.
Theorem C05_refuted_unwrap_sibling : refuted5 D5UnwrapSibling (q "Series") [(s "total_count", vint 4)].
Proof. refute5. Qed.
Theorem C05_refuted_root_null : refuted5 D5RootNull (q "Strs") [].
Proof. refute5. Qed.

(* {"h":"abc"} on a HEX field: the hex error is swallowed, protojson reads base64 -> bytes 69 b7 *)
Theorem C05_refuted_bytes_error_swallowed :
  hex_swallowed xs (q "Blob") (JObj [(s "h", JStr (s "abc"))]) = true /\
  hex_dec (s "abc") = None /\
  decode Ex xs (q "Blob") (JObj [(s "h", JStr (s "abc"))]) = ROk [(s "h", FS (VBytes [ch 105; ch 183]))].
Proof. vm_compute. auto. Qed.

(* non-vacuity of the unannotated theorem and of the defect-free region *)
Example C05_nonvacuous_plain :
  let m := [(s "id", vstr "i"); (s "big_num", vint (-5)); (s "tags", FL [vstr "a"]);
            (s "by_key", FMap [(VStr (s "k"), FM [(s "a", vstr "x")])]); (s "leaf", FM []); (s "at", tsv 5 0)] in
  plain_top xs (q "Plain") = true /\ plain_in xs (KMessage (q "Plain")) (FM m) = true /\ defects_C05 xs (q "Plain") m = [].
Proof. vm_compute. auto. Qed.
Example C05_nonvacuous_conforms :
  let m := [(s "secs", tsv 5 123); (s "day", tsv 90000 0); (s "id", vstr "x")] in
  owns xs (q "Times") = true /\ defects_C05 xs (q "Times") m = [] /\ encode Ex xs (q "Times") m = to_json Ex xs (q "Times") m.
Proof. vm_compute. auto. Qed.
Close Scope Z_scope.
