(* C05_conforms for the root-unwrap codec: a message whose only field carries (sebuf.http.unwrap), with
   un-annotated element messages (or scalar elements of the kinds encoding/json and protojson write alike),
   is sent exactly as the documented mapping says: the bare array / object of its field, wrappers collapsed
   to the array of their unwrap field.  Excluded: the nil scalar slice / map that Go writes as null
   (D5RootNull), 64-bit integers / enums / non-finite floats among scalar elements (D5UnwrapSibling). *)
From Sebuf Require Import CodecCases.
From SebufProofs Require Import TextFacts ListFacts CodecTextFacts ProtoJsonFacts CodecBase MappingFacts GoJsonFacts UnwrapRootFacts.
From Coq Require Import ZArith.

Open Scope Z_scope.

(* scalar kinds that encoding/json and protojson render alike (finite floats only) *)
Definition gj_same_kind (k : kind) : bool :=
  match k with
  | KBool | KString | KBytes | KInt32 | KSint32 | KSfixed32 | KUint32 | KFixed32 | KDouble | KFloat => true
  | _ => false
  end.

Section Conforms.
Variable E : ExtLib.
Variable sc : schema.

Definition scalar_conf (k : kind) (y : fval) : bool := gj_same_kind k && negb (nonfinite_in k y).
Definition elems_conf (k : kind) (y : fval) : bool := plain_in sc k y && (is_msg_kind k || scalar_conf k y).
Definition wrapper_conf (uf : field) (p : sval * fval) : bool :=
  match snd p with
  | FM wm => match mget wm (f_name uf) with
             | Some y => elems_conf (f_kind uf) y
             | None => is_msg_kind (f_kind uf)       (* a nil scalar slice inside a wrapper is written as null *)
             end
  | _ => false
  end.
(* the domain of the conformance theorem, on the message and the value *)
Definition root_conf (md : message) (m : mval) : bool :=
  match m_fields md with
  | [f] =>
      match value_unwrap sc f with
      | Some uf => is_repeated uf && ctx_field_ok uf &&
                   forallb (fun e => match snd e with FMap kv => forallb (wrapper_conf uf) kv | _ => false end) m
      | None => ctx_field_ok f && (is_msg_kind (f_kind f) || match m with [] => false | _ => true end) &&
                forallb (fun e => elems_conf (f_kind f) (snd e)) m
      end
  | _ => false
  end.

Lemma m_list_rall k l : m_list E sc k l = rall (map (pj_fval E sc k) l).
Proof. induction l as [|x r IH]; [reflexivity|]. simpl. rewrite <- IH. reflexivity. Qed.

Lemma m_map_rall k kv : m_map E sc k kv = rall (map (encB E sc k) kv).
Proof.
  induction kv as [|[key x] r IH]; [reflexivity|]. simpl. rewrite <- IH. unfold encB. cbn [fst snd].
  destruct (key_text key) as [kt|?|?]; cbn [rbind]; try reflexivity.
  destruct (pj_fval E sc k x) as [j|?|?]; cbn [rbind]; reflexivity.
Qed.

Lemma gj_pj_scalar k x : gj_same_kind k = true -> float_special k (FS x) = false ->
  gj_scalar E sc k x = pj_scalar E sc k x.
Proof.
  intros Hk Hf. destruct k as [| | | | | | | | | | | | | | | tn | tn0]; try discriminate Hk; destruct x as [z|bb|sx|bx|bits|en]; try reflexivity.
  - cbn [gj_scalar pj_scalar]. unfold float_json. cbn [float_special] in Hf.
    destruct (fclassify true bits); try discriminate Hf. reflexivity.
  - cbn [gj_scalar pj_scalar]. unfold float_json. cbn [float_special] in Hf.
    destruct (fclassify false bits); try discriminate Hf. reflexivity.
Qed.

Lemma gj_pj_list k l :
  is_msg_kind k = false -> (forall y, In y l -> wt sc k y = true) -> scalar_conf k (FL l) = true ->
  rall (map (gj_fval E sc k) l) = rall (map (pj_fval E sc k) l).
Proof.
  intros Hk HF Hc. unfold scalar_conf in Hc. apply andb_prop in Hc. destruct Hc as [Hs Hn]. apply Bool.negb_true_iff in Hn.
  apply rall_map_ext. intros y Hy.
  destruct (wt_nonmsg_scalar sc k y Hk (HF y Hy)) as [x [Hx _]]. subst y.
  cbn [gj_fval pj_fval]. apply gj_pj_scalar; [exact Hs|]. exact (nonfinite_FL_in k l (FS x) Hn Hy).
Qed.

Lemma gj_scalar_list_pj k l :
  is_msg_kind k = false -> (forall y, In y l -> wt sc k y = true) -> scalar_conf k (FL l) = true ->
  gj_scalar_list E sc k l = pj_fval E sc k (FL l).
Proof.
  intros Hk HF Hc. unfold gj_scalar_list. rewrite pj_fval_FL, m_list_rall, <- (gj_pj_list k l Hk HF Hc).
  f_equal. apply rall_map_ext. intros y Hy.
  destruct (wt_nonmsg_scalar sc k y Hk (HF y Hy)) as [x [Hx _]]. subst y. reflexivity.
Qed.

Lemma mp_pick_mget uf (wm : mval) :
  mp_pick E sc uf wm = match mget wm (f_name uf) with
                       | Some y => mp_fval E sc (Some uf) (f_kind uf) y
                       | None => ROk (JArr [])
                       end.
Proof.
  induction wm as [|[n y] t IH]; [reflexivity|]. cbn [mp_pick mget].
  rewrite (str_eqb_sym (f_name uf) n). destruct (str_eqb n (f_name uf)); [reflexivity|exact IH].
Qed.

Lemma unwrap_field_value_list vmd uf : unwrap_field vmd = Some uf -> is_repeated uf = true -> mp_value_list vmd = Some uf.
Proof.
  unfold unwrap_field, unwrap_fields, mp_value_list, mp_unwrap_field.
  destruct (filter (fun f => f_unwrap f) (m_fields vmd)) as [|u [|u' t]]; try discriminate.
  destruct (is_repeated u || is_map u); [|discriminate]. intros H Hr. inversion H; subst u.
  unfold is_repeated in Hr. destruct (f_card uf) eqn:Ec; try discriminate Hr. rewrite Ec. reflexivity.
Qed.

Lemma value_unwrap_mp_uw f uf : value_unwrap sc f = Some uf -> is_repeated uf = true -> mp_uw sc (f_kind f) = Some uf.
Proof.
  unfold value_unwrap, mp_uw. destruct (is_map f); [|discriminate].
  destruct (f_kind f) as [| | | | | | | | | | | | | | | tn | tn0]; try discriminate. destruct (lookup_message sc tn0) as [vmd|]; [|discriminate].
  apply unwrap_field_value_list.
Qed.

Lemma root_mp_unwrap md f : m_fields md = [f] -> f_unwrap f = true -> (is_repeated f || is_map f) = true ->
  mp_root_unwrap md = Some f.
Proof.
  intros Hf Hu Hc. unfold mp_root_unwrap, mp_unwrap_field. rewrite Hf. cbn [filter]. rewrite Hu.
  unfold is_repeated, is_map in Hc. destruct (f_card f); try discriminate Hc; reflexivity.
Qed.

Lemma owner_root_no_flatten md f : owner_of sc md = Own FtUnwrapRoot -> In f (m_fields md) -> is_flatten f = false.
Proof.
  intros H Hin. assert (Hne : FtFlatten <> FtUnwrapRoot) by discriminate.
  exact (proj1 (existsb_false _ _) (owner_excl sc md FtUnwrapRoot FtFlatten H Hne) f Hin).
Qed.

Lemma wrapper_shape f uf wm :
  value_unwrap sc f = Some uf -> is_repeated uf = true -> wt sc (f_kind f) (FM wm) = true ->
  match mget wm (f_name uf) with
  | Some y => exists l, y = FL l /\ forall z, In z l -> wt sc (f_kind uf) z = true
  | None => True
  end.
Proof.
  intros Hvu Hrep Hw.
  destruct (value_unwrap_inv sc f uf Hvu) as [_ [vtn [vmd [Hk [Hts [Hfm Huf]]]]]]. rewrite Hk in Hw.
  destruct (wt_message sc vtn wm Hts Hw) as [_ [md' [Hfm' [_ [Hmok [_ Hwf]]]]]].
  assert (md' = vmd) by congruence. subst md'.
  destruct (mget wm (f_name uf)) as [y|] eqn:Eg; [|exact I].
  destruct (wt_fields_in sc vmd wm (f_name uf) y Hwf (mget_pair wm _ y Eg)) as [g [Hg Hwe]].
  rewrite (find_field_complete vmd uf Hmok (unwrap_field_in vmd uf Huf)) in Hg. inversion Hg; subst g.
  pose proof (wt_entry_card sc uf y Hwe) as Hsh. rewrite (is_repeated_card uf Hrep) in Hsh. exact Hsh.
Qed.

Lemma wrapper_conforms f uf key w :
  value_unwrap sc f = Some uf -> is_repeated uf = true -> ctx_field_ok uf = true ->
  wt sc (f_kind f) w = true -> wrapper_conf uf (key, w) = true ->
  unwrap_array E sc uf w = match w with FM wm => mp_pick E sc uf wm | _ => RUnm [] end.
Proof.
  intros Hvu Hrep Hctx Hw Hc. unfold wrapper_conf in Hc. cbn [snd] in Hc.
  destruct w as [sx|wm|l0|kv0]; try discriminate Hc.
  pose proof (wrapper_shape f uf wm Hvu Hrep Hw) as Hsh.
  rewrite mp_pick_mget. unfold unwrap_array.
  destruct (mget wm (f_name uf)) as [y|] eqn:Eg.
  - destruct Hsh as [l [Hy HF]]. subst y. unfold elems_conf in Hc. apply andb_prop in Hc. destruct Hc as [Hpl Hc].
    rewrite (mapping_plain_fval E sc (FL l) (Some uf) (f_kind uf) Hctx Hpl).
    destruct (is_msg_kind (f_kind uf)) eqn:Emk.
    + unfold pj_list. rewrite pj_fval_FL, m_list_rall. reflexivity.
    + cbn [orb] in Hc. apply gj_scalar_list_pj; assumption.
  - rewrite Hc. reflexivity.
Qed.

(* a list or a map under a field that is neither flattened nor a oneof member: one entry under the field's name *)
Lemma mp_entry_collection md name f x :
  match x with FL _ | FMap _ => True | _ => False end -> is_flatten f = false -> mp_oneof_of md f = None ->
  mp_entry E sc md name f x = mp_fval E sc (Some f) (f_kind f) x >>= (fun j => ROk [PField (json_name name) j]).
Proof.
  unfold mp_entry, is_flatten. intros Hx Hfl Hoo. rewrite Hoo.
  destruct x as [sx|cm|l|kv]; try contradiction;
    destruct (f_empty f) as [[| | |]|]; destruct (f_flatten f) as [[|]|]; try discriminate Hfl; reflexivity.
Qed.

Lemma wrappers_conform f uf kv :
  value_unwrap sc f = Some uf -> is_repeated uf = true -> ctx_field_ok uf = true ->
  (forall key w, In (key, w) kv -> wt_key KString key = true /\ wt sc (f_kind f) w = true) ->
  forallb (wrapper_conf uf) kv = true ->
  mp_map E sc (Some f) (f_kind f) kv = rall (map (encC E sc uf) kv).
Proof.
  intros Evu Hrep Hctx. induction kv as [|[key w] r IH]; intros HF Hc; [reflexivity|].
  cbn [forallb] in Hc. apply andb_prop in Hc. destruct Hc as [Hcw Hcr].
  destruct (HF key w (or_introl eq_refl)) as [_ Hw].
  cbn [mp_map map rall]. rewrite (IH (fun k0 w0 H => HF k0 w0 (or_intror H)) Hcr), (value_unwrap_mp_uw f uf Evu Hrep).
  unfold encC. cbn [fst snd]. rewrite (wrapper_conforms f uf key w Evu Hrep Hctx Hw Hcw).
  unfold wrapper_conf in Hcw. cbn [snd] in Hcw. destruct w as [sx|wm|l0|kv1]; try discriminate Hcw.
  destruct (key_text key) as [kt|?|?]; cbn [rbind]; try reflexivity.
  destruct (mp_pick E sc uf wm) as [j|?|?]; cbn [rbind]; reflexivity.
Qed.

Lemma gj_pj_map k kv :
  is_msg_kind k = false -> (forall key y, In (key, y) kv -> wt_key KString key = true /\ wt sc k y = true) ->
  scalar_conf k (FMap kv) = true ->
  rall (map (gj_entry E sc k) kv) = rall (map (encB E sc k) kv).
Proof.
  intros Hk HF Hc. unfold scalar_conf in Hc. apply andb_prop in Hc. destruct Hc as [Hsk Hnf]. apply Bool.negb_true_iff in Hnf.
  apply rall_map_ext. intros [key y] Hy. destruct (HF key y Hy) as [Hwk Hwy].
  destruct (wt_nonmsg_scalar sc k y Hk Hwy) as [sx [Hx _]]. subst y.
  unfold gj_entry, encB. cbn [fst snd gj_fval pj_fval].
  rewrite (gj_pj_scalar k sx Hsk (nonfinite_FMap_in k kv key (FS sx) Hnf Hy)).
  destruct key; try discriminate Hwk. reflexivity.
Qed.

Lemma root_conf_inv md f x : m_fields md = [f] -> root_conf md [(f_name f, x)] = true ->
  match value_unwrap sc f with
  | Some uf => is_repeated uf = true /\ ctx_field_ok uf = true /\
               match x with FMap kv => forallb (wrapper_conf uf) kv = true | _ => False end
  | None => ctx_field_ok f = true /\ plain_in sc (f_kind f) x = true /\
            (is_msg_kind (f_kind f) = false -> scalar_conf (f_kind f) x = true)
  end.
Proof.
  intros Hf H. unfold root_conf in H. rewrite Hf in H. cbn [forallb snd] in H.
  destruct (value_unwrap sc f) as [uf|]; rewrite Bool.andb_true_r in H.
  - apply andb_prop in H. destruct H as [H Hws]. apply andb_prop in H. destruct H as [Hrep Hctx].
    destruct x; try discriminate Hws. repeat split; assumption.
  - apply andb_prop in H. destruct H as [H Hel]. apply andb_prop in H. destruct H as [Hctx _].
    unfold elems_conf in Hel. apply andb_prop in Hel. destruct Hel as [Hpl Hel].
    repeat split; try assumption. intros Hk. rewrite Hk in Hel. exact Hel.
Qed.

Theorem conforms_unwrap_root : forall tn md m,
  str_eqb tn ts_name = false -> is_wkt_other tn = false ->
  find_message (all_messages sc) tn = Some md -> owner_of sc md = Own FtUnwrapRoot ->
  buildable sc FtUnwrapRoot md = true ->
  wt sc (KMessage tn) (FM m) = true ->
  root_conf md m = true ->
  encode E sc tn m = to_json E sc tn m.
Proof.
  intros tn md m Hts Hwk Hfm Hown Hb Hwt Hconf.
  pose proof (find_lookup sc tn md Hts Hfm) as Hlk.
  destruct (root_unwrap_fields md (owner_root_unwrap sc md Hown)) as [f [Hf [Hunw Hcard]]].
  pose proof (root_mp_unwrap md f Hf Hunw Hcard) as Hmru.
  unfold encode. rewrite (owner_owns sc tn md _ Hlk Hown), (gj_fval_owned E sc tn md FtUnwrapRoot m Hwk Hlk Hown).
  unfold to_json. rewrite mp_fval_FM, Hts, Hwk, Hfm.
  unfold codec_body. rewrite Hb. cbn [negb].
  unfold is_repeated, is_map in Hcard.
  destruct (wt_root_single sc tn md f m Hts Hfm Hf Hwt) as [Hmok [Hm|[x [Hm Hwe]]]]; subst m.
  - rewrite kids_root_nil. cbn [rbind mp_msg]. unfold mp_finish. rewrite Hmru.
    unfold enc_unwrap_root. rewrite Hf. cbn [mget].
    unfold root_conf in Hconf. rewrite Hf in Hconf.
    destruct (f_card f) as [| | |kk] eqn:Hc; try discriminate Hcard.
    + rewrite (value_unwrap_repeated sc f Hc) in Hconf.
      destruct (is_msg_kind (f_kind f)); [reflexivity|]. cbn [orb andb] in Hconf. rewrite Bool.andb_false_r in Hconf. discriminate Hconf.
    + destruct (value_unwrap sc f) as [uf|].
      * destruct (is_repeated uf); [reflexivity|discriminate Hconf].
      * destruct (is_msg_kind (f_kind f)); [reflexivity|]. cbn [orb andb] in Hconf. rewrite Bool.andb_false_r in Hconf. discriminate Hconf.
  - pose proof (root_conf_inv md f x Hf Hconf) as Hci.
    pose proof (wt_entry_card sc f x Hwe) as Hsh.
    assert (Hfind : find_field (m_fields md) (f_name f) = Some f) by (rewrite Hf; cbn [find_field]; rewrite str_eqb_refl; reflexivity).
    assert (Hspec : match x with FL _ | FMap _ => True | _ => False end ->
              forall r, mp_fval E sc (Some f) (f_kind f) x = r ->
              mp_msg E sc md [(f_name f, x)] >>= mp_finish md [(f_name f, x)] = r).
    { intros Hx r Hr. cbn [mp_msg]. rewrite Hfind.
      rewrite (mp_entry_collection md (f_name f) f x Hx).
      - rewrite Hr. destruct r as [j|er|w]; cbn [rbind]; try reflexivity. cbn [app]. unfold mp_finish. rewrite Hmru. reflexivity.
      - apply (owner_root_no_flatten md f Hown). rewrite Hf. left. reflexivity.
      - unfold mp_oneof_of. rewrite (proj2 (msg_ok_key md (f_name f) f Hmok Hfind)). reflexivity. }
    rewrite (kids_root_one E sc md f x Hf).
    unfold enc_unwrap_root. rewrite Hf. cbn [mget]. rewrite str_eqb_refl.
    destruct (f_card f) as [| | |kk] eqn:Hc; try discriminate Hcard.
    + rewrite (value_unwrap_repeated sc f Hc) in Hci. destruct Hci as [Hctx [Hpl Hel]].
      destruct Hsh as [l [-> HF]].
      symmetry. apply (Hspec I). rewrite (mapping_plain_fval E sc (FL l) (Some f) (f_kind f) Hctx Hpl).
      destruct (is_msg_kind (f_kind f)) eqn:Emk.
      * cbn [negb rbind]. unfold pj_list. rewrite pj_fval_FL, m_list_rall. reflexivity.
      * cbn [negb]. rewrite gj_fval_FL, gj_list_rall, (gj_pj_list (f_kind f) l Emk HF (Hel eq_refl)), <- m_list_rall, <- pj_fval_FL.
        destruct (pj_fval E sc (f_kind f) (FL l)) as [j|er|w]; cbn [rbind kid]; rewrite ?str_eqb_refl; reflexivity.
    + assert (Hkk : kk = KString).
      { unfold buildable in Hb. rewrite Hf in Hb. cbn [forallb] in Hb. rewrite Hc in Hb.
        apply kind_eqb_string. destruct (kind_eqb kk KString); [reflexivity|discriminate Hb]. }
      subst kk. destruct Hsh as [kv [-> [Hs HF]]].
      symmetry. apply (Hspec I).
      destruct (value_unwrap sc f) as [uf|] eqn:Evu.
      * destruct Hci as [Hrep [Hctx Hws]]. rewrite Hrep.
        rewrite mp_fval_FMap. unfold unwrap_map_obj.
        destruct (is_msg_kind (f_kind f)) eqn:Emk; cbn [negb rbind]; [|exfalso].
        2:{ destruct (value_unwrap_inv sc f uf Evu) as [_ [vtn [vmd [Hk _]]]]. rewrite Hk in Emk. discriminate Emk. }
        f_equal. exact (wrappers_conform f uf kv Evu Hrep Hctx HF Hws).
      * destruct Hci as [Hctx [Hpl Hel]].
        rewrite (mapping_plain_fval E sc (FMap kv) (Some f) (f_kind f) Hctx Hpl).
        rewrite pj_fval_FMap, m_map_rall.
        destruct (is_msg_kind (f_kind f)) eqn:Emk.
        -- cbn [negb rbind]. reflexivity.
        -- cbn [negb]. rewrite gj_fval_FMap, gj_map_rall, (gj_pj_map (f_kind f) kv Emk HF (Hel eq_refl)).
           destruct (rall (map (encB E sc (f_kind f)) kv)) as [es|er|w]; cbn [rbind kid]; rewrite ?str_eqb_refl; reflexivity.
Qed.
End Conforms.
Close Scope Z_scope.
