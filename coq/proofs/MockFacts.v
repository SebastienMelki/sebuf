(* MockFacts.v — C20, the mock generator.  For a schema whose field examples carry tags only
   (tags_only, untagged): the emitted mock builds (mock_builds_lemma), every leaf is filled from its example
   or default (leaf_ok, examples_used_lemma), and the walk guarded by the set of open message types ends on
   every closed schema (mock_walk_terminates, rpc_walk_terminates).  From [mock_file] on: the fixture schemas
   of props/C20.v, one per case (nested, homonym, unparsable example, recursive ...), each evaluated once. *)
From Sebuf Require Import Text Schema Num Emit Mock.
From SebufProofs Require Import TextFacts ListFacts EmitFacts.

Lemma gotype_eqb_refl t : gotype_eqb t t = true.
Proof.
  induction t; cbn; try reflexivity; try apply str_eqb_refl; auto.
  now rewrite IHt1, IHt2.
Qed.

Definition tags_only (t : list str) : walk := {| w_checks := []; w_leaves := []; w_present := []; w_tags := t |}.
Definition leaf_walk (c : list check) (l : leaf) : walk := {| w_checks := c; w_leaves := [l]; w_present := []; w_tags := [] |}.
Definition present_walk (c : list check) (q : str) : walk := {| w_checks := c; w_leaves := []; w_present := [q]; w_tags := [] |}.
Definition scalar_leaf fl ex ft m f q k : leaf :=
  {| lf_path := q; lf_values := values_of fl ex ft m f k; lf_kind := k; lf_decl := declared_examples ex m f |}.
Definition map_leaf f q : leaf := {| lf_path := q; lf_values := map_default_text (f_kind f); lf_kind := MStr; lf_decl := [] |}.
Definition map_checks f : list check := [mk (scalar_map_make_ok (f_kind f)) cls_type; mk (scalar_map_default_ok (f_kind f)) cls_type].

Lemma kind_msg_or_scalar k : (exists n, k = KMessage n) \/ is_msg_kind k = false.
Proof. destruct k; eauto. Qed.

(* a scalar field: a map with one sample entry, an assignment from the selector of its kind, or nothing *)
Lemma field_walk_scalar onp sub fl ex ft m p f :
  is_msg_kind (f_kind f) = false ->
  field_walk onp sub fl ex ft m p f =
  let here := join_path p (f_name f) in
  let own := tags_only (shape_tags f ++ example_tags fl ex ft m f) in
  Some match f_card f with
       | MapOf kk =>
           w_app own (leaf_walk (map_checks f) (map_leaf f (here ++ s "[" ++ sample_key kk ++ s "]")))
       | _ => match mock_kind (f_kind f) with
              | Some k => w_app own (leaf_walk [assign_check (go_field_type f) (rhs_type k)] (scalar_leaf fl ex ft m f here k))
              | None => own
              end
       end.
Proof.
  (* with the record taken apart [field_walk] stays folded and each case is a conversion that looks at one branch *)
  destruct f as [nm num k c o q u i e nu em tsf be ov fla fp]. destruct k; [..|discriminate]; intros _; destruct c; reflexivity.
Qed.

(* a message field: nothing when repeated or when its type is being filled; otherwise the walk of its
   type after the assignment (singular, optional) or under one sample key (map) *)
Lemma field_walk_msg onp sub fl ex ft m p f n :
  f_kind f = KMessage n ->
  field_walk onp sub fl ex ft m p f =
  let here := join_path p (f_name f) in
  let own := tags_only (shape_tags f ++ example_tags fl ex ft m f) in
  if is_list f then Some own
  else if onp n then Some (tags_only (example_tags fl ex ft m f))
  else match f_card f with
       | MapOf kk =>
           let keyed := here ++ s "[" ++ sample_key kk ++ s "]" in
           option_map (fun w => w_app own (w_app (present_walk [] keyed) w)) (sub n keyed)
       | _ =>
           option_map (fun w => w_app own (w_app (present_walk [assign_check (go_field_type f) (GPtrMsg n)] here)
                                                 (if in_real_oneof f then w_mute w else w)))
                      (sub n here)
       end.
Proof.
  destruct f as [nm num k c o q u i e nu em tsf be ov fla fp]. cbn [f_kind]. intros ->.
  destruct c; try reflexivity; destruct (onp n); try reflexivity.
  all: cbv zeta; cbn [f_name]; now destruct (sub n _).
Qed.

Lemma field_walk_inv onp sub fl ex ft m p f a :
  field_walk onp sub fl ex ft m p f = Some a ->
  let here := join_path p (f_name f) in
  let own := tags_only (shape_tags f ++ example_tags fl ex ft m f) in
  a = tags_only (example_tags fl ex ft m f) \/ a = own \/
  (exists k, mock_kind (f_kind f) = Some k /\ is_map f = false /\
     a = w_app own (leaf_walk [assign_check (go_field_type f) (rhs_type k)] (scalar_leaf fl ex ft m f here k))) \/
  (exists n w, f_kind f = KMessage n /\ is_map f = false /\ is_list f = false /\ sub n here = Some w /\
     a = w_app own (w_app (present_walk [assign_check (go_field_type f) (GPtrMsg n)] here) (if in_real_oneof f then w_mute w else w))) \/
  (exists n q w, sub n q = Some w /\ a = w_app own (w_app (present_walk [] q) w)) \/
  (exists q, is_map f = true /\ is_msg_kind (f_kind f) = false /\
     a = w_app own (leaf_walk (map_checks f) (map_leaf f q))).
Proof.
  intros H here own. destruct (kind_msg_or_scalar (f_kind f)) as [[n Ek]|Ek].
  - rewrite (field_walk_msg _ _ _ _ _ _ _ _ _ Ek) in H. cbv zeta in H. fold here own in H.
    destruct (is_list f) eqn:El; [injection H as <-; now right; left|].
    destruct (onp n); [injection H as <-; now left|].
    unfold is_map. unfold is_list in El.
    destruct (f_card f) as [| | |kk]; try discriminate El.
    3: { destruct (sub n _) as [w|] eqn:Es; [|discriminate]. injection H as <-.
         do 4 right; left. exists n; eexists; exists w. split; [exact Es|reflexivity]. }
    all: destruct (sub n here) as [w|] eqn:Es; [|discriminate]; injection H as <-;
         do 3 right; left; now exists n, w.
  - rewrite (field_walk_scalar _ _ _ _ _ _ _ _ Ek) in H. cbv zeta in H. fold here own in H. injection H as <-.
    unfold is_map. destruct (f_card f) as [| | |kk]; [| | |do 5 right; now eexists].
    all: destruct (mock_kind (f_kind f)) as [k|]; [do 2 right; left; now exists k|now right; left].
Qed.

Definition untagged (Q : walk -> Prop) (w : walk) : Prop := w_tags w = [] -> Q w.

Section Untagged.
  Variable Q : walk -> Prop.
  Hypothesis Q_app : forall a b, Q a -> Q b -> Q (w_app a b).

  Lemma untagged_app a b : untagged Q a -> untagged Q b -> untagged Q (w_app a b).
  Proof. intros Ha Hb H. apply app_eq_nil in H as [H1 H2]. auto. Qed.

    Lemma untagged_own t b : Q (tags_only t) -> (t = [] -> untagged Q b) -> untagged Q (w_app (tags_only t) b).
  Proof. intros H0 Hb H. apply app_eq_nil in H as [H1 H2]. apply Q_app; [exact H0|exact (Hb H1 H2)]. Qed.

  Lemma walk_fields_preserves step fs :
    Q w_empty -> (forall f a, In f fs -> step f = Some a -> untagged Q a) ->
    forall w, walk_fields step fs = Some w -> untagged Q w.
  Proof.
    intros He. induction fs as [|f r IH]; intros Hs w; cbn.
    - intros [= <-] _. exact He.
    - destruct (step f) as [a|] eqn:Ea; [|discriminate].
      destruct (walk_fields step r) as [b|] eqn:Eb; [|discriminate].
      intros [= <-]. apply untagged_app.
      + apply (Hs f); [now left|assumption].
      + apply IH; [|reflexivity]. intros g c Hg. apply Hs. now right.
  Qed.

  Lemma mock_walk_preserves sc fl ex ft :
    Q w_empty -> (forall p, untagged Q (timestamp_walk p)) ->
    (forall onp sub m p f a, (forall n p' w, sub n p' = Some w -> untagged Q w) ->
                             field_walk onp sub fl ex ft m p f = Some a -> untagged Q a) ->
    forall fuel path m p w, mock_walk fuel sc fl ex ft path m p = Some w -> untagged Q w.
  Proof.
    intros He Ht Hf. induction fuel as [|fu IH]; intros path m p w; cbn [mock_walk]; [discriminate|].
    apply walk_fields_preserves; [exact He|].
    intros f a _ Hfa. eapply Hf; [|exact Hfa].
    intros n p' w' Hs. cbn beta in Hs.
    destruct (str_eqb n (s "google.protobuf.Timestamp")).
    - injection Hs as <-. apply Ht.
    - destruct (find_message (all_messages sc) n) as [t|]; [|discriminate]. now apply (IH (m_name m :: path) t p').
  Qed.
End Untagged.

Lemma timestamp_walk_tagged Q p : untagged Q (timestamp_walk p).
Proof. intros H. discriminate H. Qed.

Definition builds (w : walk) : Prop := all_ok (w_checks w) = true.

Lemma builds_app a b : builds a -> builds b -> builds (w_app a b).
Proof. unfold builds. cbn. intros Ha Hb. now rewrite all_ok_app, Ha, Hb. Qed.

Lemma shape_tags_scalar f k :
  mock_kind (f_kind f) = Some k -> is_map f = false ->
  shape_tags f = tag_if (in_real_oneof f) "mock-oneof-member" ++ tag_if (is_optional f) "mock-optional-scalar" ++
                 tag_if (is_list f) "mock-repeated-scalar" ++
                 tag_if (match f_kind f with KInt32 | KFloat => true | _ => false end) "mock-narrow-number".
Proof.
  destruct f as [nm num kd c o q u i e nu em tsf be ov fla fp].
  destruct kd; intros Hk; try discriminate Hk; destruct c; intros Hm; try discriminate Hm; reflexivity.
Qed.

Lemma shape_tags_msg f n :
  f_kind f = KMessage n -> is_map f = false -> is_list f = false -> shape_tags f = tag_if (in_real_oneof f) "mock-oneof-member".
Proof.
  destruct f as [nm num kd c o q u i e nu em tsf be ov fla fp]. cbn [f_kind]. intros ->.
  destruct c; intros Hm Hl; try discriminate Hm; try discriminate Hl; reflexivity.
Qed.

Lemma shape_tags_map_scalar f :
  is_map f = true -> is_msg_kind (f_kind f) = false ->
  shape_tags f = tag_if (negb (scalar_map_make_ok (f_kind f) && scalar_map_default_ok (f_kind f))) "mock-map-value-kind".
Proof.
  destruct f as [nm num kd c o q u i e nu em tsf be ov fla fp].
  destruct c; intros Hm; try discriminate Hm; destruct kd; intros Hk; try discriminate Hk; reflexivity.
Qed.

(* without a shape tag a scalar field is singular, outside a oneof and not narrower than its selector *)
Lemma assign_scalar_ok f k :
  mock_kind (f_kind f) = Some k -> is_map f = false -> shape_tags f = [] ->
  ck_ok (assign_check (go_field_type f) (rhs_type k)) = true.
Proof.
  intros Hk Hm Hs. rewrite (shape_tags_scalar f k Hk Hm) in Hs.
  apply app_eq_nil in Hs as [Ho Hs]. apply app_eq_nil in Hs as [Hopt Hs]. apply app_eq_nil in Hs as [Hl Hn].
  apply tag_if_nil in Ho, Hopt, Hl, Hn.
  rewrite go_field_type_plain; [|now apply singular_card|now apply not_in_oneof].
  destruct (f_kind f); try discriminate Hk; try discriminate Hn; injection Hk as <-; reflexivity.
Qed.

Lemma assign_msg_ok f n :
  f_kind f = KMessage n -> is_map f = false -> is_list f = false -> shape_tags f = [] ->
  ck_ok (assign_check (go_field_type f) (GPtrMsg n)) = true.
Proof.
  intros Hk Hm Hl Hs. rewrite (shape_tags_msg f n Hk Hm Hl) in Hs. apply tag_if_nil in Hs.
  unfold go_field_type, in_real_oneof, is_map, is_list in *. rewrite Hk.
  destruct (f_card f); try discriminate; destruct (f_oneof f); try discriminate; cbn; apply str_eqb_refl.
Qed.

Lemma map_scalar_ok f :
  is_map f = true -> is_msg_kind (f_kind f) = false -> shape_tags f = [] ->
  scalar_map_make_ok (f_kind f) && scalar_map_default_ok (f_kind f) = true.
Proof.
  intros Hm Hk Hs. rewrite (shape_tags_map_scalar f Hm Hk) in Hs. apply tag_if_nil in Hs. now apply negb_false_iff.
Qed.

Lemma field_walk_builds onp sub fl ex ft m p f a :
  (forall n p' w, sub n p' = Some w -> untagged builds w) ->
  field_walk onp sub fl ex ft m p f = Some a -> untagged builds a.
Proof.
  intros Hsub H.
  assert (Hown : forall b, (shape_tags f = [] -> untagged builds b) ->
                           untagged builds (w_app (tags_only (shape_tags f ++ example_tags fl ex ft m f)) b)).
  { intros b Hb. apply (untagged_own _ builds_app); [reflexivity|]. intros E. apply app_eq_nil in E as [E _]. auto. }
  destruct (field_walk_inv _ _ _ _ _ _ _ _ _ H)
    as [->|[->|[(k & Hk & Hm & ->)|[(n & w & Hk & Hm & Hl & Es & ->)|[(n & q & w & Es & ->)|(q & Hm & Hk & ->)]]]]].
  - intros _. reflexivity.
  - intros _. reflexivity.
  - apply Hown. intros Hs _. unfold builds. cbn. now rewrite (assign_scalar_ok f k).
  - apply Hown. intros Hs. apply (untagged_app _ builds_app).
    + intros _. unfold builds. cbn. now rewrite (assign_msg_ok f n).
    + destruct (in_real_oneof f); [intros _; reflexivity|exact (Hsub _ _ _ Es)].
  - apply Hown. intros _. apply (untagged_app _ builds_app); [intros _; reflexivity|exact (Hsub _ _ _ Es)].
  - apply Hown. intros Hs _. unfold builds. cbn. rewrite andb_true_r. now apply map_scalar_ok.
Qed.

Lemma mock_walk_builds sc fl ex ft fuel path m p w :
  mock_walk fuel sc fl ex ft path m p = Some w -> untagged builds w.
Proof.
  apply (mock_walk_preserves _ builds_app); [reflexivity|apply timestamp_walk_tagged|].
  intros onp sub m' p' f a. apply field_walk_builds.
Qed.

Lemma opt_all_in {A} (l : list (option A)) ws : opt_all l = Some ws -> forall x, In x ws -> In (Some x) l.
Proof.
  revert ws; induction l as [|o r IH]; intros ws; cbn.
  - intros [= <-] x [].
  - destruct o as [a|]; [|discriminate]. destruct (opt_all r) as [y|]; [|discriminate].
    intros [= <-] x [->|Hx]; [now left|]. right. now apply (IH y).
Qed.

Lemma rpc_walks_in sc ex ft ws : rpc_walks sc ex ft = Some ws ->
  forall x, In x ws -> exists fl md m, output_msg sc md = Some m /\ mock_walk (walk_fuel sc) sc fl ex ft [] m [] = Some (snd x).
Proof.
  unfold rpc_walks. intros H x Hx. pose proof (opt_all_in _ _ H x Hx) as Hin.
  apply in_flat_map in Hin as (fl & _ & Hin). apply in_flat_map in Hin as (sv & _ & Hin).
  apply in_map_iff in Hin as (md & Hmd & _). exists fl, md. unfold rpc_walk in Hmd.
  destruct (output_msg sc md) as [m|]; [|discriminate]. exists m. split; [reflexivity|].
  destruct (mock_walk _ sc fl ex ft [] m []); [|discriminate]. now injection Hmd as <-.
Qed.

Theorem mock_builds_lemma : forall sc ex ft ws,
  accepted sc = true -> rpc_walks sc ex ft = Some ws -> defects_C20 sc ws = [] -> mock_builds sc ws = true.
Proof.
  intros sc ex ft ws Hacc Hw Hd. unfold defects_C20 in Hd. apply dedup_nil in Hd. apply app_eq_nil in Hd as [Hg Hm].
  unfold mock_builds. apply andb_true_iff. split.
  - apply (go_builds_and_vets sc Both Hacc). unfold defects_go. now rewrite Hg.
  - unfold mock_checks. rewrite all_ok_flat_map. apply forallb_forall. intros x Hx.
    destruct (rpc_walks_in _ _ _ _ Hw x Hx) as (fl & md & m & _ & Hr).
    apply (mock_walk_builds _ _ _ _ _ _ _ _ _ Hr). now apply (proj1 (flat_map_nil _ _) Hm).
Qed.

Definition leaf_ok (ft : ftab) (l : leaf) : Prop :=
  lf_decl l <> [] -> lf_values l <> [] /\
  forall v, In v (lf_values l) -> exists e, In e (lf_decl l) /\ parse_as ft (lf_kind l) e = Some v.
Definition leaves_ok (ft : ftab) (w : walk) : Prop := forall l, In l (w_leaves w) -> leaf_ok ft l.

Lemma leaves_ok_app ft a b : leaves_ok ft a -> leaves_ok ft b -> leaves_ok ft (w_app a b).
Proof. intros Ha Hb l Hl. apply in_app_or in Hl as [Hl|Hl]; auto. Qed.

Lemma leaves_ok_none ft w : w_leaves w = [] -> leaves_ok ft w.
Proof. intros E l Hl. rewrite E in Hl. destruct Hl. Qed.

(* the selectors of int, bool and float examples: every stored text parses, so every value is a parsed one *)
Lemma parsed_values {A} (parse : str -> option A) (show : A -> str) (d : str) stored :
  stored <> [] -> (forall x, In x stored -> parse x <> None) ->
  let vals := flat_map (fun x => match parse x with Some z => [show z] | None => [d] end) stored in
  vals <> [] /\ forall v, In v vals -> exists x, In x stored /\ option_map show (parse x) = Some v.
Proof.
  intros Hne Hp. split.
  - destruct stored as [|x r]; [congruence|]. cbn. destruct (parse x); discriminate.
  - intros v Hv. apply in_flat_map in Hv as (x & Hx & Hv). exists x. split; [assumption|].
    specialize (Hp x Hx). destruct (parse x); [|congruence]. destruct Hv as [<-|[]]. reflexivity.
Qed.

Lemma sel_values_parsed ft mkd stored decl fname :
  decl <> [] -> same_examples stored decl = true ->
  existsb (fun x => match parse_as ft mkd x with Some _ => false | None => true end) decl = false ->
  let vals := match mkd with
              | MStr => sel_string stored fname | MInt => sel_int stored
              | MBool => sel_bool stored | MFloat => sel_float ft stored end in
  vals <> [] /\ forall v, In v vals -> exists e, In e decl /\ parse_as ft mkd e = Some v.
Proof.
  intros Hne Hsame Hpar. unfold same_examples in Hsame. apply andb_true_iff in Hsame as [Hlen Hsub].
  apply Nat.eqb_eq in Hlen.
  assert (Hst : stored <> []) by (destruct stored, decl; cbn in *; congruence).
  assert (Hin : forall x, In x stored -> In x decl) by (intros x Hx; apply mem_str_In; now apply (proj1 (forallb_forall _ _) Hsub)).
  assert (Hp : forall x, In x stored -> parse_as ft mkd x <> None).
  { intros x Hx E. pose proof (proj1 (existsb_false _ _) Hpar x (Hin x Hx)) as F. cbn beta in F. now rewrite E in F. }
  assert (Hvia : forall vals : list str,
            (vals <> [] /\ forall v, In v vals -> exists x, In x stored /\ parse_as ft mkd x = Some v) ->
            vals <> [] /\ forall v, In v vals -> exists e, In e decl /\ parse_as ft mkd e = Some v).
  { intros vals [H1 H2]. split; [exact H1|]. intros v Hv. destruct (H2 v Hv) as (x & Hx & E). exists x. auto. }
  destruct mkd; cbn [parse_as] in *; apply Hvia.
  - unfold sel_string. destruct stored; [congruence|]. split; [discriminate|]. intros v Hv. now exists v.
  - unfold sel_int. destruct stored as [|x r] eqn:E; [congruence|]. rewrite <- E in *.
    apply (parsed_values (parse_int 64) show_int); [assumption|]. intros y Hy Ey. apply (Hp y Hy). now rewrite Ey.
  - unfold sel_bool. destruct stored as [|x r] eqn:E; [congruence|]. rewrite <- E in *.
    apply (parsed_values parse_bool show_bool); [assumption|]. intros y Hy Ey. apply (Hp y Hy). now rewrite Ey.
  - unfold sel_float. destruct stored as [|x r] eqn:E; [congruence|]. rewrite <- E in *.
    destruct (parsed_values (ft_lookup ft) (fun v => v) (s "3.14") stored Hst Hp) as [H1 H2]. split; [exact H1|].
    intros v Hv. destruct (H2 v Hv) as (y & Hy & Ey). exists y. split; [assumption|]. now destruct (ft_lookup ft y).
Qed.

Lemma scalar_leaf_ok fl ex ft m f mkd q :
  mock_kind (f_kind f) = Some mkd -> is_map f = false -> example_tags fl ex ft m f = [] ->
  leaf_ok ft (scalar_leaf fl ex ft m f q mkd).
Proof.
  intros Hk Hm Het. unfold leaf_ok. cbn [scalar_leaf lf_decl lf_values lf_kind]. intros Hd.
  unfold example_tags, handled in Het. rewrite Hk, Hm in Het. cbn [negb andb] in Het.
  destruct (declared_examples ex m f) as [|d0 dr] eqn:Ed; [congruence|].
  destruct (same_examples (stored_examples fl ex m f) (d0 :: dr)) eqn:Es; cbn [negb] in Het; [|discriminate].
  apply tag_if_nil in Het. unfold values_of.
  pose proof (sel_values_parsed ft mkd (stored_examples fl ex m f) (d0 :: dr) (f_name f) Hd Es Het) as H.
  destruct mkd; exact H.
Qed.

Lemma field_walk_examples onp sub fl ex ft m p f a :
  (forall n p' w, sub n p' = Some w -> untagged (leaves_ok ft) w) ->
  field_walk onp sub fl ex ft m p f = Some a -> untagged (leaves_ok ft) a.
Proof.
  intros Hsub H.
  assert (Hown : forall b, (example_tags fl ex ft m f = [] -> untagged (leaves_ok ft) b) ->
                           untagged (leaves_ok ft) (w_app (tags_only (shape_tags f ++ example_tags fl ex ft m f)) b)).
  { intros b Hb. apply (untagged_own _ (leaves_ok_app ft)); [now apply leaves_ok_none|].
    intros E. apply app_eq_nil in E as [_ E]. auto. }
  destruct (field_walk_inv _ _ _ _ _ _ _ _ _ H)
    as [->|[->|[(k & Hk & Hm & ->)|[(n & w & Hk & Hm & Hl & Es & ->)|[(n & q & w & Es & ->)|(q & Hm & Hk & ->)]]]]].
  - intros _. now apply leaves_ok_none.
  - intros _. now apply leaves_ok_none.
  - apply Hown. intros Het _ l [<-|[]]. now apply scalar_leaf_ok.
  - apply Hown. intros _. apply (untagged_app _ (leaves_ok_app ft)); [intros _; now apply leaves_ok_none|].
    destruct (in_real_oneof f); exact (Hsub _ _ _ Es).
  - apply Hown. intros _. apply (untagged_app _ (leaves_ok_app ft)); [intros _; now apply leaves_ok_none|exact (Hsub _ _ _ Es)].
  - apply Hown. intros _ _ l [<-|[]] Hd. now cbn in Hd.
Qed.

Lemma mock_walk_examples sc fl ex ft fuel path m p w :
  mock_walk fuel sc fl ex ft path m p = Some w -> untagged (leaves_ok ft) w.
Proof.
  apply (mock_walk_preserves _ (leaves_ok_app ft)); [now apply leaves_ok_none|apply timestamp_walk_tagged|].
  intros onp sub m' p' f a. apply field_walk_examples.
Qed.

Theorem examples_used_lemma : forall sc ex ft ws,
  rpc_walks sc ex ft = Some ws -> mock_tags ws = [] ->
  forall rpc w l, In (rpc, w) ws -> In l (w_leaves w) -> lf_decl l <> [] ->
  lf_values l <> [] /\ forall v, In v (lf_values l) -> exists e, In e (lf_decl l) /\ parse_as ft (lf_kind l) e = Some v.
Proof.
  intros sc ex ft ws Hw Ht rpc w l Hin Hl Hd.
  destruct (rpc_walks_in _ _ _ _ Hw _ Hin) as (fl & md & m & _ & Hr). cbn [snd] in Hr.
  apply (mock_walk_examples _ _ _ _ _ _ _ _ _ Hr); auto.
  now apply (proj1 (flat_map_nil _ _) Ht (rpc, w)).
Qed.

(* the guarded walk terminates on every closed schema, recursive or not (7d8903f) *)
Definition msg_names (sc : schema) : list str := map m_name (all_messages sc).
(* every message-typed field refers to Timestamp or to a message of the schema *)
Definition closed (sc : schema) : Prop :=
  forall m f n, In m (all_messages sc) -> In f (m_fields m) -> f_kind f = KMessage n ->
    n = s "google.protobuf.Timestamp" \/ exists t, find_message (all_messages sc) n = Some t.

Lemma find_message_some ms n t : find_message ms n = Some t -> In t ms /\ m_name t = n.
Proof.
  induction ms as [|a r IH]; cbn; [discriminate|]. destruct (str_eqb (m_name a) n) eqn:E.
  - intros H. inversion H. subst. split; [now left|now apply str_eqb_eq].
  - intros H. destruct (IH H). split; [now right|assumption].
Qed.

Lemma walk_fields_some step fs : (forall f, In f fs -> step f <> None) -> walk_fields step fs <> None.
Proof.
  induction fs as [|f r IH]; cbn; intros H; [discriminate|].
  destruct (step f) eqn:E; [|exfalso; apply (H f); [now left|assumption]].
  destruct (walk_fields step r) eqn:Er; [discriminate|]. exfalso. exact (IH (fun g Hg => H g (or_intror Hg)) eq_refl).
Qed.

Lemma field_walk_some onp sub fl ex ft m p f :
  (forall n p', f_kind f = KMessage n -> onp n = false -> sub n p' <> None) ->
  field_walk onp sub fl ex ft m p f <> None.
Proof.
  intros H. destruct (kind_msg_or_scalar (f_kind f)) as [[n Ek]|Ek].
  - rewrite (field_walk_msg _ _ _ _ _ _ _ _ _ Ek). cbv zeta.
    destruct (is_list f); [discriminate|]. destruct (onp n) eqn:Eo; [discriminate|].
    destruct (f_card f).
    all: destruct (sub n _) eqn:Es; [discriminate|]; exfalso; exact (H _ _ Ek Eo Es).
  - now rewrite (field_walk_scalar _ _ _ _ _ _ _ _ Ek).
Qed.

Theorem mock_walk_terminates sc fl ex ft : closed sc ->
  forall fuel path m p, In m (all_messages sc) -> NoDup path -> incl path (msg_names sc) -> ~ In (m_name m) path ->
    List.length (msg_names sc) < fuel + List.length path ->
    mock_walk fuel sc fl ex ft path m p <> None.
Proof.
  intros Hc. induction fuel as [|fu IH]; intros path m p Hm Hnd Hincl Hnin Hlen.
  - exfalso. assert (Hn : NoDup (m_name m :: path)) by now constructor.
    assert (Hi : incl (m_name m :: path) (msg_names sc)).
    { intros x [<-|Hx]; [unfold msg_names; now apply in_map|now apply Hincl]. }
    pose proof (NoDup_incl_length Hn Hi) as Hle. cbn in *. lia.
  - cbn [mock_walk]. apply walk_fields_some. intros f Hf. apply field_walk_some. intros n p' Hk Honp. cbn beta.
    destruct (str_eqb n (s "google.protobuf.Timestamp")) eqn:Et; [discriminate|].
    destruct (Hc m f n Hm Hf Hk) as [->|(t & Ht)]; [now rewrite str_eqb_refl in Et|].
    rewrite Ht. destruct (find_message_some _ _ _ Ht) as [Hint Hname].
    apply IH.
    + assumption.
    + now constructor.
    + intros x [<-|Hx]; [unfold msg_names; now apply in_map|now apply Hincl].
    + rewrite Hname. intros Hp. apply mem_str_In in Hp. congruence.
    + cbn [List.length]. lia.
Qed.

Theorem rpc_walk_terminates sc ex ft fl md m : closed sc -> output_msg sc md = Some m -> rpc_walk sc ex ft fl md <> None.
Proof.
  intros Hc Ho. unfold rpc_walk. rewrite Ho. unfold output_msg in Ho. destruct (find_message_some _ _ _ Ho) as [Hin _].
  apply mock_walk_terminates; try assumption.
  - constructor.
  - intros x [].
  - intros [].
  - unfold walk_fuel, msg_names. rewrite map_length. cbn. lia.
Qed.

Local Open Scope string_scope.
Definition mock_file (ms : list message) (out : string) : schema :=
  [file_of "a.proto" (msg "Req" [fld "id" KString Singular None []] [] :: ms) [] [svc "S" [] [rpc "Get" "Req" out 2 "/get" []]]].
Definition exs (l : list (string * string * list string)) : extab :=
  map (fun t => (s ("p.v1." ++ fst (fst t)), s (snd (fst t)), map s (snd t))) l.
Definition nested (outer inner : string) (fs : list field) : message :=
  {| m_name := s ("p.v1." ++ outer ++ "." ++ inner); m_path := [s outer; s inner]; m_fields := fs; m_oneofs := [] |}.
Definition KN outer inner := KMessage (s ("p.v1." ++ outer ++ "." ++ inner)).

Definition good_mock : mcase :=
  (mock_file [msg "Inner" [fld "label" KString Singular None []; fld "hits" KInt64 Singular None []] [];
              msg "Resp" [fld "title" KString Singular None []; fld "count" KInt64 Singular None []; fld "ok" KBool Singular None [];
                          fld "ratio" KDouble Singular None []; fld "inner" (M "Inner") Singular None []; fld "maybe" (M "Inner") Optional None [];
                          fld "by_key" (M "Inner") (MapOf KString) None []; fld "counts" KInt64 (MapOf KInt32) None [];
                          fld "tags" (M "Inner") Repeated None []; fld "u" KUint32 Singular None []] []] "Resp",
   exs [("Resp", "title", ["first"; "second"]); ("Resp", "count", ["7"; "-3"]); ("Resp", "ok", ["t"; "0"]); ("Resp", "ratio", ["1.5"]);
        ("Inner", "label", ["alpha"])],
   [(s "1.5", Some (s "1.5"))]).

Definition case_walks (c : mcase) := let '(sc, ex, ft) := c in rpc_walks sc ex ft.
Definition case_defects (c : mcase) := let '(sc, ex, ft) := c in option_map (defects_C20 sc) (rpc_walks sc ex ft).
Definition case_builds (c : mcase) := let '(sc, ex, ft) := c in option_map (mock_builds sc) (rpc_walks sc ex ft).
Definition case_leaf (c : mcase) (path : string) : option (list str) :=
  match case_walks c with
  | Some [(_, w)] => option_map (fun l => sort_strs (dedup (lf_values l))) (find (fun l => str_eqb (lf_path l) (s path)) (w_leaves w))
  | _ => None
  end.

Definition mock_one (f : field) : mcase := (mock_file [msg "Resp" [fld "title" KString Singular None []; f] []] "Resp", [], []).
Definition build_refuted (c : mcase) (tag : string) : Prop :=
  case_defects c = Some [s tag] /\ case_builds c = Some false.

Lemma w_mock_narrow_int32 : build_refuted (mock_one (fld "n" KInt32 Singular None [])) "mock-narrow-number".
Proof. vm_compute. split; reflexivity. Qed.
Lemma w_mock_narrow_float : build_refuted (mock_one (fld "x" KFloat Singular None [])) "mock-narrow-number".
Proof. vm_compute. split; reflexivity. Qed.
Lemma w_mock_timestamp : build_refuted (mock_one (fld "at" ts_kind Singular None [])) "mock-timestamp-nanos".
Proof. vm_compute. split; reflexivity. Qed.
Lemma w_mock_optional : build_refuted (mock_one (fld "nick" KString Optional None [])) "mock-optional-scalar".
Proof. vm_compute. split; reflexivity. Qed.
Lemma w_mock_repeated : build_refuted (mock_one (fld "names" KString Repeated None [])) "mock-repeated-scalar".
Proof. vm_compute. split; reflexivity. Qed.
Lemma w_mock_oneof : build_refuted (mock_file [msg "Resp" [fld "a" KString Singular (Some "c") []; fld "b" KUint32 Singular (Some "c") []] [plain_oneof "c"]] "Resp", [], [])
  "mock-oneof-member".
Proof. vm_compute. split; reflexivity. Qed.
Lemma w_mock_map_enum : build_refuted (mock_one (fld "m" (KEnum (s "p.v1.Color")) (MapOf KString) None [])) "mock-map-value-kind".
Proof. vm_compute. split; reflexivity. Qed.
Lemma w_mock_map_bytes : build_refuted (mock_one (fld "m" KBytes (MapOf KString) None [])) "mock-map-value-kind".
Proof. vm_compute. split; reflexivity. Qed.

(* examples: the package builds, the value a field takes is not one of its parsed examples *)
Definition nested_case : mcase :=
  (mock_file [msg "Resp" [fld "inner" (KN "Resp" "Inner") Singular None []] []; nested "Resp" "Inner" [fld "label" KString Singular None []]] "Resp",
   [(s "p.v1.Resp.Inner", s "label", [s "n1"; s "n2"])], []).

Definition homonym_case : mcase :=
  (mock_file [msg "Inner" [fld "label" KString Singular None []] [];
              msg "Resp" [fld "inner" (KN "Resp" "Inner") Singular None []] []; nested "Resp" "Inner" [fld "label" KString Singular None []]] "Resp",
   exs [("Inner", "label", ["top1"; "top2"])], []).

Definition unparsable_case : mcase :=
  (mock_file [msg "Resp" [fld "count" KInt64 Singular None []] []] "Resp", exs [("Resp", "count", ["12"; "abc"; "1_000"; "9223372036854775808"])], []).

Definition ignored_case : mcase :=
  (mock_file [msg "Resp" [fld "title" KString Singular None []; fld "u" KUint32 Singular None []] []] "Resp", exs [("Resp", "u", ["7"])], []).

(* recursive response types (possible since 7d8903f): self-recursive through a singular field, a
   repeated field and a map value; mutually recursive *)
Definition self_recursive_case : mcase :=
  (mock_file [msg "Resp" [fld "v" KString Singular None []; fld "next" (M "Resp") Singular None []; fld "opt" (M "Resp") Optional None [];
                          fld "kids" (M "Resp") Repeated None []; fld "by" (M "Resp") (MapOf KString) None []; fld "n" KInt64 Singular None []] []] "Resp",
   exs [("Resp", "v", ["a"; "b"])], []).
Definition case_present (c : mcase) : option (list str) :=
  match case_walks c with Some [(_, w)] => Some (sort_strs (w_present w)) | _ => None end.

Definition mutual_case : mcase :=
  (mock_file [msg "Resp" [fld "b" (M "B") Singular None []; fld "title" KString Singular None []] [];
              msg "B" [fld "a" (M "Resp") Singular None []; fld "n" KInt64 Singular None []; fld "m" (M "Resp") (MapOf KInt32) None [];
                       fld "c" (M "C") Singular None []] [];
              msg "C" [fld "b" (M "B") Singular None []; fld "ok" KBool Singular None []; fld "self" (M "C") (MapOf KString) None []] []] "Resp",
   [], []).

(* three services in one file; User is the response of four RPCs in three services, Empty of two *)
Definition shared_response_case : mcase :=
  ([file_of "a.proto"
      [msg "Req" [fld "id" KString Singular None []] [];
       msg "User" [fld "name" KString Singular None []; fld "age" KInt64 Singular None []; fld "next" (M "User") Singular None []] [];
       msg "Status" [fld "ok" KBool Singular None []; fld "user" (M "User") Singular None []; fld "by" (M "User") (MapOf KString) None []] [];
       msg "Empty" [] []] []
      [svc "UserService" ["X-Trace-ID"] [rpc "GetUser" "Req" "User" 2 "/g" []; rpc "FindUser" "Req" "User" 2 "/f" ["X-Trace-ID"]; rpc "PingUsers" "Req" "Empty" 2 "/p" []];
       svc "AdminService" ["X-Trace-ID"] [rpc "LookupUser" "Req" "User" 2 "/l" []; rpc "Stat" "Req" "Status" 2 "/s" []; rpc "PingAdmin" "Req" "Empty" 2 "/p" []];
       svc "AuditService" [] [rpc "LastUser" "Req" "User" 2 "/u" []; rpc "Audit" "Req" "Status" 2 "/a" []]]],
   exs [("User", "name", ["Ann"; "Bob"])], []).
Definition case_rpc_leaf (c : mcase) (rpc path : string) : option (list str) :=
  match case_walks c with
  | Some ws => match find (fun x => str_eqb (fst x) (s rpc)) ws with
               | Some (_, w) => option_map (fun l => sort_strs (dedup (lf_values l))) (find (fun l => str_eqb (lf_path l) (s path)) (w_leaves w))
               | None => None
               end
  | None => None
  end.
