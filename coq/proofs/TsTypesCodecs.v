(* TsTypesCodecs.v — C07 for ANNOTATED top-level messages: the JSON the Go server sends (Codec.encode) for a
   message whose MarshalJSON is one of the field codecs (nullable, int64_encoding NUMBER, bytes_encoding,
   timestamp_format, empty_behavior) inhabits the TypeScript interface the generators declare for it, for all
   well-typed values outside defects_C07.
     part 1: the protojson rendering (ProtoJson.pj_fval, what a parent's encoder writes for a child) of a
             well-typed, fully populated value of the plain fragment inhabits the TS type of its position
             (TsTypesFacts.renders_inhabits, of which pj_fval is an instance);
     part 2: every field codec is one pass over the declared fields that keeps, sets or deletes the entry of each;
             the object such a pass leaves inhabits the interface when each verdict suits the property (obj_inhabits),
             and the verdicts of the five codecs do (act_spec). *)
From Coq Require Import ZArith List.
From Sebuf Require Import CodecCases.
From SebufProofs Require Import ListFacts TextFacts CodecTextFacts ProtoJsonFacts.
From SebufProofs Require Import RawMap CodecBase.
From SebufProofs Require NullableFacts Int64Facts BytesFacts TimestampFacts CodecCompose CodecExamples.
From Sebuf Require Import TsTypes.
From SebufProofs Require Import TsTypesFacts.
Import ListNotations.

(* [TsTypesFacts.wt] (fuelled: well-typed, plain, fully populated: the hypothesis of C07_value_inhabits) is
   used for the CHILDREN of the top-level message; [ProtoJsonFacts.wt] (well-typed in the sense of the codec
   theorems C04/C05) for the top-level value. *)
Notation cwt := TsTypesFacts.wt.
Notation pwt := ProtoJsonFacts.wt.

(* every message whose interface is the standard one (no discriminated oneof, no flatten field) and every enum
   is declared, under its short name, as the generators declare it.  Weaker than TsTypesFacts.env_ok (which
   asks the same of ALL messages). *)
Definition std_shape (M : message) : Prop :=
  disc_oneofs M = [] /\ forall f, In f (m_fields M) -> is_flatten f = false.
Definition env_okp (sc : schema) (e : env) : Prop :=
  (forall tn M, find_message (all_messages sc) tn = Some M -> std_shape M ->
     lookup e (last_seg tn) = Some (YObject (map (field_prop sc []) (m_fields M)))) /\
  (forall tn En, find_enum (all_enums sc) tn = Some En -> lookup e (last_seg tn) = Some (enum_ty En)).

Lemma env_ok_okp sc e : env_ok sc e -> env_okp sc e.
Proof. intros [Hm He]. split; [intros tn M H _; exact (Hm tn M H)|exact He]. Qed.

Lemma ev_by_number_find vs n : ev_by_number vs n = find (fun v => Z.eqb (ev_number v) n) vs.
Proof. induction vs as [|v r IH]; [reflexivity|]. cbn [ev_by_number find]. rewrite IH. reflexivity. Qed.

Lemma pj_scalar_form_pj E sc k x j :
  sval_ok sc k x = true -> ProtoJson.pj_scalar E sc k x = ROk j -> scalar_form sc k x j.
Proof.
  intros Hok H. destruct x; destruct k; try discriminate Hok; try (injection H as <-; reflexivity).
  unfold ProtoJson.pj_scalar, ProtoJson.enum_json in H. unfold scalar_form, TsTypes.enum_json.
  destruct (find_enum (all_enums sc) tn) as [En|]; [|discriminate H]. rewrite ev_by_number_find in H.
  destruct (find _ (e_values En)); inversion H; reflexivity.
Qed.

Lemma pj_fval_renders E sc v : forall k j, pj_fval E sc k v = ROk j -> renders sc k v j.
Proof.
  induction v as [x|m IH|l IH|kvs IH] using fval_ind'; intros k j H.
  - apply RScalar. intros Hok. exact (pj_scalar_form_pj E sc k x j Hok H).
  - destruct k; try discriminate H. rewrite pj_fval_FM in H.
    destruct (str_eqb tn ts_name) eqn:Hts; [apply str_eqb_eq in Hts; subst tn; apply RTs|].
    destruct (is_wkt_other tn); [discriminate H|].
    destruct (find_message (all_messages sc) tn) as [M|] eqn:HM; [|discriminate H].
    apply rbind_ok in H. destruct H as [kv [Hall Hj]]. inversion Hj; subst j.
    apply (RMsg sc tn M m kv HM). clear Hj. revert kv Hall.
    induction IH as [|[name x] r Hx _ IHr]; intros kv Hall; cbn [m_msg] in Hall.
    + inversion Hall. constructor.
    + destruct (find_field (m_fields M) name) as [fd|] eqn:Hff; [|discriminate Hall].
      apply rbind_ok in Hall. destruct Hall as [j0 [Hj0 Hall]]. apply rbind_ok in Hall. destruct Hall as [t [Ht Hall]].
      inversion Hall; subst kv. constructor; [|exact (IHr t Ht)].
      exists fd. destruct (find_field_spec _ _ _ Hff) as [_ Hn]. cbn [fst snd]. rewrite Hn.
      split; [exact Hff|]. split; [reflexivity|]. exact (Hx _ _ Hj0).
  - rewrite pj_fval_FL in H. apply rbind_ok in H. destruct H as [js [Hall Hj]]. inversion Hj; subst j.
    apply RList. clear Hj. revert js Hall. induction IH as [|a r Ha _ IHr]; intros js Hall; cbn [m_list] in Hall.
    + inversion Hall. constructor.
    + apply rbind_ok in Hall. destruct Hall as [j0 [Hj0 Hall]]. apply rbind_ok in Hall. destruct Hall as [t [Ht Hall]].
      inversion Hall; subst js. constructor; [exact (Ha _ _ Hj0)|exact (IHr t Ht)].
  - rewrite pj_fval_FMap in H. apply rbind_ok in H. destruct H as [o [Hall Hj]]. inversion Hj; subst j.
    apply RMap. clear Hj. revert o Hall. induction IH as [|[key a] r Ha _ IHr]; intros o Hall; cbn [m_map] in Hall.
    + inversion Hall. constructor.
    + apply rbind_ok in Hall. destruct Hall as [kt [_ Hall]].
      apply rbind_ok in Hall. destruct Hall as [j0 [Hj0 Hall]]. apply rbind_ok in Hall. destruct Hall as [t [Ht Hall]].
      inversion Hall; subst o. constructor; [exact (Ha _ _ Hj0)|exact (IHr t Ht)].
Qed.

Lemma plain_message_std sc M : plain_message sc M = true -> std_shape M.
Proof.
  intros H. destruct (plain_message_inv sc M H) as [Hfs [Hd _]]. split; [exact Hd|].
  intros f Hf. destruct (Hfs f Hf) as [Hn _]. destruct (no_annot_inv f Hn) as [_ [_ [_ Hfl]]].
  unfold is_flatten. destruct (f_flatten f) as [[]|]; try reflexivity. contradiction Hfl. reflexivity.
Qed.

(* the protojson form of a well-typed, fully populated value of the plain fragment inhabits the TS type of its
   position; [d] is fuel to spare *)
Theorem pj_fval_inhabits E sc e : env_okp sc e -> forall f d k v j,
  cwt f sc k v = true -> pj_fval E sc k v = ROk j -> inhabits (S (S (f + d))) e (vty k v) j = true.
Proof.
  intros [Hm He] f d k v j Hwt Hpj.
  exact (renders_inhabits sc e (fun tn M H Hp => Hm tn M H (plain_message_std sc M Hp)) He f d k v j Hwt
           (pj_fval_renders E sc v k j Hpj)).
Qed.

Lemma field_ty_top sc f v :
  is_number_i64 f = false -> f_enumenc f <> Some EENumber -> is_timestamp (f_kind f) = false ->
  card_fits (f_card f) v = true ->
  match f_card f, f_kind f with MapOf _, KMessage tn => find_unwrap_list sc tn = None | _, _ => True end ->
  field_ty sc f = vty (f_kind f) v.
Proof.
  intros Hn He Hts Hc Hu. apply field_ty_vty; [|exact Hts|exact Hc|exact Hu].
  unfold is_number_i64, is_map in Hn.
  destruct (f_card f); try exact I; (apply elem_ty_ety; [exact Hts| |exact He]); intros Hk Hi;
    change (is_64 (f_kind f)) with (is_int64_kind (f_kind f)) in Hk; rewrite Hk, Hi in Hn; discriminate Hn.
Qed.

Lemma field_ty_ts sc f :
  is_timestamp (f_kind f) = true -> (f_card f = Singular \/ f_card f = Optional) -> field_ty sc f = timestamp_ty f.
Proof.
  intros Hts Hc. unfold field_ty. destruct Hc as [Hc|Hc]; rewrite Hc; unfold elem_ty;
    destruct (f_kind f) eqn:K; try discriminate Hts; rewrite Hts; reflexivity.
Qed.
Lemma timestamp_ty_none f :
  is_timestamp (f_kind f) = true -> is_map f = false -> tsfmt_of f = None -> timestamp_ty f = YString.
Proof.
  unfold tsfmt_of, timestamp_ty. intros Hts Hm. rewrite Hts, Hm. cbn [negb andb].
  destruct (f_tsfmt f) as [[| | | |]|]; try reflexivity; discriminate.
Qed.

(* an empty message under empty_behavior = NULL / OMIT: rewritten by the codec whatever its type *)
Definition is_empty_hit (f : field) (x : fval) : bool :=
  match empty_of f, x with Some EBNull, FM [] | Some EBOmit, FM [] => true | _, _ => false end.
(* the value of one top-level field: a singular Timestamp, or a value of the plain fragment (C07_value_inhabits) *)
Definition top_entry_ok (c : nat) (sc : schema) (f : field) (x : fval) : bool :=
  if is_empty_hit f x then true else
  if is_timestamp (f_kind f) then
    match f_card f, x with Singular, FM _ | Optional, FM _ => true | _, _ => false end
  else
    card_fits (f_card f) x && cwt c sc (f_kind f) x &&
    match f_card f, f_kind f with
    | MapOf _, KMessage tn => match find_unwrap_list sc tn with Some _ => false | None => true end
    | _, _ => true
    end.

Lemma keep_typed E sc e c f x j :
  env_okp sc e -> is_number_i64 f = false -> tsfmt_of f = None -> f_enumenc f <> Some EENumber ->
  is_empty_hit f x = false ->
  top_entry_ok c sc f x = true -> pj_fval E sc (f_kind f) x = ROk j ->
  forall d, inhabits (S (S (c + d))) e (field_ty sc f) j = true.
Proof.
  intros Henv Hn Htf He Hhit Hok Hpj d. unfold top_entry_ok in Hok. rewrite Hhit in Hok.
  destruct (is_timestamp (f_kind f)) eqn:Hts.
  - assert (Hc : f_card f = Singular \/ f_card f = Optional).
    { destruct (f_card f); try discriminate Hok; auto. }
    assert (Hm : is_map f = false) by (unfold is_map; destruct Hc as [Hc|Hc]; rewrite Hc; reflexivity).
    rewrite (field_ty_ts sc f Hts Hc), (timestamp_ty_none f Hts Hm Htf).
    destruct x as [?|tm|?|?]; try (destruct Hc as [Hc|Hc]; rewrite Hc in Hok; discriminate Hok).
    destruct (f_kind f) as [| | | | | | | | | | | | | | | |tn]; try discriminate Hts.
    cbn [is_timestamp] in Hts. rewrite pj_fval_FM in Hpj.
    change (str_eqb tn ts_name) with (str_eqb tn (s "google.protobuf.Timestamp")) in Hpj. rewrite Hts in Hpj.
    unfold pj_timestamp in Hpj. destruct (ts_in_range _ _); inversion Hpj. reflexivity.
  - apply andb_true_iff in Hok as [Hok Hu]. apply andb_true_iff in Hok as [Hc Hw].
    rewrite (field_ty_top sc f x Hn He Hts Hc).
    + now apply (pj_fval_inhabits E sc e Henv c d).
    + destruct (f_card f); try exact I. destruct (f_kind f); try exact I.
      destruct (find_unwrap_list sc tn); [discriminate Hu|reflexivity].
Qed.

Lemma field_prop_codec sc f :
  field_prop sc [] f = (jn f, if is_nullable f then (false, YUnion [field_ty sc f; YNull]) else (is_optional f, field_ty sc f)).
Proof. rewrite field_prop_eq. unfold is_nullable. destruct (f_nullable f) as [[|]|]; reflexivity. Qed.

Lemma p_opt_prop sc f : p_opt (field_prop sc [] f) = if is_nullable f then false else is_optional f.
Proof. rewrite field_prop_codec. destruct (is_nullable f); reflexivity. Qed.
Lemma p_ty_plain sc f : is_nullable f = false -> p_ty (field_prop sc [] f) = field_ty sc f.
Proof. intros H. rewrite field_prop_codec, H. reflexivity. Qed.
Lemma p_ty_null sc e f L : is_nullable f = true -> inhabits (S (S L)) e (p_ty (field_prop sc [] f)) JNull = true.
Proof.
  intros H. rewrite field_prop_codec, H. unfold p_ty. cbn [snd]. rewrite inhabits_union_null. apply orb_true_iff. right. reflexivity.
Qed.
Lemma p_ty_inh sc e f c v :
  (forall d, inhabits (S (S (c + d))) e (field_ty sc f) v = true) ->
  forall d, inhabits (S (S (S (c + d)))) e (p_ty (field_prop sc [] f)) v = true.
Proof.
  intros H d. rewrite field_prop_codec. destruct (is_nullable f); unfold p_ty; cbn [snd].
  - rewrite inhabits_union_null, (H d). reflexivity.
  - rewrite <- Nat.add_succ_r. apply H.
Qed.

Section Obj.
Variable E : ExtLib.
Variable sc : schema.
Variable e : env.
Variable md : message.
Variable m : mval.
Variable act : field -> action.
Variable L : nat.
Variable n : str.
Variable es : list (str * json).
Hypothesis Hlook : lookup e n = Some (YObject (map (field_prop sc []) (m_fields md))).
Hypothesis Hnd : NullableFacts.nodup_str (map jn (m_fields md)) = true.
Hypothesis Hes : m_msg E sc md m = ROk es.
Hypothesis Hnames : forall name x, In (name, x) m -> mget m name = Some x.
(* keep: a required property has a value, and the protojson form of the value has the property's type;
   set: the value written has the property's type; delete: the property is optional *)
Hypothesis Hact : forall f, In f (m_fields md) ->
  match act f with
  | None => (p_opt (field_prop sc [] f) = false -> mget m (f_name f) <> None) /\
            forall x j, mget m (f_name f) = Some x -> pj_fval E sc (f_kind f) x = ROk j ->
                        inhabits (S L) e (p_ty (field_prop sc [] f)) j = true
  | Some (Some v) => inhabits (S L) e (p_ty (field_prop sc [] f)) v = true
  | Some None => p_opt (field_prop sc [] f) = true
  end.

Theorem obj_inhabits :
  inhabits (S (S L)) e (YRef n) (JObj (fold_left (astep act) (m_fields md) es)) = true.
Proof.
  rewrite (inhabits_ref_obj L e n _ _ Hlook). apply object_inhabits; [exact Hnd| |].
  - intros f Hf Ho. pose proof (Hact f Hf) as Hv. apply fold_has.
    + intros g Hg Hj Hdel. rewrite (NullableFacts.nodup_jn_inj (m_fields md) g f Hnd Hg Hf Hj) in Hdel.
      rewrite Hdel in Hv. congruence.
    + destruct (act f) as [[v|]|] eqn:Ea; [right; exists f, v; auto|congruence|].
      left. apply RawMap.raw_has_keys. rewrite (m_msg_keys E sc md m es Hes).
      destruct (mget m (f_name f)) as [x|] eqn:Em; [|contradiction (proj1 Hv Ho); reflexivity].
      apply mget_some_in in Em. apply in_map_iff in Em. destruct Em as [[n0 x0] [Hn0 Hin0]].
      cbn [fst] in Hn0. subst n0. apply in_map_iff. exists (f_name f, x0). split; [reflexivity|exact Hin0].
  - intros k v Hin. destruct (fold_in act _ _ k v Hin) as [[Hin0 Hnone]|[f [Hf [Hk Ha]]]].
    + destruct (m_msg_in E sc md m es k v Hes Hin0) as [name [x [f [Hinm [Hk [Hff Hpj]]]]]].
      destruct (find_field_spec _ _ _ Hff) as [Hf Hname]. subst name.
      exists f. split; [exact Hf|]. split; [exact Hk|]. pose proof (Hact f Hf) as Hv.
      rewrite (Hnone f Hf (eq_sym Hk)) in Hv. exact (proj2 Hv x v (Hnames _ _ Hinm) Hpj).
    + exists f. split; [exact Hf|]. split; [exact Hk|]. pose proof (Hact f Hf) as Hv. rewrite Ha in Hv. exact Hv.
Qed.
End Obj.
Lemma own_std_shape sc md ft :
  owner_of sc md = Own ft -> CodecCompose.field_codec_ft ft = true -> std_shape md.
Proof.
  intros Hown Hft. split.
  - pose proof (owner_excl sc md ft FtOneof Hown ltac:(intros <-; discriminate Hft)) as Hno. cbn [feature_test] in Hno.
    unfold disc_oneofs. induction (m_oneofs md) as [|o r IH]; [reflexivity|]. cbn [existsb filter] in *.
    apply Bool.orb_false_iff in Hno. destruct Hno as [Ho Hr].
    assert (Hc : o_has_cfg o && negb (str_eqb (o_discriminator o) []) = false).
    { unfold oneof_cfg in Ho. destruct (o_discriminator o); exact Ho. }
    rewrite Hc. exact (IH Hr).
  - exact (proj1 (existsb_false _ _) (owner_excl sc md ft FtFlatten Hown ltac:(intros <-; discriminate Hft))).
Qed.

Lemma dedup_nil l : dedup_defects l [] = [] -> l = [].
Proof. destruct l as [|d r]; [reflexivity|]. cbn [dedup_defects existsb]. discriminate. Qed.

(* (the fuel is kept abstract: the kernel must not unfold val_defects 32) *)
Lemma defects_top sc fl tn md m fu :
  fu = 32 ->
  find_message (all_messages sc) tn = Some md -> root_unwrap_field md = None ->
  defects_C07 sc fl (s "inh-response") tn [] m = [] -> val_defects fu sc 0 tn m = [].
Proof.
  intros Hfu Hfm Hru H. unfold defects_C07 in H. cbv zeta in H. rewrite <- Hfu in H.
  rewrite Hfm, Hru in H. apply dedup_nil in H.
  rewrite str_eqb_refl in H. cbn [negb andb] in H.
  do 4 (apply app_eq_nil in H; destruct H as [_ H]). exact H.
Qed.

Lemma val_defects_top fu sc tn M m :
  find_message (all_messages sc) tn = Some M -> val_defects (S fu) sc 0 tn m = [] ->
  existsb (fun f => implicit_required f && negb (TsTypes.populated m f)) (m_fields M) = false /\
  existsb (fun f => match f_empty f, mget m (f_name f) with Some EBNull, Some (FM []) => true | _, _ => false end) (m_fields M) = false.
Proof.
  intros Hfm H. cbn [val_defects] in H. rewrite Hfm in H. split.
  - destruct (existsb (fun f => implicit_required f && negb (TsTypes.populated m f)) (m_fields M)); [discriminate H|reflexivity].
  - match goal with |- ?t = false => destruct t; [exfalso|reflexivity] end.
    (* the class is reported: its segment is the one whose test succeeds *)
    apply (in_nil (a := C07EmptyBehaviorNull)). rewrite <- H.
    repeat (apply in_or_app; (solve [left; left; reflexivity] || right)).
Qed.

Lemma required_implicit f : f_oneof f = None -> is_optional f = false -> implicit_required f = true.
Proof.
  unfold is_optional, implicit_required. intros -> H. destruct (f_card f); try reflexivity; try discriminate H.
  rewrite H. reflexivity.
Qed.

(* a schema-level condition on the fields of the top-level message: not an unwrap field, no enum_encoding = NUMBER
   (its own defect class, enum-number-encoding-not-applied) *)
Definition top_field_ok (f : field) : bool :=
  negb (f_unwrap f) && match f_enumenc f with Some EENumber => false | _ => true end.

Lemma top_no_root_unwrap md : forallb top_field_ok (m_fields md) = true -> root_unwrap_field md = None.
Proof.
  unfold root_unwrap_field. intros H. destruct (m_fields md) as [|f [|g r]]; try reflexivity.
  cbn [forallb] in H. rewrite andb_true_r in H. unfold top_field_ok in H. apply andb_true_iff in H as [H _].
  apply negb_true_iff in H. rewrite H. reflexivity.
Qed.

Lemma act_empty_hit m f :
  act_empty m f = match mget m (f_name f) with
                  | Some x => if is_empty_hit f x
                              then match empty_of f with Some EBNull => Some (Some JNull) | _ => Some None end
                              else None
                  | None => None
                  end.
Proof.
  unfold act_empty, is_empty_hit.
  destruct (empty_of f) as [[| | |]|]; destruct (mget m (f_name f)) as [[?|[|? ?]|?|?]|]; reflexivity.
Qed.

Section Top.
Variable E : ExtLib.
Variable sc : schema.
Variable e : env.
Variable tn : str.
Variable md : message.
Variable ft : feature.
Variable m : mval.
Variables c d : nat.
Hypothesis Henv : env_okp sc e.
Hypothesis Hfm : find_message (all_messages sc) tn = Some md.
Hypothesis Hown : owner_of sc md = Own ft.
Hypothesis Hft : CodecCompose.field_codec_ft ft = true.
Hypothesis Hb : buildable sc ft md = true.
Hypothesis Htop : forallb top_field_ok (m_fields md) = true.
Hypothesis Hok : msg_ok md = true.
Hypothesis Hsorted : sorted_Z (map (fun en => num_of md (fst en)) m) = true.
Hypothesis Hwf : wt_fields sc md m = true.
Hypothesis Hch : forallb (fun en => match find_field (m_fields md) (fst en) with
                                    | Some f => top_entry_ok c sc f (snd en)
                                    | None => false end) m = true.
Hypothesis Himp : existsb (fun f => implicit_required f && negb (TsTypes.populated m f)) (m_fields md) = false.
Hypothesis Hempnull :
  existsb (fun f => match f_empty f, mget m (f_name f) with Some EBNull, Some (FM []) => true | _, _ => false end) (m_fields md) = false.

Let Hnd : NullableFacts.nodup_str (map jn (m_fields md)) = true := NullableFacts.msg_ok_nodup_jn md Hok.

Lemma ft_cases : ft = FtInt64 \/ ft = FtNullable \/ ft = FtEmpty \/ ft = FtTs \/ ft = FtBytes.
Proof. clear - Hft. destruct ft; try discriminate Hft; auto 6. Qed.

Lemma entry_ok f x : In f (m_fields md) -> mget m (f_name f) = Some x ->
  wt_entry sc f x = true /\ top_entry_ok c sc f x = true.
Proof.
  intros Hf Hm. apply mget_pair in Hm.
  destruct (wt_fields_in sc md m (f_name f) x Hwf Hm) as [f' [Hff Hw]].
  destruct (find_field_spec _ _ _ Hff) as [Hf' Hname].
  assert (Heq : f' = f).
  { apply (NullableFacts.nodup_jn_inj (m_fields md) f' f Hnd Hf' Hf). unfold jn. rewrite Hname. reflexivity. }
  subst f'. split; [exact Hw|].
  rewrite forallb_forall in Hch. specialize (Hch _ Hm). cbn [fst snd] in Hch. rewrite Hff in Hch. exact Hch.
Qed.

(* only the owner's annotation occurs on the fields *)
Lemma unannotated f : In f (m_fields md) ->
  (ft <> FtInt64 -> is_number_i64 f = false) /\ (ft <> FtNullable -> is_nullable f = false) /\
  (ft <> FtTs -> tsfmt_of f = None) /\ (ft <> FtEmpty -> empty_of f = None).
Proof.
  intros Hf. repeat split; intros Hne.
  - exact (proj1 (existsb_false _ _) (owner_excl sc md ft FtInt64 Hown (fun H => Hne (eq_sym H))) f Hf).
  - exact (proj1 (existsb_false _ _) (owner_excl sc md ft FtNullable Hown (fun H => Hne (eq_sym H))) f Hf).
  - pose proof (proj1 (existsb_false _ _) (owner_excl sc md ft FtTs Hown (fun H => Hne (eq_sym H))) f Hf) as H.
    cbv beta in H. destruct (tsfmt_of f); [discriminate H|reflexivity].
  - pose proof (proj1 (existsb_false _ _) (owner_excl sc md ft FtEmpty Hown (fun H => Hne (eq_sym H))) f Hf) as H.
    cbv beta in H. destruct (empty_of f); [discriminate H|reflexivity].
Qed.

Lemma enumenc_ok f : In f (m_fields md) -> f_enumenc f <> Some EENumber.
Proof.
  intros Hf. rewrite forallb_forall in Htop. specialize (Htop f Hf). unfold top_field_ok in Htop.
  apply andb_true_iff in Htop as [_ H]. intros He. rewrite He in H. discriminate H.
Qed.

(* a required property that is not nullable belongs to an implicit-presence field, which defects_C07 = [] populates *)
Lemma required_populated f :
  In f (m_fields md) -> is_nullable f = false -> p_opt (field_prop sc [] f) = false -> mget m (f_name f) <> None.
Proof.
  intros Hf Hn Ho. rewrite p_opt_prop, Hn in Ho.
  pose proof (required_implicit f (msg_ok_no_oneof md f Hok Hf) Ho) as Hi.
  pose proof (proj1 (existsb_false _ _) Himp f Hf) as Hx. cbv beta in Hx. rewrite Hi in Hx. cbn [andb] in Hx.
  apply negb_false_iff in Hx. unfold TsTypes.populated in Hx. destruct (mget m (f_name f)); [discriminate|discriminate Hx].
Qed.

Lemma number_act f x : ft = FtInt64 -> In f (m_fields md) -> is_number_i64 f = true -> mget m (f_name f) = Some x ->
  (exists z, act_int64 m f = Some (Some (JNum z)) /\ f_card f = Singular) \/
  (exists zs, act_int64 m f = Some (Some (JArr (map JNum zs))) /\ f_card f = Repeated).
Proof.
  intros Hi Hf Hn Hm. pose proof Hb as Hb'. rewrite Hi in Hb'.
  pose proof (Int64Facts.shape_of_wt sc md f x Hb' Hf Hn (proj1 (entry_ok f x Hf Hm))) as Hsh.
  unfold act_int64. rewrite Hn, Hm.
  destruct Hsh as [[Hc [z [Hx [Hz _]]]]|[Hc [zs [Hx [Hne _]]]]]; subst x; rewrite Hc.
  - left. exists z. rewrite (proj2 (Z.eqb_neq z 0) Hz). split; reflexivity.
  - right. exists zs. destruct zs as [|z0 zs]; [contradiction Hne; reflexivity|]. split; [|reflexivity].
    cbn [map Int64Facts.vint64]. do 4 f_equal. rewrite map_map. apply map_ext. intros z. reflexivity.
Qed.

Lemma ts_act f x : ft = FtTs -> In f (m_fields md) -> forall fmt, tsfmt_of f = Some fmt -> mget m (f_name f) = Some x ->
  f_card f = Singular /\ is_timestamp (f_kind f) = true /\ f_tsfmt f = Some fmt /\
  ((fmt = TFUnixSeconds /\ exists z, act_ts E m f = Some (Some (JNum z))) \/
   (fmt = TFUnixMillis /\ exists z, act_ts E m f = Some (Some (JNum z))) \/
   (fmt = TFDate /\ exists t, act_ts E m f = Some (Some (JStr t)))).
Proof.
  intros Hi Hf fmt Hfmt Hm. pose proof Hb as Hb'. rewrite Hi in Hb'.
  destruct (TimestampFacts.tsfmt_of_inv f fmt Hfmt) as [Hk [_ [Htf Hcases]]].
  assert (Hps : plain_singular f = true).
  { unfold buildable in Hb'. rewrite forallb_forall in Hb'. specialize (Hb' f Hf). rewrite Hfmt in Hb'. exact Hb'. }
  assert (Hc : f_card f = Singular) by (unfold plain_singular in Hps; destruct (f_card f); try discriminate Hps; reflexivity).
  pose proof (proj1 (entry_ok f x Hf Hm)) as Hw. unfold wt_entry in Hw. rewrite Hc, Hk in Hw.
  destruct x as [sx|tm|l|kv]; try discriminate Hw.
  split; [exact Hc|]. split; [rewrite Hk; reflexivity|]. split; [exact Htf|].
  unfold act_ts. rewrite Hfmt, Hm.
  destruct Hcases as [->|[->| ->]]; [left|right; left|right; right]; (split; [reflexivity|]); eexists; reflexivity.
Qed.

Lemma elem_ty_number f : is_number_i64 f = true -> elem_ty f = YNumber.
Proof.
  intros Hn. destruct (Int64Facts.number_i64_facts f Hn) as [Hk [_ Hi]].
  unfold elem_ty, scalar_ty. rewrite Hi. destruct (f_kind f); try discriminate Hk; reflexivity.
Qed.

(* what is known of a field the pass leaves alone: a required property has a value, and a value it has is not one
   a codec would have rewritten *)
Definition kept_ok (f : field) : Prop :=
  (p_opt (field_prop sc [] f) = false -> mget m (f_name f) <> None) /\
  forall x, mget m (f_name f) = Some x -> is_number_i64 f = false /\ tsfmt_of f = None /\ is_empty_hit f x = false.

Lemma kept_plain f : In f (m_fields md) ->
  is_nullable f = false -> is_number_i64 f = false -> tsfmt_of f = None -> empty_of f = None -> kept_ok f.
Proof.
  intros Hf Hnul Hnum Hts Hemp. split; [exact (required_populated f Hf Hnul)|]. intros x _.
  unfold is_empty_hit. rewrite Hemp. auto.
Qed.

(* the verdict of the owning codec on each field: keep, set a value of the property's type, or delete an optional property *)
Lemma act_spec f : In f (m_fields md) ->
  match act_of E ft m f with
  | None => kept_ok f
  | Some (Some v) => inhabits (S (S (S (c + d)))) e (p_ty (field_prop sc [] f)) v = true
  | Some None => p_opt (field_prop sc [] f) = true
  end.
Proof.
  intros Hf. destruct (unannotated f Hf) as [Hnum [Hnul [Hts Hemp]]].
  destruct ft_cases as [Hi|[Hi|[Hi|[Hi|Hi]]]]; rewrite Hi in Hnum, Hnul, Hts, Hemp |- *; cbn [act_of].
  - specialize (Hnul ltac:(discriminate)). specialize (Hts ltac:(discriminate)). specialize (Hemp ltac:(discriminate)).
    destruct (is_number_i64 f) eqn:Hn; [|unfold act_int64; rewrite Hn; now apply kept_plain].
    destruct (mget m (f_name f)) as [x|] eqn:Hm.
    + rewrite (p_ty_plain sc f Hnul). unfold field_ty.
      destruct (number_act f x Hi Hf Hn Hm) as [[z [Ha Hc]]|[zs [Ha Hc]]]; rewrite Ha, Hc, (elem_ty_number f Hn); [reflexivity|].
      rewrite inhabits_array. apply forallb_forall. intros jx Hjx. apply in_map_iff in Hjx. destruct Hjx as [z [<- _]]. reflexivity.
    + (* no value: the property is optional, or defects_C07 reports the field *)
      assert (Ho : p_opt (field_prop sc [] f) = true).
      { destruct (p_opt (field_prop sc [] f)) eqn:Ho; [reflexivity|]. contradiction (required_populated f Hf Hnul Ho Hm). }
      unfold act_int64. rewrite Hn, Hm. destruct (f_card f); try exact Ho.
      split; [rewrite Ho; intros Hx; discriminate Hx|intros x Hx; rewrite Hm in Hx; discriminate Hx].
  - specialize (Hnum ltac:(discriminate)). specialize (Hts ltac:(discriminate)). specialize (Hemp ltac:(discriminate)).
    unfold act_nullable. destruct (is_nullable f) eqn:Hn; [|now apply kept_plain].
    destruct (mget m (f_name f)) as [x|] eqn:Hm; [|exact (p_ty_null sc e f _ Hn)].
    split; [rewrite Hm; discriminate|]. intros x' _. unfold is_empty_hit. rewrite Hemp. auto.
  - specialize (Hnum ltac:(discriminate)). specialize (Hnul ltac:(discriminate)). specialize (Hts ltac:(discriminate)).
    rewrite act_empty_hit. destruct (mget m (f_name f)) as [x|] eqn:Hm.
    2: { split; [exact (required_populated f Hf Hnul)|]. intros x Hx. rewrite Hm in Hx. discriminate Hx. }
    destruct (is_empty_hit f x) eqn:Hh.
    2: { split; [exact (required_populated f Hf Hnul)|]. intros x' Hx'. rewrite Hm in Hx'. inversion Hx'; subst x'. auto. }
    unfold is_empty_hit in Hh.
    destruct (empty_of f) as [[| | |]|] eqn:He; try discriminate Hh; destruct x as [?|[|? ?]|?|?]; try discriminate Hh.
    + (* NULL on an empty message: excluded by defects_C07 (empty-behavior-null) *)
      exfalso. pose proof (proj1 (existsb_false _ _) Hempnull f Hf) as Hx. cbv beta in Hx. rewrite Hm in Hx.
      unfold empty_of in He. destruct (f_empty f) as [[| | |]|]; discriminate.
    + (* OMIT: a message-typed singular or optional field *)
      rewrite p_opt_prop, Hnul. pose proof (proj1 (entry_ok f _ Hf Hm)) as Hw. unfold wt_entry in Hw. unfold is_optional.
      destruct (f_card f); try discriminate Hw; try reflexivity. destruct (f_kind f); cbn in Hw; try discriminate Hw. reflexivity.
  - specialize (Hnum ltac:(discriminate)). specialize (Hnul ltac:(discriminate)). specialize (Hemp ltac:(discriminate)).
    destruct (tsfmt_of f) as [fmt|] eqn:Hfmt; [|unfold act_ts; rewrite Hfmt; now apply kept_plain].
    destruct (mget m (f_name f)) as [x|] eqn:Hm.
    2: { unfold act_ts. rewrite Hfmt, Hm. split; [exact (required_populated f Hf Hnul)|intros x Hx; rewrite Hm in Hx; discriminate Hx]. }
    destruct (ts_act f x Hi Hf fmt Hfmt Hm) as [Hc [Hk [Htf Hcases]]].
    rewrite (p_ty_plain sc f Hnul), (field_ty_ts sc f Hk (or_introl Hc)). unfold timestamp_ty. rewrite Htf.
    destruct Hcases as [[-> [z Ha]]|[[-> [z Ha]]|[-> [t Ha]]]]; rewrite Ha; reflexivity.
  - specialize (Hnum ltac:(discriminate)). specialize (Hnul ltac:(discriminate)). specialize (Hts ltac:(discriminate)). specialize (Hemp ltac:(discriminate)).
    pose proof (kept_plain f Hf Hnul Hnum Hts Hemp) as Hkeep.
    unfold act_bytes. destruct (bytesenc_of f) as [be|] eqn:Hbe; [|exact Hkeep].
    destruct (mget m (f_name f)) as [[[?|?|?|[|? ?]|?|?]|?|?|?]|]; try exact Hkeep.
    rewrite (p_ty_plain sc f Hnul). pose proof Hb as Hb'. rewrite Hi in Hb'.
    pose proof (BytesFacts.bytesenc_kind f be Hbe) as Hk.
    destruct (BytesFacts.buildable_bytes_card sc md f be Hb' Hf Hbe) as [Hc|Hc];
      unfold field_ty, elem_ty, scalar_ty; rewrite Hc, Hk; reflexivity.
Qed.

Theorem top_inhabits es :
  m_msg E sc md m = ROk es ->
  inhabits (S (S (S (S (c + d))))) e (YRef (last_seg tn))
           (JObj (fold_left (astep (act_of E ft m)) (m_fields md) es)) = true.
Proof.
  intros Hes.
  apply (obj_inhabits E sc e md m (act_of E ft m) (S (S (c + d))) (last_seg tn) es).
  - destruct Henv as [Hmsg _]. apply (Hmsg tn md Hfm). exact (own_std_shape sc md ft Hown Hft).
  - exact Hnd.
  - exact Hes.
  - intros name x Hin. exact (sorted_mget md m name x Hsorted Hin).
  - intros f Hf. pose proof (act_spec f Hf) as H. destruct (act_of E ft m f) as [[v|]|]; try exact H.
    destruct H as [Hreq Hplain]. split; [exact Hreq|]. intros x j Hm Hpj. destruct (Hplain x Hm) as [Hnum [Htf Hhit]].
    apply p_ty_inh.
    exact (keep_typed E sc e c f x j Henv Hnum Htf (enumenc_ok f Hf) Hhit (proj2 (entry_ok f x Hf Hm)) Hpj).
Qed.
End Top.

Definition resp : str := s "inh-response".

(* the children of the top-level value, field by field *)
Notation top_children c sc md m :=
  (forallb (fun en : str * fval => match find_field (m_fields md) (fst en) with
                                   | Some f => top_entry_ok c sc f (snd en)
                                   | None => false end) m).

Theorem field_codec_response_inhabits E sc fl e tn md ft m j c d :
  env_okp sc e ->
  lookup_message sc tn = Some md -> owner_of sc md = Own ft -> CodecCompose.field_codec_ft ft = true ->
  forallb top_field_ok (m_fields md) = true ->
  pwt sc (KMessage tn) (FM m) = true ->
  top_children c sc md m = true ->
  defects_C07 sc fl resp tn [] m = [] ->
  encode E sc tn m = ROk j ->
  inhabits (S (S (S (S (c + d))))) e (YRef (last_seg tn)) j = true.
Proof.
  intros Henv Hlk Hown Hft Htop Hwt Hch Hdef Henc.
  destruct (str_eqb tn ts_name) eqn:Hts.
  { exfalso. unfold lookup_message in Hlk. rewrite Hts in Hlk. inversion Hlk; subst md.
    rewrite ts_message_unowned in Hown. discriminate Hown. }
  destruct (wt_message sc tn m Hts Hwt) as [Hwk [md' [Hfm [Hlk' [Hok [Hsorted Hwf]]]]]].
  assert (Hmd : md' = md) by congruence. subst md'.
  destruct (encode_field_codec E sc tn md ft m j Hts Hwk Hfm Hown Hft Henc) as [es [Hes [Hb Hj]]]. subst j.
  pose proof (defects_top sc fl tn md m 32 eq_refl Hfm (top_no_root_unwrap md Htop) Hdef) as Hvd.
  destruct (val_defects_top 31 sc tn md m Hfm Hvd) as [Himp Hempnull].
  eapply top_inhabits; eassumption.
Qed.

Section PerCodec.
Variable E : ExtLib.
Variable sc : schema.
Variable fl : file.
Variable e : env.

(* the same for the documented mapping (Spec), where C05_conforms_field_codecs makes Impl = Spec *)
Theorem spec_response_inhabits tn md ft m j c d :
  env_okp sc e -> lookup_message sc tn = Some md -> owner_of sc md = Own ft -> CodecCompose.field_codec_ft ft = true ->
  CodecCompose.field_codec_plain sc md = true ->
  forallb (fun en => match find_field (m_fields md) (fst en) with
                     | Some f => MappingFacts.plain_in sc (f_kind f) (snd en)
                     | None => false end) m = true ->
  forallb top_field_ok (m_fields md) = true -> pwt sc (KMessage tn) (FM m) = true -> top_children c sc md m = true ->
  defects_C07 sc fl resp tn [] m = [] -> to_json E sc tn m = ROk j ->
  inhabits (S (S (S (S (c + d))))) e (YRef (last_seg tn)) j = true.
Proof.
  intros H1 H2 H3 H4 Hp Hpc H5 H6 H7 H8 Hj.
  rewrite <- (CodecCompose.C05_conforms_field_codecs E sc tn md m H2 Hp H6 Hpc) in Hj.
  exact (field_codec_response_inhabits E sc fl e tn md ft m j c d H1 H2 H3 H4 H5 H6 H7 H8 Hj).
Qed.
End PerCodec.

Import CodecExamples.
Open Scope Z_scope.

Definition tsx_msgs : list message :=
  [ msg "Nul" [set_nullable (fld "nick" 1 KString Optional); fld "id" 2 KString Singular; fld "leaf" 3 (T "Leaf") Singular;
               fld "when" 4 TS Singular] [];
    msg "Leaf" [fld "a" 1 KString Singular; fld "n" 2 KInt64 Singular] [];
    msg "Nums" [set_i64 (fld "big" 1 KInt64 Singular); fld "name" 2 KString Singular; set_i64 (fld "bigs" 3 KUint64 Repeated);
                fld "kids" 4 (T "Leaf") Repeated] [];
    msg "Blob" [set_bytes BEHex (fld "h" 1 KBytes Singular); fld "id" 2 KString Singular; set_bytes BEBase64Url (fld "u" 3 KBytes Optional)] [];
    msg "Times" [set_ts TFUnixSeconds (fld "secs" 1 TS Singular); set_ts TFDate (fld "day" 2 TS Singular); fld "id" 3 KString Singular;
                 set_ts TFUnixMillis (fld "ms" 4 TS Singular); fld "plain_at" 5 TS Singular] [];
    msg "Emp" [set_empty EBNull (fld "nul_it" 1 (T "Leaf") Singular); set_empty EBOmit (fld "omit" 2 (T "Opt") Singular);
               fld "id" 3 KString Singular] [];
    msg "Opt" [fld "o" 1 KString Optional] [] ].
Definition tsx_md (n : string) : method :=
  {| md_name := s n; md_in := q n; md_out := q n; md_has_cfg := true; md_path := s "/" ++ s n; md_verb := Some 2%nat; md_headers := [] |}.
Definition tsx_fl : file :=
  {| fl_path := s "x/t.proto"; fl_package := s "x.v1"; fl_gopkg := s "x"; fl_generate := true;
     fl_messages := tsx_msgs; fl_enums := [];
     fl_services := [ {| sv_name := s "Svc"; sv_base := s "/api"; sv_headers := [];
                         sv_methods := [tsx_md "Nul"; tsx_md "Nums"; tsx_md "Blob"; tsx_md "Times"; tsx_md "Emp"] |} ] |}.
Definition tsx : schema := [tsx_fl].
Definition tsx_env : env := declared_env tsx.

(* the environment of the theorems IS the one the modelled generators produce for this file *)
Example tsx_env_real :
  (exists ds, ts_decls tsx tsx_fl = Ok ds /\ env_of ds = tsx_env) /\ env_okp tsx tsx_env.
Proof.
  split; [eexists; split; vm_compute; reflexivity|].
  apply env_ok_okp. apply declared_env_ok. vm_compute. reflexivity.
Qed.

(* every hypothesis of field_codec_response_inhabits holds for (tn, m), the server's JSON is j, and j inhabits the
   declared interface at the fuel the correspondence check uses *)
Definition codec_case_ok (tn : str) (ft : feature) (m : mval) (j : json) : Prop :=
  exists md, lookup_message tsx tn = Some md /\ owner_of tsx md = Own ft /\ CodecCompose.field_codec_ft ft = true /\
    forallb top_field_ok (m_fields md) = true /\ pwt tsx (KMessage tn) (FM m) = true /\
    top_children 4%nat tsx md m = true /\ defects_C07 tsx tsx_fl resp tn [] m = [] /\
    encode Ex tsx tn m = ROk j /\ inhabits inhabit_fuel tsx_env (YRef (last_seg tn)) j = true.
(* the message is read off tsx_msgs by unification, so the witness is the source term and not its normal form (which every
   later conjunct would carry); each remaining conjunct is evaluated on its own *)
Ltac caseok := eexists; split; [reflexivity|]; do 7 (split; [vm_compute; reflexivity|]); vm_compute; reflexivity.

Definition leafv : fval := FM [(s "a", vstr "l"); (s "n", vint 7)].

Example response_inhabits_nullable_nonvacuous :
  codec_case_ok (q "Nul") FtNullable
    [(s "id", vstr "x"); (s "leaf", leafv); (s "when", tsv 5 0)]
    (JObj [(s "id", JStr (s "x")); (s "leaf", JObj [(s "a", JStr (s "l")); (s "n", JStr (s "7"))]);
           (s "when", JStr (x_ts_text Ex 5 0)); (s "nick", JNull)]) /\
  codec_case_ok (q "Nul") FtNullable
    [(s "nick", vstr "k"); (s "id", vstr "x")]
    (JObj [(s "nick", JStr (s "k")); (s "id", JStr (s "x"))]).
Proof. split; caseok. Qed.

Example response_inhabits_int64_nonvacuous :
  codec_case_ok (q "Nums") FtInt64
    [(s "big", vint 9007199254740993); (s "name", vstr "n"); (s "bigs", FL [vint 1; vint 18446744073709551615]); (s "kids", FL [leafv])]
    (JObj [(s "big", JNum 9007199254740993); (s "name", JStr (s "n")); (s "bigs", JArr [JNum 1; JNum 18446744073709551615]);
           (s "kids", JArr [JObj [(s "a", JStr (s "l")); (s "n", JStr (s "7"))]])]).
Proof. caseok. Qed.

Example response_inhabits_bytes_nonvacuous :
  codec_case_ok (q "Blob") FtBytes
    [(s "h", FS (VBytes [ch 105; ch 183])); (s "id", vstr "x"); (s "u", FS (VBytes [ch 251; ch 255]))]
    (JObj [(s "h", JStr (s "69b7")); (s "id", JStr (s "x")); (s "u", JStr (s "-_8="))]).
Proof. caseok. Qed.

Example response_inhabits_timestamp_nonvacuous :
  codec_case_ok (q "Times") FtTs
    [(s "secs", tsv 5 123456789); (s "day", tsv 90000 1); (s "id", vstr "x"); (s "ms", tsv 7 5000000); (s "plain_at", tsv 5 0)]
    (JObj [(s "secs", JNum 5); (s "day", JStr (s "1970-01-02")); (s "id", JStr (s "x")); (s "ms", JNum 7005);
           (s "plainAt", JStr (x_ts_text Ex 5 0))]).
Proof. caseok. Qed.

Example response_inhabits_empty_nonvacuous :
  codec_case_ok (q "Emp") FtEmpty
    [(s "nul_it", leafv); (s "omit", FM []); (s "id", vstr "x")]
    (JObj [(s "nulIt", JObj [(s "a", JStr (s "l")); (s "n", JStr (s "7"))]); (s "id", JStr (s "x"))]).
Proof. caseok. Qed.

(* defects_C07 = [] (1): an implicit-presence field at its default is omitted, the property is required *)
Example response_inhabits_needs_no_defects_implicit :
  let m := [(s "big", vint 5)] in
  defects_C07 tsx tsx_fl resp (q "Nums") [] m = [C07ImplicitPresenceOmitted] /\
  pwt tsx (KMessage (q "Nums")) (FM m) = true /\
  encode Ex tsx (q "Nums") m = ROk (JObj [(s "big", JNum 5)]) /\
  inhabits inhabit_fuel tsx_env (YRef (s "Nums")) (JObj [(s "big", JNum 5)]) = false.
Proof. vm_compute. repeat split; reflexivity. Qed.

(* defects_C07 = [] (2): empty_behavior = NULL writes null into `nulIt?: Leaf` *)
Example response_inhabits_needs_no_defects_empty_null :
  let m := [(s "nul_it", FM []); (s "id", vstr "x")] in
  defects_C07 tsx tsx_fl resp (q "Emp") [] m = [C07EmptyBehaviorNull; C07ImplicitPresenceOmitted] /\
  pwt tsx (KMessage (q "Emp")) (FM m) = true /\
  encode Ex tsx (q "Emp") m = ROk (JObj [(s "nulIt", JNull); (s "id", JStr (s "x"))]) /\
  inhabits inhabit_fuel tsx_env (YRef (s "Emp")) (JObj [(s "nulIt", JNull); (s "id", JStr (s "x"))]) = false /\
  (* null alone is the reason: with the property absent the value inhabits *)
  inhabits inhabit_fuel tsx_env (YRef (s "Emp")) (JObj [(s "id", JStr (s "x"))]) = true.
Proof. vm_compute. repeat split; reflexivity. Qed.

(* top_children: a child that is not fully populated (the parent's protojson omits its default) *)
Example response_inhabits_needs_top_children :
  let m := [(s "id", vstr "x"); (s "leaf", FM [(s "a", vstr "l")])] in
  exists md, lookup_message tsx (q "Nul") = Some md /\
    top_children 4%nat tsx md m = false /\ pwt tsx (KMessage (q "Nul")) (FM m) = true /\
    In C07ImplicitPresenceOmitted (defects_C07 tsx tsx_fl resp (q "Nul") [] m) /\
    encode Ex tsx (q "Nul") m = ROk (JObj [(s "id", JStr (s "x")); (s "leaf", JObj [(s "a", JStr (s "l"))]); (s "nick", JNull)]) /\
    inhabits inhabit_fuel tsx_env (YRef (s "Nul"))
      (JObj [(s "id", JStr (s "x")); (s "leaf", JObj [(s "a", JStr (s "l"))]); (s "nick", JNull)]) = false.
Proof. eexists. split; [vm_compute; reflexivity|]. vm_compute. repeat split; try reflexivity. left. reflexivity. Qed.

(* top_field_ok: enum_encoding = NUMBER on a field of a codec-owning message: TS says number, the Go server writes the name *)
Definition tsy_fl : file :=
  {| fl_path := s "x/u.proto"; fl_package := s "x.v1"; fl_gopkg := s "x"; fl_generate := true;
     fl_messages := [ msg "EnNul" [set_nullable (fld "nick" 1 KString Optional); set_enumnum (fld "st" 2 (KEnum (s "x.v1.St")) Singular)] [] ];
     fl_enums := [ {| e_name := s "x.v1.St"; e_values := [ {| ev_name := s "ST_UNSPECIFIED"; ev_number := 0; ev_custom := None |};
                                                            {| ev_name := s "ST_ON"; ev_number := 1; ev_custom := None |} ] |} ];
     fl_services := [ {| sv_name := s "Svc"; sv_base := s "/api"; sv_headers := []; sv_methods := [tsx_md "EnNul"] |} ] |}.
Example response_inhabits_needs_top_field_ok :
  let m := [(s "st", FS (VEnum 1))] in
  (exists md, lookup_message [tsy_fl] (q "EnNul") = Some md /\ owner_of [tsy_fl] md = Own FtNullable /\
              forallb top_field_ok (m_fields md) = false) /\
  defects_C07 [tsy_fl] tsy_fl resp (q "EnNul") [] m = [C07EnumNumberNotApplied] /\
  encode Ex [tsy_fl] (q "EnNul") m = ROk (JObj [(s "st", JStr (s "ST_ON")); (s "nick", JNull)]) /\
  match ts_decls [tsy_fl] tsy_fl with
  | Ok ds => inhabits inhabit_fuel (env_of ds) (YRef (s "EnNul")) (JObj [(s "st", JStr (s "ST_ON")); (s "nick", JNull)])
  | Unmodelled _ => true
  end = false.
Proof. split; [eexists; split; [vm_compute; reflexivity|split; vm_compute; reflexivity]|]. vm_compute. repeat split; reflexivity. Qed.
Close Scope Z_scope.
