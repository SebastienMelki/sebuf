(* RejectDocFacts.v — the documents the stress campaign builds to be rejected (one field's value replaced by
   a repeated token) are well-formed UTF-8 whenever their parts are, so a rejection is about the value. *)
From Sebuf Require Import RejectDoc.
From Coq Require Import Lia.

(* utf8.ValidString is compositional: a sequence of complete characters followed by another one *)
Lemma utf8_valid_app_n : forall n a b, List.length a <= n ->
  utf8_valid a = true -> utf8_valid b = true -> utf8_valid (a ++ b) = true.
Proof.
  induction n as [|n IH]; intros a b Hl Ha Hb.
  - destruct a; [exact Hb|cbn in Hl; lia].
  - destruct a as [|c r]; [exact Hb|].
    cbn [List.length] in Hl.
    change ((c :: r) ++ b) with (c :: (r ++ b)).
    cbn [utf8_valid] in Ha. cbn [utf8_valid].
    destruct (code c <? 128)%N.
    { apply IH; [lia|exact Ha|exact Hb]. }
    destruct (in_rng 194 223 c).
    { destruct r as [|c1 r1]; [discriminate|]. cbn [app].
      apply andb_true_iff in Ha as [H1 H2]. rewrite H1. cbn [andb].
      apply IH; [cbn [List.length] in Hl; lia|exact H2|exact Hb]. }
    destruct (in_rng 224 239 c).
    { destruct r as [|c1 [|c2 r2]]; try discriminate. cbn [app].
      apply andb_true_iff in Ha as [H12 H3]. rewrite H12. cbn [andb].
      apply IH; [cbn [List.length] in Hl; lia|exact H3|exact Hb]. }
    destruct (in_rng 240 244 c); [|discriminate].
    destruct r as [|c1 [|c2 [|c3 r3]]]; try discriminate. cbn [app].
    apply andb_true_iff in Ha as [H123 H4]. rewrite H123. cbn [andb].
    apply IH; [cbn [List.length] in Hl; lia|exact H4|exact Hb].
Qed.

Lemma utf8_valid_app a b : utf8_valid a = true -> utf8_valid b = true -> utf8_valid (a ++ b) = true.
Proof. apply (utf8_valid_app_n (List.length a)). lia. Qed.

Lemma utf8_valid_rep n u : utf8_valid u = true -> utf8_valid (rep_tok n u) = true.
Proof. intros Hu. induction n as [|n IH]; [reflexivity|]. cbn [rep_tok]. now apply utf8_valid_app. Qed.

(* Whatever the length of the quoted token and wherever its characters fall (no offset is special: the
   description is never cut), a rejection whose wording and token are valid UTF-8 is answered with a
   ValidationError document naming the field. *)
Theorem reject_doc_well_formed field before token after :
  utf8_valid before = true -> utf8_valid token = true -> utf8_valid after = true ->
  go_reject_doc field before token after = RDValidation field.
Proof.
  intros Hb Ht Ha. unfold go_reject_doc, description.
  rewrite (utf8_valid_app before (token ++ after) Hb (utf8_valid_app token after Ht Ha)). reflexivity.
Qed.
