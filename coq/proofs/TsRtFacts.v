(* TsRtFacts.v — facts about the JS built-ins transcribed in TsRt.v (escaping round trips between the
   four escapers/unescapers that meet in a cross-language call), the header-helper name derivations, and
   the delivery theorems for the three client/server pairs. *)
From Sebuf Require Import Text Url Num Route Schema Value GoRt TsRt.
From SebufProofs Require Import TextFacts ListFacts UrlFacts NumFacts GoRtFacts.

Local Open Scope N_scope.

Lemma encode_uri_escape x : encode_uri_component x = escape false uri_unreserved x.
Proof. reflexivity. Qed.
Lemma form_escape_escape x : form_escape x = escape true form_safe x.
Proof. reflexivity. Qed.

Lemma encode_uri_codec : seg_codec encode_uri_component.
Proof. exact (escape_codec uri_unreserved eq_refl eq_refl). Qed.

Lemma encode_uri_no_slash : forall x, In slash (encode_uri_component x) -> False.
Proof. exact (codec_no_slash _ encode_uri_codec). Qed.

Lemma decode_codec E : seg_codec E -> forall x,
  decode_uri_component (E x) = if utf8_valid x then Some x else None.
Proof.
  intros C x. unfold decode_uri_component. change (unescape false) with path_unescape.
  now rewrite (codec_unescape E C).
Qed.

Theorem decode_encode_uri : forall x, utf8_valid x = true ->
  decode_uri_component (encode_uri_component x) = Some x.
Proof. intros x H. now rewrite (decode_codec _ encode_uri_codec), H. Qed.

Theorem decode_path_escape : forall x, utf8_valid x = true ->
  decode_uri_component (path_escape x) = Some x.
Proof. intros x H. now rewrite (decode_codec _ path_escape_codec), H. Qed.

Theorem query_unescape_form_escape : forall x, query_unescape (form_escape x) = Some x.
Proof. exact (unescape_escape true form_safe eq_refl eq_refl). Qed.

Lemma form_escape_clean : forall x c, In c (form_escape x) -> c <> amp /\ c <> eqc /\ c <> ";"%char.
Proof.
  intros x c H. repeat split; intros ->; revert H; apply (escape_avoids true form_safe); reflexivity.
Qed.

Theorem parse_query_form_encode : forall kv, parse_query (form_encode kv) = kv.
Proof. exact (parse_query_pairs form_escape form_escape_clean query_unescape_form_escape). Qed.

Lemma form_unescape_pct c t : form_unescape (pct c ++ t) = c :: form_unescape t.
Proof.
  destruct (pct_hex c) as [a [b [Ha [Hb Hc]]]].
  unfold pct. cbn [app form_unescape]. now rewrite Ascii.eqb_refl, Ha, Hb, Hc.
Qed.

Lemma form_unescape_plain c t : Ascii.eqb c "%"%char = false ->
  form_unescape (c :: t) = (if Ascii.eqb c "+"%char then " "%char else c) :: form_unescape t.
Proof. intros H. cbn [form_unescape]. now rewrite H. Qed.

(* the parser inverts every escaper that writes a space as '+' and keeps neither '%' nor '+' *)
Section FormUnescape.
Variable safe : ascii -> bool.
Hypothesis safe_pct : safe "%"%char = false.
Hypothesis safe_plus : safe "+"%char = false.

Lemma form_unescape_esc1 c t : form_unescape (esc1 true safe c ++ t) = c :: form_unescape t.
Proof.
  unfold esc1. cbn [andb]. destruct (Ascii.eqb c " "%char) eqn:Esp.
  - apply Ascii.eqb_eq in Esp. subst c. reflexivity.
  - destruct (safe c) eqn:Es; [|apply form_unescape_pct].
    pose proof (safe_not_plus true safe safe_plus c Es) as P. cbn [andb] in P.
    cbn [app]. now rewrite (form_unescape_plain c t (safe_not_pct safe safe_pct c Es)), P.
Qed.

Lemma form_unescape_escape x : form_unescape (escape true safe x) = x.
Proof. induction x as [|c x IH]; [reflexivity|]. now rewrite escape_cons, form_unescape_esc1, IH. Qed.
End FormUnescape.

Theorem form_unescape_form_escape : forall x, form_unescape (form_escape x) = x.
Proof. exact (form_unescape_escape form_safe eq_refl eq_refl). Qed.

Theorem form_unescape_query_escape : forall x, form_unescape (query_escape x) = x.
Proof. exact (form_unescape_escape query_safe eq_refl eq_refl). Qed.

Lemma form_parse_pairs (esc : str -> str) :
  (forall x c, In c (esc x) -> c <> amp /\ c <> eqc /\ c <> ";"%char) ->
  (forall x, form_unescape (esc x) = x) ->
  forall kv, form_parse (join_with [amp] (map (pair_enc esc) kv)) = kv.
Proof.
  intros Hclean Hrt kv. unfold form_parse. rewrite (flat_map_split_pairs esc Hclean) by reflexivity.
  induction kv as [|q l IH]; [reflexivity|]. cbn [map flat_map]. rewrite IH.
  destruct (pair_enc esc q) eqn:E; [now apply pair_enc_nonempty in E|].
  rewrite <- E, (cut_at_pair_enc esc Hclean), !Hrt. now destruct q.
Qed.

Theorem form_parse_form_encode : forall kv, form_parse (form_encode kv) = kv.
Proof. exact (form_parse_pairs form_escape form_escape_clean form_unescape_form_escape). Qed.

Theorem form_parse_encode_query : forall kv, form_parse (encode_query kv) = sort_kv kv.
Proof.
  intros kv. exact (form_parse_pairs query_escape query_escape_clean form_unescape_query_escape (sort_kv kv)).
Qed.

(* The WHATWG URL parser drops a segment that is ".", "..", or one of their percent-encoded spellings,
   compared case-insensitively ("%2e", "%2E.", ...).  To show that such a segment percent-decodes to "."
   or ".." (dotty_unescape) without reasoning about case, [expand t] lists every string whose lower-casing
   is the table entry t — a dozen strings per entry — and path_unescape is evaluated on each. *)
Definition preimages (c : ascii) : list ascii :=
  if is_lower c then [c; to_upper c] else if is_upper c then [] else [c].
Lemma to_lower_pre a : In a (preimages (to_lower a)).
Proof.
  apply in_chars_In. revert a. apply all_byte_spec. vm_compute. reflexivity.
Qed.
Fixpoint expand (t : str) : list str :=
  match t with
  | [] => [[]]
  | c :: r => flat_map (fun a => map (cons a) (expand r)) (preimages c)
  end.
Lemma in_expand : forall y, In y (expand (lower_str y)).
Proof.
  induction y as [|a y IH]; [now left|].
  cbn [lower_str map expand]. apply in_flat_map. exists a. split; [apply to_lower_pre|].
  now apply in_map.
Qed.

Definition unescapes_to (d : str) (z : str) : bool :=
  match path_unescape z with Some u => str_eqb u d | None => false end.

Lemma lower_eq_unescape y t d :
  str_eqb (lower_str y) t = true -> forallb (unescapes_to d) (expand t) = true -> path_unescape y = Some d.
Proof.
  intros E H. apply str_eqb_eq in E. rewrite forallb_forall in H.
  specialize (H y). rewrite <- E in H. specialize (H (in_expand y)).
  unfold unescapes_to in H. destruct (path_unescape y) as [u|]; [|discriminate].
  apply str_eqb_eq in H. now subst.
Qed.

Lemma single_dot_unescape y : is_single_dot y = true -> path_unescape y = Some (s ".").
Proof.
  unfold is_single_dot. cbn [existsb]. rewrite orb_false_r. intros H. apply orb_true_iff in H as [H|H];
    (eapply lower_eq_unescape; [exact H|vm_compute; reflexivity]).
Qed.

Lemma double_dot_unescape y : is_double_dot y = true -> path_unescape y = Some (s "..").
Proof.
  unfold is_double_dot. cbn [existsb]. rewrite orb_false_r. intros H.
  repeat (apply orb_true_iff in H as [H|H]);
    (eapply lower_eq_unescape; [exact H|vm_compute; reflexivity]).
Qed.

Definition dotty (y : str) : bool := is_single_dot y || is_double_dot y.

Lemma dotty_unescape y : dotty y = true -> exists d, path_unescape y = Some d /\ dirty_seg d = true.
Proof.
  unfold dotty. intros H. apply orb_true_iff in H as [H|H].
  - exists (s "."). split; [now apply single_dot_unescape|reflexivity].
  - exists (s ".."). split; [now apply double_dot_unescape|reflexivity].
Qed.

Lemma dotty_clean y : (forall d, path_unescape y = Some d -> dirty_seg d = false) -> dotty y = false.
Proof.
  intros H. destruct (dotty y) eqn:E; [|reflexivity].
  apply dotty_unescape in E as [d [E1 E2]]. rewrite (H d E1) in E2. discriminate.
Qed.

Lemma dotty_codec E : seg_codec E -> forall x, dirty_seg x = false -> dotty (E x) = false.
Proof.
  intros C x H. apply dotty_clean. intros d Hd. rewrite (codec_unescape E C) in Hd. now inversion Hd; subst.
Qed.

Lemma dotty_fix x : seg_unescape x = x -> dirty_seg x = false -> dotty x = false.
Proof.
  intros Hfix H. apply dotty_clean. intros d Hd. unfold seg_unescape in Hfix. rewrite Hd in Hfix. now subst.
Qed.

Lemma whatwg_aux_id : forall segs acc, forallb (fun x => negb (dotty x)) segs = true ->
  whatwg_aux acc segs = rev acc ++ segs.
Proof.
  induction segs as [|x r IH]; intros acc H; cbn [whatwg_aux].
  - now rewrite app_nil_r.
  - cbn [forallb] in H. apply andb_true_iff in H as [Hx Hr]. apply negb_true_iff in Hx.
    unfold dotty in Hx. apply orb_false_iff in Hx as [H1 H2]. rewrite H1, H2.
    rewrite IH by exact Hr. cbn [rev]. now rewrite <- app_assoc.
Qed.

Theorem whatwg_segs_id segs : forallb (fun x => negb (dotty x)) segs = true -> whatwg_segs segs = segs.
Proof. intros H. unfold whatwg_segs. now rewrite whatwg_aux_id. Qed.

Lemma helper_sets_only derive declared opt h' : In h' (helper_sets derive declared opt) -> derive h' = opt /\ In h' declared.
Proof. unfold helper_sets. intros H. apply filter_In in H as [H E]. apply str_eqb_eq in E. now split. Qed.

Theorem header_helper_exact derive declared h :
  In h declared -> NoDup declared ->
  (forall a b, In a declared -> In b declared -> derive a = derive b -> a = b) ->
  helper_sets derive declared (derive h) = [h].
Proof.
  intros Hin Hnd Hinj. unfold helper_sets.
  induction declared as [|d l IH]; [contradiction|].
  inversion Hnd as [|? ? Hnotin Hnd']; subst. cbn [filter].
  destruct Hin as [->|Hin].
  - rewrite str_eqb_refl. f_equal.
    apply filter_nil. intros y Hy. apply str_eqb_neq. intros E.
    assert (y = h) by (apply Hinj; [now right|now left|exact E]). subst. contradiction.
  - destruct (str_eqb (derive d) (derive h)) eqn:E.
    + apply str_eqb_eq in E. assert (d = h) by (apply Hinj; [now left|now right|exact E]). subst. contradiction.
    + apply IH; [exact Hin|exact Hnd'|]. intros a b Ha Hb. apply Hinj; now right.
Qed.

Lemma go_header_func_simple t : ~ In "-"%char t -> go_header_func (s "X-" ++ t) = t.
Proof.
  intros H. unfold go_header_func. rewrite trim_prefix_app. apply filter_id.
  intros x Hx. apply negb_true_iff. apply Ascii.eqb_neq. intros ->. contradiction.
Qed.

Lemma ts_header_prop_simple t : ~ In "-"%char t -> ts_header_prop (s "X-" ++ t) = lower_str t.
Proof.
  intros H. unfold ts_header_prop. rewrite trim_prefix_app, split_on_none by exact H. cbn. now rewrite app_nil_r.
Qed.

Lemma match_segs_cons_lit x pr e sr : (pr <> [] \/ x <> []) ->
  match_segs (SLit x :: pr) (e :: sr) = if str_eqb (seg_unescape e) (seg_unescape x) then match_segs pr sr else None.
Proof. intros [H|H]; destruct x, pr; try reflexivity; contradiction. Qed.
Lemma match_segs_cons_var v pr e sr :
  match_segs (SVar v :: pr) (e :: sr) =
  if str_eqb (seg_unescape e) [] || str_eqb (seg_unescape e) [slash] then None
  else match match_segs pr sr with Some b => Some ((v, seg_unescape e) :: b) | None => None end.
Proof. reflexivity. Qed.

(* ServeMux sees the request segments only through [seg_unescape] *)
Lemma match_segs_unescape : forall pat a b,
  map seg_unescape a = map seg_unescape b -> match_segs pat a = match_segs pat b.
Proof.
  induction pat as [|g pr IH]; intros a b H.
  - destruct a, b; try discriminate; reflexivity.
  - destruct a as [|e a], b as [|e' b]; try discriminate.
    + destruct g as [[|c x]|v]; destruct pr; reflexivity.
    + cbn [map] in H. injection H as He Hr.
      destruct g as [x|v].
      * destruct x as [|c x].
        -- destruct pr as [|g2 pr]; [reflexivity|].
           rewrite !match_segs_cons_lit by (left; discriminate). rewrite He. now rewrite (IH a b Hr).
        -- rewrite !match_segs_cons_lit by (right; discriminate). rewrite He. now rewrite (IH a b Hr).
      * rewrite !match_segs_cons_var. rewrite He. now rewrite (IH a b Hr).
Qed.

Lemma find_route_ext rs v a b :
  (forall pat, match_segs pat a = match_segs pat b) -> find_route rs v a = find_route rs v b.
Proof. intros H. apply fold_left_ext. intros best r0. now rewrite H. Qed.

Lemma bind_query_ext fs : forall qfs q1 q2 m,
  (forall k, query_values q1 k = query_values q2 k) -> bind_query fs qfs q1 m = bind_query fs qfs q2 m.
Proof.
  induction qfs as [|f qfs IH]; intros q1 q2 m H; [reflexivity|].
  cbn [bind_query]. rewrite H. destruct (query_values q2 (qname f)) as [|x xs].
  - destruct (qrequired f); [reflexivity|now apply IH].
  - destruct (convert (f_kind f) x); [now apply IH|reflexivity].
Qed.

Lemma slash_redirect_ext rs v a b :
  map seg_unescape a = map seg_unescape b -> slash_redirect rs v a = slash_redirect rs v b.
Proof.
  intros H. unfold slash_redirect.
  assert (Hlen : List.length a = List.length b).
  { rewrite <- (map_length seg_unescape a), <- (map_length seg_unescape b). now rewrite H. }
  assert (Hm : forall pat, match_segs pat (a ++ [[]]) = match_segs pat (b ++ [[]])).
  { intros pat. apply match_segs_unescape. rewrite !map_app. now rewrite H. }
  induction rs as [|r0 rs IH]; [reflexivity|]. cbn [existsb]. rewrite IH, Hlen, Hm. reflexivity.
Qed.

Lemma server_handle_ext rs w1 w2 ct resp p1 p2 :
  w_path w1 = slash :: p1 -> w_path w2 = slash :: p2 -> w_verb w1 = w_verb w2 -> w_body w1 = w_body w2 ->
  clean_segs (split_on slash p1) = clean_segs (split_on slash p2) ->
  map seg_unescape (split_on slash p1) = map seg_unescape (split_on slash p2) ->
  (forall k, query_values (w_query w1) k = query_values (w_query w2) k) ->
  server_handle rs w1 ct resp = server_handle rs w2 ct resp.
Proof.
  intros P1 P2 V B C U Q. unfold server_handle.
  (* the messages of the unmodelled cases get names, here and wherever such a function is unfolded: the
     steps that follow need not carry their text *)
  set (msg1 := s _). set (msg2 := s _). clearbody msg1 msg2.
  rewrite P1, P2, C, B, V.
  rewrite (find_route_ext rs (w_verb w2) _ _ (fun pat => match_segs_unescape pat _ _ U)).
  rewrite (slash_redirect_ext rs (w_verb w2) _ _ U).
  destruct (clean_segs (split_on slash p2)); cbn [negb]; [|reflexivity].
  destruct (find_route rs (w_verb w2) (split_on slash p2)) as [[r0 b]|]; [|reflexivity].
  destruct (is_subtree (sr_pat r0) && slash_redirect rs (w_verb w2) (split_on slash p2)); [reflexivity|].
  destruct (negb (all_singular_url (sr_fields r0) (rt_pathvars (sr_route r0)))); [reflexivity|].
  destruct (body_start (rt_body (sr_route r0)) ct (w_body w2)) as [m0|]; [|reflexivity].
  destruct (bind_path (sr_fields r0) (rt_pathvars (sr_route r0)) b m0) as [m1|]; [|reflexivity].
  now rewrite (bind_query_ext (sr_fields r0) _ (w_query w1) (w_query w2) m1 Q).
Qed.

Lemma clean_not_dirty : forall l, clean_segs l = true -> forall y, In y l -> dirty_seg y = false.
Proof.
  induction l as [|x l IH]; intros H y Hy; [contradiction|].
  destruct l as [|x2 l].
  - cbn in H. destruct Hy as [<-|[]]. now apply negb_true_iff in H.
  - rewrite clean_segs_cons2 in H. apply andb_true_iff in H as [H H3]. apply andb_true_iff in H as [H1 _].
    destruct Hy as [<-|Hy]; [now apply negb_true_iff in H1|now apply IH].
Qed.

Lemma clean_segs_rel : forall l1 l2,
  Forall2 (fun a b => dirty_seg a = dirty_seg b /\ str_eqb a [] = str_eqb b []) l1 l2 ->
  clean_segs l1 = clean_segs l2.
Proof.
  intros l1 l2 H. induction H as [|a b l1 l2 [Hd He] H IH]; [reflexivity|].
  destruct H as [|a2 b2 l1 l2 H2 H].
  - cbn. now rewrite Hd.
  - rewrite !clean_segs_cons2. now rewrite Hd, He, IH.
Qed.

Lemma clean_fill_rel fs req E1 E2 : seg_codec E1 -> seg_codec E2 -> forall segs,
  (forall v, In v (seg_vars segs) -> var_val fs req v <> [] /\ dirty_seg (var_val fs req v) = false) ->
  clean_segs (map (fill_str fs req E1) segs) = clean_segs (map (fill_str fs req E2) segs).
Proof.
  intros C1 C2 segs Hv. apply clean_segs_rel. induction segs as [|g segs IH]; [constructor|].
  cbn [map]. constructor.
  - destruct g as [x|v]; [split; reflexivity|]. cbn [fill_str].
    destruct (Hv v (or_introl eq_refl)) as [Hne Hd].
    rewrite (codec_not_dirty E1 C1 _ Hd), (codec_not_dirty E2 C2 _ Hd). split; [reflexivity|].
    assert (N : forall E, seg_codec E -> str_eqb (E (var_val fs req v)) [] = false).
    { intros E C. apply str_eqb_neq. intros H. now apply (codec_nil E C) in H. }
    now rewrite (N E1 C1), (N E2 C2).
  - apply IH. intros u Hu. apply Hv. destruct g; [exact Hu|now right].
Qed.

(* two requests whose paths fill one template through two segment codecs, and that agree otherwise, are
   answered and dispatched alike: the server unescapes the segments before it looks at them *)
Lemma server_same_fill fs req E1 E2 p segs rs w1 w2 ct resp :
  seg_codec E1 -> seg_codec E2 -> tsegs p = Some segs ->
  (forall v, In v (seg_vars segs) -> var_val fs req v <> [] /\ dirty_seg (var_val fs req v) = false) ->
  w_path w1 = slash :: join_with [slash] (map (fill_str fs req E1) segs) ->
  w_path w2 = slash :: join_with [slash] (map (fill_str fs req E2) segs) ->
  w_verb w1 = w_verb w2 -> w_body w1 = w_body w2 ->
  (forall k, query_values (w_query w1) k = query_values (w_query w2) k) ->
  server_handle rs w1 ct resp = server_handle rs w2 ct resp /\ dispatched_to rs w1 = dispatched_to rs w2.
Proof.
  intros C1 C2 Ht Hvv P1 P2 V B Q.
  pose proof (split_fill fs req _ C1 _ segs Ht) as S1. pose proof (split_fill fs req _ C2 _ segs Ht) as S2.
  assert (Hun : map seg_unescape (map (fill_str fs req E1) segs) = map seg_unescape (map (fill_str fs req E2) segs)).
  { rewrite !map_map. apply map_ext. intros g.
    now rewrite (seg_unescape_fill fs req _ C1), (seg_unescape_fill fs req _ C2). }
  split.
  - apply (server_handle_ext rs w1 w2 ct resp _ _ P1 P2 V B); [| |exact Q].
    + rewrite S1, S2. now apply clean_fill_rel.
    + now rewrite S1, S2.
  - unfold dispatched_to. rewrite P1, P2, V, S1, S2.
    now rewrite (find_route_ext rs (w_verb w2) _ _ (fun pat => match_segs_unescape pat _ _ Hun)).
Qed.

(* side condition on the template: no literal segment is a dot segment for the URL parser ("%2e" ...) *)
Definition lits_plain (segs : list seg) : bool :=
  forallb (fun g => match g with SLit x => negb (dotty x) | SVar _ => true end) segs.
Definition ts_template_ok (ri : rpc_info) : bool :=
  match tsegs (client_path ri) with Some segs => lits_plain segs | None => false end.

Lemma ts_template_ok_spec ri segs : tsegs (client_path ri) = Some segs -> ts_template_ok ri = true ->
  lits_plain segs = true.
Proof. unfold ts_template_ok. now intros ->. Qed.

Lemma whatwg_fill fs req E segs : seg_codec E -> lits_plain segs = true ->
  (forall v, In v (seg_vars segs) -> dirty_seg (var_val fs req v) = false) ->
  whatwg_segs (map (fill_str fs req E) segs) = map (fill_str fs req E) segs.
Proof.
  intros C Hl Hv. apply whatwg_segs_id. apply forallb_forall. intros y Hy.
  apply in_map_iff in Hy as [g [<- Hg]]. destruct g as [x|v]; cbn [fill_str].
  - unfold lits_plain in Hl. rewrite forallb_forall in Hl. exact (Hl _ Hg).
  - apply negb_true_iff, (dotty_codec E C), Hv. now apply seg_vars_in.
Qed.

Lemma params_set_fresh : forall l k v, ~ In k (map fst l) -> params_set l k v = l ++ [(k, v)].
Proof.
  induction l as [|[k' v'] l IH]; intros k v H; [reflexivity|].
  cbn [params_set]. destruct (str_eqb k k') eqn:E.
  - apply str_eqb_eq in E. subst. exfalso. apply H. now left.
  - cbn [app]. f_equal. apply IH. intros Hin. apply H. now right.
Qed.

Lemma params_of_nodup_aux : forall l acc, NoDup (map fst (acc ++ l)) ->
  fold_left (fun a p => params_set a (fst p) (snd p)) l acc = acc ++ l.
Proof.
  induction l as [|[k v] l IH]; intros acc H; cbn [fold_left].
  - now rewrite app_nil_r.
  - cbn [fst snd]. rewrite params_set_fresh.
    + rewrite IH; [now rewrite <- app_assoc|]. now rewrite <- app_assoc.
    + rewrite map_app in H. cbn [map fst] in H. apply NoDup_remove_2 in H.
      intros Hin. apply H. apply in_or_app. now left.
Qed.

Lemma params_of_nodup l : NoDup (map fst l) -> params_of l = l.
Proof. intros H. unfold params_of. now rewrite params_of_nodup_aux. Qed.

Section TsClient.
Variables (sc : schema) (fl : file) (sv : service) (md : method) (req : mval).
Notation fs := (in_fields sc md).
Notation r := (info_of fl sv md (in_fields sc md)).

Lemma ts_fill_seg_fills : fills_with encode_uri_component fs req (ts_fill_seg fs req).
Proof.
  eexists. eexists. intros [x|v]; [reflexivity|]. unfold ts_fill_seg, var_val, field_url_ok, singular, js_string.
  destruct (find_field fs v); reflexivity.
Qed.

Lemma ts_client_build_inv tw : ts_client_build fl sv md fs req = Ok tw ->
  exists segs filled q,
    tsegs (client_path r) = Some segs /\
    client_template_plain (path_vars r) segs = true /\
    all_ok (map (ts_fill_seg fs req) segs) = Ok filled /\
    (if verb_has_body (eff_verb r) then Ok [] else client_query fs req) = Ok q /\
    tw_verb tw = eff_verb r /\ tw_path tw = slash :: join_with [slash] (whatwg_segs filled) /\
    tw_query tw = form_encode (params_of q) /\
    tw_body tw = (if verb_has_body (eff_verb r) then Some (BJson, req) else None).
Proof.
  unfold ts_client_build. set (msg1 := s _). set (msg2 := s _). clearbody msg1 msg2.
  cbv zeta. cbn [rt_path rt_body rt_verb rt_pathvars ts_client client_route].
  destruct (tsegs (client_path r)) as [segs|] eqn:E1; [|discriminate].
  destruct (client_template_plain (path_vars r) segs) eqn:E0; cbn [negb]; [|discriminate].
  destruct (all_ok (map (ts_fill_seg fs req) segs)) as [filled|] eqn:E2; [|discriminate].
  destruct (if verb_has_body (eff_verb r) then Ok [] else client_query fs req) as [q|] eqn:E3; [|discriminate].
  intros H. inversion H. exists segs, filled, q.
  repeat split; try reflexivity; try assumption.
Qed.

Lemma dirty_of_defects : path_val_is dirty_seg fs req r = false ->
  forall v, In v (path_vars r) -> (exists f, find_field fs v = Some f) -> dirty_seg (var_val fs req v) = false.
Proof.
  intros Hd v Hv [f Hf]. unfold path_val_is in Hd.
  pose proof (proj1 (existsb_false _ _) Hd v Hv) as F. cbv beta in F. rewrite Hf in F.
  now rewrite (var_val_field fs req v f Hf).
Qed.

(* The request a client built, as far as a server's routing and path binding are concerned: the client's
   template, its variables, and the path made of the template's segments filled with [E]-escaped values
   (after the URL parser, for the TS side). *)
Definition built_path (E : str -> str) (segs : list seg) (q : list (str * str)) (path : str) : Prop :=
  tsegs (client_path r) = Some segs /\ seg_vars segs = path_vars r /\
  client_template_plain (path_vars r) segs = true /\
  (forall v, In v (path_vars r) -> exists f, find_field fs v = Some f /\ field_url_ok f = true) /\
  (if verb_has_body (eff_verb r) then Ok [] else client_query fs req) = Ok q /\
  path = slash :: join_with [slash] (map (fill_str fs req E) segs).

Lemma ts_client_built tw : ts_client_build fl sv md fs req = Ok tw ->
  template_ok r = true -> ts_template_ok r = true -> path_val_is dirty_seg fs req r = false ->
  exists segs q, built_path encode_uri_component segs q (tw_path tw) /\
    tw_verb tw = eff_verb r /\ tw_query tw = form_encode (params_of q) /\
    tw_body tw = (if verb_has_body (eff_verb r) then Some (BJson, req) else None).
Proof.
  intros Htb Htpl Hlits Hdirty.
  destruct (ts_client_build_inv tw Htb) as [segs [filled [q [Hts [Hplain [Hfill [Hq [Hverb [Hpath [Hquery Hbody]]]]]]]]]].
  apply template_ok_spec in Htpl as [segs' [Hts' Hvars]]. rewrite Hts in Hts'. inversion Hts'; subst segs'.
  apply (fills_all _ fs req _ ts_fill_seg_fills) in Hfill as [-> Hfields]. rewrite Hvars in Hfields.
  exists segs, q. repeat split; try assumption.
  rewrite Hpath, (whatwg_fill fs req _ segs encode_uri_codec (ts_template_ok_spec _ _ Hts Hlits)); [reflexivity|].
  rewrite Hvars. intros v Hv. apply (dirty_of_defects Hdirty v Hv).
  destruct (Hfields v Hv) as [f [Hf _]]. now exists f.
Qed.

Lemma go_client_built ct w : client_build fl sv md fs ct req = Ok w ->
  template_ok r = true -> ts_template_ok r = true -> path_val_is dirty_seg fs req r = false ->
  exists segs q, built_path path_escape segs q (w_path w) /\ whatwg_path (w_path w) = w_path w /\
    w_verb w = eff_verb r /\ w_query w = sort_kv q /\
    w_body w = (if verb_has_body (eff_verb r) then Some (client_fmt ct, req) else None).
Proof.
  intros Hcb Htpl Hlits Hdirty.
  destruct (client_build_inv sc fl sv md ct req w Hcb) as [segs [filled [q [Hts [Hplain [Hfill [Hq [Hverb [Hpath [Hquery Hbody]]]]]]]]]].
  apply template_ok_spec in Htpl as [segs' [Hts' Hvars]]. rewrite Hts in Hts'. inversion Hts'; subst segs'.
  apply fill_all in Hfill as [-> Hfields]. rewrite Hvars in Hfields.
  exists segs, q. repeat split; try assumption.
  rewrite Hpath. unfold whatwg_path. change (Ascii.eqb slash slash) with true. cbv iota.
  rewrite (split_fill fs req _ path_escape_codec _ segs Hts).
  rewrite (whatwg_fill fs req _ segs path_escape_codec (ts_template_ok_spec _ _ Hts Hlits)); [reflexivity|].
  rewrite Hvars. intros v Hv. apply (dirty_of_defects Hdirty v Hv).
  destruct (Hfields v Hv) as [f [Hf _]]. now exists f.
Qed.
(* conversely, the request the Go client builds from a template it can fill *)
Lemma client_build_of_built ct segs q path : built_path path_escape segs q path ->
  client_build fl sv md fs ct req =
  Ok {| w_verb := eff_verb r; w_path := path; w_query := sort_kv q;
        w_body := if verb_has_body (eff_verb r) then Some (client_fmt ct, req) else None |}.
Proof.
  intros [Hts [Hvars [Hplain [Hfields [Hq ->]]]]].
  unfold client_build. set (msg1 := s _). set (msg2 := s _). clearbody msg1 msg2.
  cbv zeta. cbn [rt_path rt_body rt_verb rt_pathvars go_client client_route].
  rewrite Hts, Hplain, Hq.
  assert (Hgo : all_ok (map (fill_seg fs req) segs) = Ok (map (fill_str fs req path_escape) segs)).
  { apply (fills_all _ fs req _ (fill_seg_fills fs req)). split; [reflexivity|]. now rewrite Hvars. }
  rewrite Hgo. reflexivity.
Qed.
End TsClient.

Section TsGo.
Variables (sc : schema) (fl : file) (sv : service) (md : method) (req : mval).
Notation fs := (in_fields sc md).
Notation r := (info_of fl sv md (in_fields sc md)).

Definition lifts (o : c08_outcome) (og : outcome) : Prop :=
  match og with
  | Delivered saw got => o = ODelivered (md_name md) (tsobj_of_mval saw) got
  | Rejected f => o = ORejected f
  | NotRouted => o = ONotRouted
  | RegistrationPanic => o = OPanic
  | ClientDecodeError _ => True
  end.

(* what an empty defect list of a TS->Go call says, a field for each defect *)
Record c08_ts_go_clean : Prop := {
  c08_route : filter route_defect (defects_C03 r) = [];
  c08_dot : path_val_is dirty_seg fs req r = false;
  c08_slash : path_val_is (fun x => str_eqb x [slash]) fs req r = false;
  c08_body_query : verb_has_body (eff_verb r) && existsb qrequired (query_fields fs) = false;
  c08_pattern : server_routes sc fl sv <> Ok None;
  c08_sibling : forall tw rs, ts_client_build fl sv md fs req = Ok tw -> server_routes sc fl sv = Ok (Some rs) ->
                  forall n, dispatched_to rs (go_wire_of tw) = Some n -> n = md_name md;
  c08_zero : negb (verb_has_body (eff_verb r)) &&
               existsb (fun f => qrequired f && is_zero (scalar_of req f)) (query_fields fs) = false;
  c08_base : in_chars lbrace (ri_base r) = false;
  c08_dup : negb (verb_has_body (eff_verb r)) && dupb (map qname (query_fields fs)) = false
}.

Lemma defects_ts_go_inv : defects_C08 TsGo sc fl sv md req = [] -> c08_ts_go_clean.
Proof.
  unfold defects_C08. cbv zeta. cbn [negb andb]. intros H.
  apply app_eq_nil in H as [H1 H]. apply app_eq_nil in H as [H3 H].
  apply app_eq_nil in H as [H4 H]. apply app_eq_nil in H as [H5 H].
  apply app_eq_nil in H as [H6 H]. apply app_eq_nil in H as [H7 H].
  apply app_eq_nil in H as [_ H]. apply app_eq_nil in H as [_ H].
  apply app_eq_nil in H as [H9 H]. apply app_eq_nil in H as [H10 H11].
  split.
  - now apply map_eq_nil in H1.
  - now apply if_nil in H3.
  - now apply if_nil in H4.
  - now apply if_nil in H5.
  - intros E. rewrite E in H6. discriminate.
  - intros tw rs Hw Hrs n Hn. rewrite Hw, Hrs, Hn in H7.
    destruct (str_eqb n (md_name md)) eqn:E; [now apply str_eqb_eq in E|discriminate].
  - now apply if_nil in H9.
  - now apply if_nil in H10.
  - now apply if_nil in H11.
Qed.

Lemma defects_C01_of_C08 tw wg rs :
  defects_C08 TsGo sc fl sv md req = [] ->
  ts_client_build fl sv md fs req = Ok tw -> client_build fl sv md fs CtJSON req = Ok wg ->
  server_routes sc fl sv = Ok (Some rs) -> dispatched_to rs (go_wire_of tw) = dispatched_to rs wg ->
  defects_C01 sc fl sv md CtJSON req = [].
Proof.
  intros Hdef Htb Hcb Hsr Hdsame.
  pose proof (defects_ts_go_inv Hdef) as C. pose proof (c08_dot C) as Hdirty. pose proof (c08_slash C) as Hslash.
  pose proof (c08_dup C) as Hdup.
  unfold defects_C01. cbv zeta. rewrite Hcb, Hsr, (c08_route C). cbn [map app].
  unfold path_val_is in Hdirty, Hslash. rewrite Hdirty, Hslash, (c08_body_query C). cbn [app].
  rewrite <- Hdsame. rewrite (c08_zero C), (c08_base C). unfold dupb in Hdup. rewrite Hdup.
  destruct (dispatched_to rs (go_wire_of tw)) as [n|] eqn:En; [|reflexivity].
  rewrite (c08_sibling C tw rs Htb Hsr n En). now rewrite str_eqb_refl.
Qed.

(* A TS->Go call is the Go->Go call of the same request seen through [lifts]; nothing about the Go server is
   proved again.  The TS client's request differs from the Go client's [wg] in two places only: path values
   go through encodeURIComponent instead of url.PathEscape, and the query is form-encoded in declaration
   order instead of sorted.  The server undoes both before it looks at anything: the two paths split into
   segments that unescape to the same strings (Hun), so routing and path binding agree (server_handle_ext,
   find_route_ext), and query_values does not depend on the order of distinct keys (Hq_nd).  Hence the
   server answers both requests alike (Hsame), both dispatch alike (Hdsame), and the C08 defect list being
   empty makes the C01 one empty (defects_C01_of_C08). *)
Theorem ts_go_reduce : forall resp w o,
  ts_go_call sc fl sv md req resp = Ok (w, o) ->
  defects_C08 TsGo sc fl sv md req = [] ->
  In md (sv_methods sv) -> NoDup (map md_name (sv_methods sv)) ->
  ts_template_ok r = true ->
  path_vals_nonempty fs req (path_vars r) = true ->
  exists wg og, go_call sc fl sv md CtJSON req resp = Ok (wg, og) /\
                defects_C01 sc fl sv md CtJSON req = [] /\ lifts o og.
Proof.
  intros resp w o Hcall Hdef Hmd Hnd Hlits Hne.
  pose proof (defects_ts_go_inv Hdef) as C. pose proof (c08_route C) as Hroute. pose proof (c08_dot C) as Hdirty.
  pose proof (c08_pattern C) as Hnopanic. pose proof (c08_sibling C) as Hdisp. pose proof (c08_base C) as Hbase.
  pose proof (c08_dup C) as Hdup.
  unfold ts_go_call in Hcall. cbv zeta in Hcall.
  destruct (ts_client_build fl sv md fs req) as [tw|] eqn:Htb; [|discriminate].
  destruct (server_routes sc fl sv) as [[rs|]|] eqn:Hsr; [|congruence|discriminate].
  assert (Htpl : template_ok r = true).
  { destruct (ts_client_build_inv sc fl sv md req tw Htb) as [segs [_ [_ [Hts _]]]].
    exact (template_ok_of_tsegs r segs Hroute (proj1 (in_chars_false _ _) Hbase) Hts). }
  destruct (ts_client_built sc fl sv md req tw Htb Htpl Hlits Hdirty)
    as [segs [q [[Hts [Hvars [Hplain [Hfields [Hq Hpath]]]]] [Hverb [Hquery Hbody]]]]].
  (* the Go client's request for the same call *)
  set (wg := {| w_verb := eff_verb r; w_path := slash :: join_with [slash] (map (fill_str fs req path_escape) segs);
                w_query := sort_kv q;
                w_body := if verb_has_body (eff_verb r) then Some (client_fmt CtJSON, req) else None |}).
  assert (Hcb : client_build fl sv md fs CtJSON req = Ok wg).
  { apply (client_build_of_built sc fl sv md req CtJSON segs). repeat split; assumption. }
  assert (Hvv : forall v, In v (seg_vars segs) -> var_val fs req v <> [] /\ dirty_seg (var_val fs req v) = false).
  { rewrite Hvars. intros v Hv. split; [now apply (proj1 (path_vals_nonempty_spec _ _ _) Hne)|].
    apply (dirty_of_defects sc fl sv md req Hdirty v Hv). destruct (Hfields v Hv) as [f [Hf _]]. now exists f. }
  assert (Hq_nd : NoDup (map fst q)).
  { destruct (verb_has_body (eff_verb r)) eqn:Hb.
    - inversion Hq. constructor.
    - unfold client_query in Hq. apply client_query_gen in Hq as [_ ->]. apply qgen_nodup.
      cbn [negb andb] in Hdup. now apply dupb_false_NoDup. }
  assert (Hss : server_handle rs (go_wire_of tw) CtJSON resp = server_handle rs wg CtJSON resp /\
                dispatched_to rs (go_wire_of tw) = dispatched_to rs wg).
  { apply (server_same_fill fs req _ _ _ segs rs (go_wire_of tw) wg CtJSON resp encode_uri_codec path_escape_codec
             Hts Hvv Hpath eq_refl Hverb).
    - cbn [go_wire_of w_body wg]. rewrite Hbody. reflexivity.
    - intros k. cbn [go_wire_of w_query wg]. rewrite Hquery, parse_query_form_encode.
      rewrite (params_of_nodup q Hq_nd). now rewrite query_values_sort_kv. }
  destruct Hss as [Hsame Hdsame].
  pose proof (defects_C01_of_C08 tw wg rs Hdef Htb Hcb Hsr Hdsame) as Hdef01.
  exists wg. unfold go_call. cbv zeta. rewrite Hcb, Hsr, <- Hsame.
  (* where the Go->Go call goes *)
  destruct (call_core sc fl sv md CtJSON req wg rs Hcb Hsr Hdef01 Hmd Hnd Hne)
    as [p [r0 [Hp [_ [Hfr0 _]]]]].
  assert (Hn : dispatched_to rs (go_wire_of tw) = Some (md_name md)).
  { rewrite Hdsame. unfold dispatched_to. rewrite Hp, Hfr0.
    f_equal. apply (Hdisp tw rs eq_refl eq_refl). rewrite Hdsame. unfold dispatched_to. now rewrite Hp, Hfr0. }
  rewrite Hn in Hcall.
  destruct (server_handle rs (go_wire_of tw) CtJSON resp) as [[[[saw [f v]]|]|[fld|[]]]|]; try discriminate.
  - inversion Hcall; subst.
    destruct (bfmt_eqb f (client_fmt CtJSON) || match f, v with BBin, [] => true | _, _ => false end);
      eexists; (split; [reflexivity|]); (split; [exact Hdef01|]); cbn [lifts]; auto.
  - inversion Hcall; subst. eexists. split; [reflexivity|]. split; [exact Hdef01|reflexivity].
  - inversion Hcall; subst. eexists. split; [reflexivity|]. split; [exact Hdef01|reflexivity].
  - inversion Hcall; subst. eexists. split; [reflexivity|]. split; [exact Hdef01|reflexivity].
Qed.

End TsGo.

Theorem ts_go_body : forall sc fl sv md req resp w o,
  ts_go_call sc fl sv md req resp = Ok (w, o) ->
  defects_C08 TsGo sc fl sv md req = [] ->
  In md (sv_methods sv) ->
  wf_body sc fl sv md req = true ->
  ts_template_ok (info_of fl sv md (in_fields sc md)) = true ->
  o = ODelivered (md_name md) (tsobj_of_mval req) resp.
Proof.
  intros sc fl sv md req resp w o Hcall Hdef Hmd Hwf Htpl.
  destruct (wf_body_spec _ _ _ _ _ Hwf) as [_ [Hnd [Hne _]]].
  destruct (ts_go_reduce sc fl sv md req resp w o Hcall Hdef Hmd Hnd Htpl Hne) as [wg [og [Hgo [Hd01 Hl]]]].
  rewrite (go_call_body_b sc fl sv md CtJSON req resp wg og Hgo Hd01 Hmd Hwf) in Hl. exact Hl.
Qed.

Theorem ts_go_nobody : forall sc fl sv md req resp w o,
  ts_go_call sc fl sv md req resp = Ok (w, o) ->
  defects_C08 TsGo sc fl sv md req = [] ->
  In md (sv_methods sv) ->
  wf_nobody sc fl sv md req = true ->
  ts_template_ok (info_of fl sv md (in_fields sc md)) = true ->
  exists saw, o = ODelivered (md_name md) (tsobj_of_mval saw) resp /\
              forall f, In f (in_fields sc md) -> scalar_of saw f = scalar_of req f.
Proof.
  intros sc fl sv md req resp w o Hcall Hdef Hmd Hwf Htpl.
  destruct (wf_nobody_spec _ _ _ _ _ Hwf) as [_ [Hnd [Hne _]]].
  destruct (ts_go_reduce sc fl sv md req resp w o Hcall Hdef Hmd Hnd Htpl Hne) as [wg [og [Hgo [Hd01 Hl]]]].
  destruct (go_call_nobody_b sc fl sv md CtJSON req resp wg og Hgo Hd01 Hmd Hwf) as [saw [-> Hs]].
  exists saw. split; [exact Hl|exact Hs].
Qed.

(* the Go client's helpers after d19dbea: one helper per function name, for the first header deriving it *)
Theorem go_helper_exact declared h :
  In h declared ->
  (forall a b, In a declared -> In b declared -> go_header_func a = go_header_func b -> a = b) ->
  go_helper_sets declared (go_header_func h) = [h].
Proof.
  intros Hin Hinj. unfold go_helper_sets.
  destruct (find (fun x => str_eqb (go_header_func x) (go_header_func h)) declared) as [x|] eqn:E.
  - apply find_some in E as [Hx Ex]. apply str_eqb_eq in Ex. f_equal. now apply Hinj.
  - exfalso. pose proof (find_none _ _ E h Hin) as F. cbv beta in F. now rewrite str_eqb_refl in F.
Qed.

Lemma tget_app o1 o2 k : tget (o1 ++ o2) k = match tget o1 k with Some x => Some x | None => tget o2 k end.
Proof.
  induction o1 as [|[k' v] o1 IH]; [reflexivity|]. cbn [app tget].
  destruct (str_eqb k k'); [reflexivity|exact IH].
Qed.

Lemma tget_tremove o k g : tget (tremove o k) g = if str_eqb g k then None else tget o g.
Proof.
  unfold tremove. induction o as [|[k2 v] o IH]; [now destruct (str_eqb g k)|]. cbn [filter fst].
  destruct (str_eqb k2 k) eqn:E; cbn [negb tget].
  - rewrite IH. apply str_eqb_eq in E. subst k2. now destruct (str_eqb g k).
  - rewrite IH. destruct (str_eqb g k2) eqn:E2; [|reflexivity].
    apply str_eqb_eq in E2. subst k2. now rewrite E.
Qed.

Lemma tget_tset o k c g : tget (tset o k c) g = if str_eqb g k then c else tget o g.
Proof.
  unfold tset. destruct c as [x|]; [|apply tget_tremove].
  rewrite tget_app, tget_tremove. cbn [tget]. now destruct (str_eqb g k); [|destruct (tget o g)].
Qed.

Definition tset_keys : (str -> option tsval) -> list str -> tsobj -> tsobj := set_keys tsobj tsval tset.

Lemma tget_set_keys X ks o k :
  tget (tset_keys X ks o) k = if existsb (str_eqb k) ks then X k else tget o k.
Proof. exact (get_set_keys tsobj tsval tget tset tget_tset X ks o k). Qed.

Lemma tget_of_mval m k : tget (tsobj_of_mval m) k = option_map TsV (mget m k).
Proof.
  unfold tsobj_of_mval. induction m as [|[k' v] m IH]; [reflexivity|]. cbn [map tget mget fst snd].
  destruct (str_eqb k k'); [reflexivity|exact IH].
Qed.

Lemma split_on_slash_cons x : split_on slash (slash :: x) = [] :: split_on slash x.
Proof. reflexivity. Qed.

Section Fill.
Variables (fs : list field) (req : mval) (E : str -> str).
Hypothesis E_nil : forall x, E x = [] -> x = [].

Definition efill (g : seg) : str := match g with SLit x => x | SVar v => E (var_val fs req v) end.

Lemma tmpl_is_var_lit t x : seg_of t = Some (SLit x) -> tmpl_is_var t = false.
Proof. unfold tmpl_is_var. now intros ->. Qed.
Lemma tmpl_is_var_var t v : seg_of t = Some (SVar v) -> tmpl_is_var t = true.
Proof. unfold tmpl_is_var. now intros ->. Qed.

Lemma ts_match_own : forall tl segs, Forall2 (fun t g => seg_of t = Some g) tl segs ->
  (forall v, In v (seg_vars segs) -> var_val fs req v <> []) ->
  ts_match tl (map efill segs) = true.
Proof.
  intros tl segs H. induction H as [|t g tl segs Hg H IH]; intros Hv; [reflexivity|].
  cbn [map ts_match]. destruct g as [x|v].
  - rewrite (tmpl_is_var_lit t x Hg). apply seg_of_lit in Hg as [-> _]. cbn [efill].
    rewrite str_eqb_refl. apply IH. intros v Hin. now apply Hv.
  - rewrite (tmpl_is_var_var t v Hg). cbn [efill].
    assert (Hne : str_eqb (E (var_val fs req v)) [] = false).
    { apply str_eqb_neq. intros Hnil. apply E_nil in Hnil. apply (Hv v); [now left|exact Hnil]. }
    rewrite Hne. cbn [negb andb]. apply IH. intros v' Hin. apply Hv. now right.
Qed.

Lemma index_own : forall tl segs, Forall2 (fun t g => seg_of t = Some g) tl segs ->
  forall v, In (SVar v) segs ->
  exists i, index_of (lbrace :: v ++ [rbrace]) tl = Some i /\ nth i (map efill segs) [] = E (var_val fs req v).
Proof.
  intros tl segs H. induction H as [|t g tl segs Hg H IH]; intros v Hin; [contradiction|].
  cbn [index_of]. destruct (str_eqb (lbrace :: v ++ [rbrace]) t) eqn:Et.
  - apply str_eqb_eq in Et. exists O. split; [reflexivity|]. cbn [map nth].
    (* t is "{v}", so it parses to the variable v *)
    assert (Hsv : seg_of t = Some (SVar v)).
    { destruct Hin as [Hh|Hin].
      - now rewrite <- Hh.
      - clear - Hin H Et. induction H as [|t2 g2 tl segs Hg2 H IH2]; [contradiction|].
        destruct Hin as [->|Hin]; [|now apply IH2].
        pose proof (seg_of_var _ _ Hg2) as [Ht2 _]. rewrite <- Et, <- Ht2. exact Hg2. }
    rewrite Hsv in Hg. inversion Hg. reflexivity.
  - destruct Hin as [->|Hin].
    + pose proof (seg_of_var _ _ Hg) as [Ht _]. rewrite Ht, str_eqb_refl in Et. discriminate.
    + destruct (IH v Hin) as [i [Hi Hn]]. exists (S i). split; [now rewrite Hi|exact Hn].
Qed.
End Fill.

Definition tfr_cand (v : verb) (segs : list str) (r : ts_route) : option ts_route :=
  if verb_eqb (rt_verb (tr_route r)) v && ts_match (tr_tmpl r) segs then Some r else None.
Definition tfr_keep (b r : ts_route) : bool := negb (ts_more_specific (tr_tmpl r) (tr_tmpl b)).

Lemma ts_find_route_fold rs v segs :
  ts_find_route rs v segs = fold_left (best_step (tfr_cand v segs) tfr_keep) rs None.
Proof.
  apply fold_left_ext. intros best r. unfold best_step, tfr_cand, tfr_keep.
  destruct (verb_eqb (rt_verb (tr_route r)) v && ts_match (tr_tmpl r) segs); [|reflexivity].
  destruct best as [b|]; [|reflexivity]. now destruct (ts_more_specific (tr_tmpl r) (tr_tmpl b)).
Qed.

Lemma ts_find_route_sound rs v segs r : ts_find_route rs v segs = Some r -> In r rs.
Proof.
  rewrite ts_find_route_fold. intros H. apply fold_best_sound in H as [H|[r' [Hin Hc]]]; [discriminate|].
  unfold tfr_cand in Hc. destruct (verb_eqb (rt_verb (tr_route r')) v && ts_match (tr_tmpl r') segs); [|discriminate].
  now inversion Hc; subst.
Qed.

Lemma ts_find_route_complete rs v segs r : In r rs -> verb_eqb (rt_verb (tr_route r)) v = true ->
  ts_match (tr_tmpl r) segs = true -> ts_find_route rs v segs <> None.
Proof.
  intros Hin Hv Hm. rewrite ts_find_route_fold. apply fold_best_complete. right. exists r. split; [exact Hin|].
  unfold tfr_cand. rewrite Hv, Hm. discriminate.
Qed.

Section TsServer.
Variables (sc : schema) (fl : file) (sv : service) (md : method) (req : mval) (hs : list (str * str)) (E : str -> str).
Notation fs := (in_fields sc md).
Notation r := (info_of fl sv md (in_fields sc md)).
Hypothesis E_nil : forall x, E x = [] -> x = [].
Hypothesis E_dec : forall x, utf8_valid x = true -> decode_uri_component (E x) = Some x.
Hypothesis E_noslash : forall x, ~ In slash (E x).

Definition path_value_ok (v : str) : Prop :=
  exists f, find_field fs v = Some f /\
    var_val fs req v <> [] /\ utf8_valid (var_val fs req v) = true /\
    canon_js (f_kind f) (JsStr (var_val fs req v)) = tget (tsobj_of_mval req) (f_name f).

Definition ts_route_of (m : method) : ts_route :=
  {| tr_md := m; tr_fields := in_fields sc m; tr_route := ts_server (info_of fl sv m (in_fields sc m));
     tr_tmpl := split_on slash (rt_path (ts_server (info_of fl sv m (in_fields sc m)))) |}.

Lemma ts_routes_map : ts_routes sc fl sv = map ts_route_of (sv_methods sv).
Proof. reflexivity. Qed.

Lemma ts_routed tw segs :
  In md (sv_methods sv) -> NoDup (map md_name (sv_methods sv)) ->
  tsegs (client_path r) = Some segs -> seg_vars segs = path_vars r ->
  (forall x, In (SLit x) segs -> ~ In slash x) ->
  tw_verb tw = eff_verb r ->
  tw_path tw = slash :: join_with [slash] (map (efill fs req E) segs) ->
  (forall v, In v (path_vars r) -> var_val fs req v <> []) ->
  (forall n, ts_dispatched sc fl sv tw = Some n -> n = md_name md) ->
  exists tl, split_on slash (client_path r) = [] :: tl /\ Forall2 (fun t g => seg_of t = Some g) tl segs /\
    split_on slash (tw_path tw) = [] :: map (efill fs req E) segs /\
    ts_find_route (ts_routes sc fl sv) (tw_verb tw) ([] :: map (efill fs req E) segs) = Some (ts_route_of md).
Proof.
  intros Hmd Hnd Hts Hvars Hlit Hverb Hpath Hne Hdisp.
  destruct (tsegs_template _ _ Hts) as [rest [Hrest HF]].
  exists (split_on slash rest). split; [now rewrite Hrest|]. split; [exact HF|].
  assert (Hsplit : split_on slash (tw_path tw) = [] :: map (efill fs req E) segs).
  { rewrite Hpath, split_on_slash_cons. f_equal. apply split_on_join.
    - destruct (tsegs_inv _ _ Hts) as [A _]. destruct segs; [congruence|discriminate].
    - intros y Hy. apply in_map_iff in Hy as [g [<- Hg]].
      destruct g as [x|v]; cbn [efill]; [now apply Hlit|apply E_noslash]. }
  split; [exact Hsplit|].
  assert (Hown : ts_match ([] :: split_on slash rest) ([] :: map (efill fs req E) segs) = true).
  { cbn [ts_match]. change (tmpl_is_var []) with false. cbn [str_eqb andb].
    apply (ts_match_own fs req E E_nil _ segs HF). intros v Hv. rewrite Hvars in Hv. now apply Hne. }
  destruct (ts_find_route (ts_routes sc fl sv) (tw_verb tw) ([] :: map (efill fs req E) segs)) as [r0|] eqn:Efr.
  - (* the route found is md's own: its name is md's by the defect list, and names are distinct *)
    f_equal. pose proof (ts_find_route_sound _ _ _ _ Efr) as Hin.
    rewrite ts_routes_map in Hin. apply in_map_iff in Hin as [md0 [<- Hmd0]].
    assert (Hn : md_name md0 = md_name md).
    { apply Hdisp. unfold ts_dispatched. now rewrite Hsplit, Efr. }
    f_equal. apply (NoDup_map_inj md_name (sv_methods sv)); assumption.
  - exfalso. revert Efr. apply (ts_find_route_complete _ _ _ (ts_route_of md)).
    + rewrite ts_routes_map. now apply in_map.
    + cbn [ts_route_of tr_route ts_server client_route rt_verb]. rewrite Hverb. apply verb_eqb_refl.
    + cbn [ts_route_of tr_tmpl ts_server client_route rt_path]. rewrite Hrest. exact Hown.
Qed.

Lemma ts_bind_path_keys (X : str -> option tsval) tl segs : Forall2 (fun t g => seg_of t = Some g) tl segs ->
  forall vars o,
  (forall v, In v vars -> In (SVar v) segs /\
     exists f, find_field fs v = Some f /\ utf8_valid (var_val fs req v) = true /\
               canon_js (f_kind f) (JsStr (var_val fs req v)) = X v) ->
  ts_bind_path fs ([] :: tl) ([] :: map (efill fs req E) segs) vars o = Ok (Some (tset_keys X vars o)).
Proof.
  intros HF. induction vars as [|v vars IH]; intros o Hv; [reflexivity|].
  destruct (Hv v (or_introl eq_refl)) as [Hin [f [Hf [Hu Hc]]]].
  destruct (index_own fs req E tl segs HF v Hin) as [i [Hi Hnth]].
  destruct (find_field_some fs v f Hf) as [_ Hn].
  cbn [ts_bind_path index_of]. rewrite Hi. cbn [option_map str_eqb]. rewrite Hf. cbn [nth].
  rewrite Hnth, (E_dec _ Hu), Hc, Hn. unfold tset_keys, set_keys. cbn [fold_left].
  apply IH. intros v' Hv'. apply Hv. now right.
Qed.

Theorem ts_server_body tw segs :
  In md (sv_methods sv) -> NoDup (map md_name (sv_methods sv)) ->
  tsegs (client_path r) = Some segs -> seg_vars segs = path_vars r ->
  (forall x, In (SLit x) segs -> ~ In slash x) ->
  verb_has_body (eff_verb r) = true ->
  tw_verb tw = eff_verb r ->
  tw_path tw = slash :: join_with [slash] (map (efill fs req E) segs) ->
  tw_body tw = Some (BJson, req) ->
  (forall v, In v (path_vars r) -> path_value_ok v) ->
  hdr_violation (sv_headers sv ++ md_headers md) hs = Ok None ->
  (forall n, ts_dispatched sc fl sv tw = Some n -> n = md_name md) ->
  forall o, ts_server_handle sc fl sv tw hs = Ok o ->
  exists saw, o = TsDelivered (md_name md) saw /\ forall k, tget saw k = tget (tsobj_of_mval req) k.
Proof.
  intros Hmd Hnd Hts Hvars Hlit Hbody Hverb Hpath Hwb Hpv Hhdr Hdisp o H.
  destruct (ts_routed tw segs Hmd Hnd Hts Hvars Hlit Hverb Hpath) as [tl [Htl [HF [Hsplit Hroute]]]];
    [intros v Hv; now destruct (Hpv v Hv) as [f [_ [Hne _]]]|exact Hdisp|].
  unfold ts_server_handle in H. set (msg := s _) in H. clearbody msg.
  cbn [ts_server_loads negb] in H. rewrite Hsplit, Hroute in H.
  cbn [ts_route_of tr_md tr_fields tr_route tr_tmpl ts_server client_route rt_body rt_pathvars rt_path] in H.
  rewrite Hbody in H. cbn [negb] in H. rewrite Htl in H.
  destruct (ts_url_modelled fs (path_vars r) false); cbn [negb] in H; [|discriminate].
  rewrite Hhdr, Hwb in H.
  assert (Hall : forall v, In v (path_vars r) -> In (SVar v) segs /\
            exists f, find_field fs v = Some f /\ utf8_valid (var_val fs req v) = true /\
                      canon_js (f_kind f) (JsStr (var_val fs req v)) = tget (tsobj_of_mval req) v).
  { intros v Hv. split; [apply seg_vars_in; now rewrite Hvars|].
    destruct (Hpv v Hv) as [f [Hf [_ [Hu Hc]]]]. exists f.
    destruct (find_field_some fs v f Hf) as [_ Hn]. rewrite Hn in Hc. now repeat split. }
  rewrite !(ts_bind_path_keys _ tl segs HF (path_vars r) _ Hall) in H.
  inversion H; subst o. eexists. split; [reflexivity|].
  intros k. rewrite tget_set_keys. now destruct (existsb (str_eqb k) (path_vars r)).
Qed.
End TsServer.

Section ToTs.
Variables (sc : schema) (fl : file) (sv : service) (md : method) (req : mval).
Notation fs := (in_fields sc md).
Notation r := (info_of fl sv md (in_fields sc md)).

Lemma defects_to_ts_inv p : p <> TsGo -> defects_C08 p sc fl sv md req = [] ->
  path_val_is dirty_seg fs req r = false /\
  (match p with
   | TsGo => True
   | GoTs => forall w, client_build fl sv md fs CtJSON req = Ok w ->
               forall n, ts_dispatched sc fl sv (ts_wire_of w) = Some n -> n = md_name md
   | TsTs => forall tw, ts_client_build fl sv md fs req = Ok tw ->
               forall n, ts_dispatched sc fl sv tw = Some n -> n = md_name md
   end) /\
  existsb (fun v => match find_field fs v with
                    | Some f => negb (is_str_or_64 (f_kind f)) | None => false end) (path_vars r) = false /\
  (negb (verb_has_body (eff_verb r)) &&
     existsb (fun f => is_64 (f_kind f) && is_zero (scalar_of req f)) (query_fields fs) = false) /\
  (negb (verb_has_body (eff_verb r)) && dupb (map qname (query_fields fs)) = false).
Proof.
  intros Hp. unfold defects_C08. cbv zeta. intros H.
  destruct p; [congruence| |]; cbn [negb andb app] in H;
    apply app_eq_nil in H as [H3 H]; apply app_eq_nil in H as [H7 H];
    apply app_eq_nil in H as [H8 H]; apply app_eq_nil in H as [H9 H];
    apply app_eq_nil in H as [_ H11];
    (split; [now apply if_nil in H3|]); (split; [|now apply if_nil in H8, H9, H11]).
  - intros w Hw n Hn. rewrite Hw, Hn in H7.
    destruct (str_eqb n (md_name md)) eqn:E; [now apply str_eqb_eq in E|discriminate].
  - intros tw Hw n Hn. rewrite Hw, Hn in H7.
    destruct (str_eqb n (md_name md)) eqn:E; [now apply str_eqb_eq in E|discriminate].
Qed.

(* The two calls into the TS server differ in the client that built the request: in the codec E of its path
   values and in the wire request the call reports (w0). *)
Lemma to_ts_body E hs resp tw segs q (w0 w : wire_req) o :
  (forall x, E x = [] -> x = []) -> (forall x, utf8_valid x = true -> decode_uri_component (E x) = Some x) ->
  (forall x, ~ In slash (E x)) ->
  In md (sv_methods sv) -> NoDup (map md_name (sv_methods sv)) ->
  verb_has_body (eff_verb r) = true ->
  built_path sc fl sv md req E segs q (tw_path tw) -> tw_verb tw = eff_verb r ->
  tw_body tw = (if verb_has_body (eff_verb r) then Some (BJson, req) else None) ->
  hdr_violation (sv_headers sv ++ md_headers md) hs = Ok None ->
  (forall v, In v (path_vars r) -> path_value_ok sc md req v) ->
  (forall n, ts_dispatched sc fl sv tw = Some n -> n = md_name md) ->
  match ts_server_handle sc fl sv tw hs with
  | Unmodelled why => Unmodelled why
  | Ok o' => Ok (w0, of_ts_outcome o' resp)
  end = Ok (w, o) ->
  exists saw, o = ODelivered (md_name md) saw resp /\ forall k, tget saw k = tget (tsobj_of_mval req) k.
Proof.
  intros En Ed Es Hmd Hnd Hbody [Hts [Hvars [_ [_ [_ Hpath]]]]] Hverb Hwb Hhdr Hpv Hdisp Hcall.
  rewrite Hbody in Hwb.
  destruct (ts_server_handle sc fl sv tw hs) as [to|] eqn:Hsh; [|discriminate].
  destruct (ts_server_body sc fl sv md req hs E En Ed Es tw segs Hmd Hnd Hts Hvars (proj2 (tsegs_inv _ _ Hts))
              Hbody Hverb Hpath Hwb Hpv Hhdr Hdisp to Hsh) as [saw [-> Hsaw]].
  inversion Hcall; subst. exists saw. split; [reflexivity|exact Hsaw].
Qed.

Theorem ts_ts_body : forall hs resp w o,
  ts_ts_call sc fl sv md hs req resp = Ok (w, o) ->
  defects_C08 TsTs sc fl sv md req = [] ->
  In md (sv_methods sv) -> NoDup (map md_name (sv_methods sv)) ->
  verb_has_body (eff_verb r) = true ->
  template_ok r = true -> ts_template_ok r = true ->
  hdr_violation (sv_headers sv ++ md_headers md) hs = Ok None ->
  (forall v, In v (path_vars r) -> path_value_ok sc md req v) ->
  exists saw, o = ODelivered (md_name md) saw resp /\ forall k, tget saw k = tget (tsobj_of_mval req) k.
Proof.
  intros hs resp w o Hcall Hdef Hmd Hnd Hbody Htpl Hlits Hhdr Hpv.
  destruct (defects_to_ts_inv TsTs ltac:(discriminate) Hdef) as [Hdirty [Hdisp _]].
  unfold ts_ts_call in Hcall. cbv zeta in Hcall.
  destruct (ts_client_build fl sv md fs req) as [tw|] eqn:Htb; [|discriminate].
  destruct (ts_client_built sc fl sv md req tw Htb Htpl Hlits Hdirty) as [segs [q [Hbuilt [Hverb [_ Hwb]]]]].
  exact (to_ts_body encode_uri_component hs resp tw segs q (go_wire_of tw) w o
           (codec_nil _ encode_uri_codec) decode_encode_uri encode_uri_no_slash Hmd Hnd Hbody Hbuilt Hverb Hwb Hhdr Hpv
           (Hdisp tw eq_refl) Hcall).
Qed.

Theorem go_ts_body : forall hs resp w o,
  go_ts_call sc fl sv md hs req resp = Ok (w, o) ->
  defects_C08 GoTs sc fl sv md req = [] ->
  In md (sv_methods sv) -> NoDup (map md_name (sv_methods sv)) ->
  verb_has_body (eff_verb r) = true ->
  template_ok r = true -> ts_template_ok r = true ->
  hdr_violation (sv_headers sv ++ md_headers md) hs = Ok None ->
  (forall v, In v (path_vars r) -> path_value_ok sc md req v) ->
  exists saw, o = ODelivered (md_name md) saw resp /\ forall k, tget saw k = tget (tsobj_of_mval req) k.
Proof.
  intros hs resp w o Hcall Hdef Hmd Hnd Hbody Htpl Hlits Hhdr Hpv.
  destruct (defects_to_ts_inv GoTs ltac:(discriminate) Hdef) as [Hdirty [Hdisp _]].
  unfold go_ts_call in Hcall. cbv zeta in Hcall.
  destruct (client_build fl sv md fs CtJSON req) as [w0|] eqn:Hcb; [|discriminate].
  destruct (go_client_built sc fl sv md req CtJSON w0 Hcb Htpl Hlits Hdirty)
    as [segs [q [Hbuilt [Hww [Hverb [_ Hwb]]]]]].
  apply (to_ts_body path_escape hs resp (ts_wire_of w0) segs q w0 w o
           (codec_nil _ path_escape_codec) decode_path_escape path_escape_no_slash Hmd Hnd Hbody);
    [|exact Hverb|exact Hwb|exact Hhdr|exact Hpv|exact (Hdisp w0 eq_refl)|exact Hcall].
  cbn [ts_wire_of tw_path]. rewrite Hww. exact Hbuilt.
Qed.

(* decimal text is ASCII, hence UTF-8 *)
Lemma ascii_utf8 : forall y, forallb (fun c => (code c <? 128)%N) y = true -> utf8_valid y = true.
Proof.
  induction y as [|c y IH]; [reflexivity|]. cbn [forallb utf8_valid]. intros H.
  apply andb_true_iff in H as [H1 H2]. rewrite H1. now apply IH.
Qed.

Lemma digits_ascii y : forallb is_digit y = true -> forallb (fun c => (code c <? 128)%N) y = true.
Proof.
  intros H. apply forallb_forall. intros d Hd. rewrite forallb_forall in H. specialize (H d Hd).
  unfold is_digit in H. apply andb_true_iff in H as [_ D]. apply N.leb_le in D. apply N.ltb_lt. lia.
Qed.

Lemma utf8_show_int z : utf8_valid (show_int z) = true.
Proof.
  apply ascii_utf8. destruct z as [|p|p]; [reflexivity| |].
  - rewrite show_int_pos. destruct (show_nat_N_shape (Npos p)) as [c [y [E [D R]]]]. rewrite E.
    apply (digits_ascii (c :: y)). cbn [forallb]. now rewrite D, R.
  - change (show_int (Zneg p)) with ("-"%char :: show_nat_N (Npos p)).
    destruct (show_nat_N_shape (Npos p)) as [c [y [E [D R]]]]. rewrite E.
    cbn [forallb]. apply andb_true_iff. split; [reflexivity|].
    apply (digits_ascii (c :: y)). cbn [forallb]. now rewrite D, R.
Qed.

Lemma path_value_ok_string v f x :
  find_field fs v = Some f -> f_kind f = KString -> mget req (f_name f) = Some (FS (VStr x)) ->
  x <> [] -> utf8_valid x = true -> path_value_ok sc md req v.
Proof.
  intros Hf Hk Hg Hne Hu. exists f. unfold var_val. rewrite Hf. unfold scalar_of. rewrite Hg. cbn [sprint].
  repeat split; try assumption. rewrite Hk, tget_of_mval, Hg. destruct x; [congruence|reflexivity].
Qed.

Lemma path_value_ok_int64 v f z :
  find_field fs v = Some f -> f_kind f = KInt64 -> mget req (f_name f) = Some (FS (VInt z)) ->
  z <> 0%Z -> (- 2 ^ 63 <= z < 2 ^ 63)%Z -> path_value_ok sc md req v.
Proof.
  intros Hf Hk Hg Hz Hr. exists f. unfold var_val. rewrite Hf. unfold scalar_of. rewrite Hg. cbn [sprint].
  split; [reflexivity|]. split; [apply show_int_nonempty|]. split; [apply utf8_show_int|].
  rewrite Hk, tget_of_mval, Hg. cbn [canon_js option_map]. unfold canon_dec.
  rewrite (parse_int_show 64 z ltac:(reflexivity) Hr), str_eqb_refl.
  destruct (Z.eqb z 0) eqn:Ez; [apply Z.eqb_eq in Ez; contradiction|reflexivity].
Qed.
End ToTs.
