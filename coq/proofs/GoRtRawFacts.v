(* GoRtRawFacts.v — the emitted Go server facing an arbitrary request (C02): what the URL binds, when
   it is rejected, and that the URL's values reach the handler whatever the body says (they are bound on top of the
   decoded body). *)
From Coq Require Import ZifyN ZifyNat ZifyBool.
From Sebuf Require Import Text Route Schema Value Num Url GoRt GoRtRaw.
From SebufProofs Require Import TextFacts ListFacts NumFacts UrlFacts GoRtFacts.

Lemma parse_digits_digits : forall x acc n, parse_digits acc x = Some n -> forallb is_digit x = true.
Proof.
  induction x as [|c x IH]; intros acc n H; [reflexivity|].
  cbn [parse_digits] in H. unfold digit_val in H.
  destruct (is_digit c) eqn:E; [|discriminate]. cbn [forallb]. rewrite E. cbn [andb].
  exact (IH _ _ H).
Qed.

Lemma parse_nat_some x n : parse_nat x = Some n -> x <> [] /\ forallb is_digit x = true.
Proof.
  unfold parse_nat. destruct x as [|c r]; [discriminate|]. intros H. split; [discriminate|].
  exact (parse_digits_digits _ _ _ H).
Qed.

Lemma parse_nat_nondigit x : forallb is_digit x = false -> parse_nat x = None.
Proof.
  intros H. destruct (parse_nat x) as [n|] eqn:E; [|reflexivity].
  apply parse_nat_some in E as [_ E]. congruence.
Qed.

Definition int_body (x : str) : str :=
  match x with
  | c :: r => if Ascii.eqb c "-"%char then r else if Ascii.eqb c "+"%char then r else x
  | [] => []
  end.
Definition int_neg (x : str) : bool :=
  match x with c :: _ => Ascii.eqb c "-"%char | [] => false end.

Lemma parse_int_unfold bits x :
  parse_int bits x =
  match parse_nat (int_body x) with
  | Some n =>
      if int_neg x then (if (n <=? 2 ^ (bits - 1))%N then Some (- Z.of_N n)%Z else None)
      else (if (n <? 2 ^ (bits - 1))%N then Some (Z.of_N n) else None)
  | None => None
  end.
Proof.
  unfold parse_int, int_body, int_neg. destruct x as [|c r]; [reflexivity|].
  destruct (Ascii.eqb c "-"%char); [reflexivity|]. destruct (Ascii.eqb c "+"%char); reflexivity.
Qed.

Lemma pow2_pos (b : N) : (0 < 2 ^ Z.of_N b)%Z.
Proof. apply Z.pow_pos_nonneg; lia. Qed.

Lemma parse_int_range bits x z : parse_int bits x = Some z ->
  (- 2 ^ Z.of_N (bits - 1) <= z < 2 ^ Z.of_N (bits - 1))%Z.
Proof.
  rewrite parse_int_unfold. destruct (parse_nat (int_body x)) as [n|]; [|discriminate].
  pose proof (pow2_N2Z (bits - 1)) as P. pose proof (pow2_pos (bits - 1)) as Q.
  destruct (int_neg x).
  - destruct (n <=? 2 ^ (bits - 1))%N eqn:E; [|discriminate]. intros H. inversion H. subst z.
    apply N.leb_le in E. lia.
  - destruct (n <? 2 ^ (bits - 1))%N eqn:E; [|discriminate]. intros H. inversion H. subst z.
    apply N.ltb_lt in E. lia.
Qed.

Lemma parse_uint_range bits x z : parse_uint bits x = Some z -> (0 <= z < 2 ^ Z.of_N bits)%Z.
Proof.
  unfold parse_uint. destruct (parse_nat x) as [n|]; [|discriminate].
  pose proof (pow2_N2Z bits) as P.
  destruct (n <? 2 ^ bits)%N eqn:E; [|discriminate]. intros H. inversion H. subst z.
  apply N.ltb_lt in E. lia.
Qed.

Definition bool_true_spellings : list str := [s "1"; s "t"; s "T"; s "TRUE"; s "true"; s "True"].
Definition bool_false_spellings : list str := [s "0"; s "f"; s "F"; s "FALSE"; s "false"; s "False"].

Lemma parse_bool_spelling x b : parse_bool x = Some b ->
  In x (if b then bool_true_spellings else bool_false_spellings).
Proof.
  unfold parse_bool.
  destruct (existsb (str_eqb x) [s "1"; s "t"; s "T"; s "TRUE"; s "true"; s "True"]) eqn:E1.
  - intros H. inversion H. subst b. now apply existsb_str_eqb_In.
  - destruct (existsb (str_eqb x) [s "0"; s "f"; s "F"; s "FALSE"; s "false"; s "False"]) eqn:E2;
      [|discriminate].
    intros H. inversion H. subst b. now apply existsb_str_eqb_In.
Qed.

Lemma parse_as_range sg bits x z : parse_as sg bits x = Some z -> int_range sg bits z.
Proof. destruct sg; [apply parse_int_range|apply parse_uint_range]. Qed.

Lemma convert_typed k x v : convert k x = Some v -> typed_scalar k v /\ url_kind_ok k = true.
Proof.
  destruct (int_kind k) as [[sg bits]|] eqn:Ek.
  - rewrite (int_kind_convert k sg bits x Ek), (int_kind_typed k sg bits v Ek), (int_kind_url k sg bits Ek).
    destruct (parse_as sg bits x) as [z|] eqn:E; [|discriminate]. intros H. inversion H.
    split; [exact (parse_as_range sg bits x z E)|reflexivity].
  - destruct k; try discriminate Ek; cbn [convert]; intros H; try discriminate H.
    + destruct (parse_bool x) as [b|]; [|discriminate H]. inversion H. split; [exact I|reflexivity].
    + inversion H. split; [exact I|reflexivity].
Qed.

Lemma convert_all_none k : forall xs, convert_all k xs = None -> exists x, In x xs /\ convert k x = None.
Proof.
  induction xs as [|x xs IH]; intros H; [discriminate|]. cbn [convert_all] in H.
  destruct (convert k x) as [v|] eqn:E; [|exists x; split; [now left|exact E]].
  destruct (convert_all k xs) as [t|]; [discriminate|].
  destruct (IH eq_refl) as [y [Hy Ey]]. exists y. split; [now right|exact Ey].
Qed.

Lemma convert_all_some k : forall xs l, convert_all k xs = Some l ->
  Forall2 (fun x e => exists v, convert k x = Some v /\ e = FS v) xs l.
Proof.
  induction xs as [|x xs IH]; intros l H; cbn [convert_all] in H.
  - inversion H. constructor.
  - destruct (convert k x) as [v|] eqn:E; [|discriminate].
    destruct (convert_all k xs) as [t|]; [|discriminate]. inversion H. subst l.
    constructor; [now exists v|now apply IH].
Qed.

Lemma convert_all_complete k : forall xs, (forall x, In x xs -> convert k x <> None) ->
  convert_all k xs <> None.
Proof.
  induction xs as [|x xs IH]; intros H; cbn [convert_all]; [discriminate|].
  destruct (convert k x) as [v|] eqn:E; [|exfalso; now apply (H x (or_introl eq_refl))].
  destruct (convert_all k xs) eqn:Ea; [discriminate|]. exfalso. apply IH; [|reflexivity].
  intros y Hy. apply H. now right.
Qed.

Lemma mget_mset_scalar_other fs m f v k : k <> f_name f ->
  mget (mset_scalar fs m f v) k = mget m k.
Proof. intros Hne. rewrite mget_mset_scalar. apply str_eqb_neq in Hne. now rewrite Hne. Qed.

Lemma mset_list_mset fs m f l :
  mset_list fs m f l = mset fs m (f_name f) (match l with [] => None | _ => Some (FL l) end).
Proof. unfold mset_list. now destruct l. Qed.

Lemma mget_mset_list_other fs m f l k : k <> f_name f ->
  mget (mset_list fs m f l) k = mget m k.
Proof. intros Hne. rewrite mset_list_mset, mget_mset. apply str_eqb_neq in Hne. now rewrite Hne. Qed.

Lemma mget_mset_list_same fs m f l : l <> [] -> mget (mset_list fs m f l) (f_name f) = Some (FL l).
Proof.
  intros Hne. rewrite mset_list_mset, mget_mset, str_eqb_refl. destruct l; [congruence|reflexivity].
Qed.

Definition binding_of (b : list (str * str)) (v : str) : str :=
  match find (fun p : str * str => str_eqb (fst p) v) b with Some p => snd p | None => [] end.

Lemma bind_path_cons fs v vars b m :
  bind_path fs (v :: vars) b m =
  match find_field fs v with
  | None => bind_path fs vars b m
  | Some f =>
      if str_eqb (binding_of b v) [] then inr v else
      match convert (f_kind f) (binding_of b v) with
      | Some x => bind_path fs vars b (mset_scalar fs m f x)
      | None => inr v
      end
  end.
Proof. reflexivity. Qed.

Lemma bind_path_vals fs b : forall vars m m1, bind_path fs vars b m = inl m1 ->
  (forall k, ~ In k vars -> mget m1 k = mget m k) /\
  (forall v f, In v vars -> find_field fs v = Some f ->
     exists x, binding_of b v <> [] /\ convert (f_kind f) (binding_of b v) = Some x /\
               scalar_of m1 f = x).
Proof.
  induction vars as [|v vars IH]; intros m m1 H.
  - cbn in H. inversion H. subst. split; [reflexivity|intros v f []].
  - rewrite bind_path_cons in H. destruct (find_field fs v) as [f|] eqn:Ef.
    + destruct (str_eqb (binding_of b v) []) eqn:En; [discriminate|].
      destruct (convert (f_kind f) (binding_of b v)) as [x|] eqn:Ec; [|discriminate].
      destruct (IH _ _ H) as [K V].
      destruct (find_field_some fs v f Ef) as [_ Hname].
      split.
      * intros k Hk. rewrite K by (intros Hin; apply Hk; now right).
        apply mget_mset_scalar_other. intros ->. apply Hk. left. now symmetry.
      * intros v0 f0 Hin Hf0. destruct (in_dec str_dec v0 vars) as [Hv|Hv]; [now apply V|].
        destruct Hin as [<-|Hin]; [|contradiction]. rewrite Ef in Hf0. inversion Hf0; subst f0.
        exists x. split; [now apply str_eqb_neq|]. split; [exact Ec|].
        destruct (convert_typed _ _ _ Ec) as [Ht _].
        rewrite <- (scalar_of_mset_same fs m f x Ht). apply scalar_of_mget.
        apply K. now rewrite Hname.
    + destruct (IH _ _ H) as [K V]. split.
      * intros k Hk. apply K. intros Hin. apply Hk. now right.
      * intros v0 f0 [<-|Hin] Hf0; [congruence|now apply V].
Qed.

Lemma bind_path_reject fs b : forall vars m v, bind_path fs vars b m = inr v ->
  In v vars /\ exists f, find_field fs v = Some f /\
    (binding_of b v = [] \/ convert (f_kind f) (binding_of b v) = None).
Proof.
  induction vars as [|u vars IH]; intros m v H; [discriminate|].
  rewrite bind_path_cons in H.
  assert (Hrec : forall m', bind_path fs vars b m' = inr v ->
            In v (u :: vars) /\ exists f, find_field fs v = Some f /\
              (binding_of b v = [] \/ convert (f_kind f) (binding_of b v) = None)).
  { intros m' H'. destruct (IH _ _ H') as [A B]. split; [now right|exact B]. }
  destruct (find_field fs u) as [f|] eqn:Ef; [|exact (Hrec m H)].
  destruct (str_eqb (binding_of b u) []) eqn:En.
  - inversion H. subst v. split; [now left|]. exists f. split; [exact Ef|left]. now apply str_eqb_eq.
  - destruct (convert (f_kind f) (binding_of b u)) as [x|] eqn:Ec; [exact (Hrec _ H)|].
    inversion H. subst v. split; [now left|]. exists f. split; [exact Ef|now right].
Qed.

Lemma bind_path_complete fs b : forall vars m,
  (forall v f, In v vars -> find_field fs v = Some f ->
     binding_of b v <> [] /\ convert (f_kind f) (binding_of b v) <> None) ->
  exists m1, bind_path fs vars b m = inl m1.
Proof.
  induction vars as [|v vars IH]; intros m H; [now exists m|].
  rewrite bind_path_cons.
  assert (H' : forall v0 f, In v0 vars -> find_field fs v0 = Some f ->
            binding_of b v0 <> [] /\ convert (f_kind f) (binding_of b v0) <> None).
  { intros v0 f Hin. apply H. now right. }
  destruct (find_field fs v) as [f|] eqn:Ef; [|now apply IH].
  destruct (H v f (or_introl eq_refl) Ef) as [Hne Hc]. apply str_eqb_neq in Hne. rewrite Hne.
  destruct (convert (f_kind f) (binding_of b v)); [now apply IH|congruence].
Qed.

Definition is_repeated (f : field) : bool := match f_card f with Repeated => true | _ => false end.

Lemma bind_query_raw_cons fs f qfs q m :
  bind_query_raw fs (f :: qfs) q m =
  match query_values q (qname f) with
  | [] => if qrequired f then inr (f_name f) else bind_query_raw fs qfs q m
  | x :: xs =>
      if is_repeated f then
        match convert_all (f_kind f) (x :: xs) with
        | Some l => bind_query_raw fs qfs q (mset_list fs m f l)
        | None => inr (f_name f)
        end
      else
        match convert (f_kind f) x with
        | Some v => bind_query_raw fs qfs q (mset_scalar fs m f v)
        | None => inr (f_name f)
        end
  end.
Proof.
  cbn [bind_query_raw]. unfold is_repeated.
  destruct (query_values q (qname f)); [reflexivity|]. destruct (f_card f); reflexivity.
Qed.

Definition query_gives (q : list (str * str)) (m m2 : mval) (f : field) : Prop :=
  match query_values q (qname f) with
  | [] => qrequired f = false /\ mget m2 (f_name f) = mget m (f_name f)
  | x :: xs =>
      if is_repeated f
      then exists l, convert_all (f_kind f) (x :: xs) = Some l /\ mget m2 (f_name f) = Some (FL l)
      else exists v, convert (f_kind f) x = Some v /\ scalar_of m2 f = v
  end.

Lemma bind_query_raw_vals fs q : forall qfs m m2,
  NoDup (map f_name qfs) -> bind_query_raw fs qfs q m = inl m2 ->
  (forall k, ~ In k (map f_name qfs) -> mget m2 k = mget m k) /\
  (forall f, In f qfs -> query_gives q m m2 f).
Proof.
  induction qfs as [|f qfs IH]; intros m m2 Hnd H.
  - cbn in H. inversion H. subst. split; [reflexivity|intros f []].
  - cbn [map] in Hnd. inversion Hnd as [|? ? Hni Hnd']; subst.
    rewrite bind_query_raw_cons in H. unfold query_gives.
    destruct (query_values q (qname f)) as [|x xs] eqn:Eq.
    + destruct (qrequired f) eqn:Er; [discriminate|].
      destruct (IH _ _ Hnd' H) as [K V]. split.
      * intros k Hk. apply K. intros Hin. apply Hk. now right.
      * intros g [<-|Hg]; [|now apply V]. rewrite Eq. split; [exact Er|now apply K].
    + destruct (is_repeated f) eqn:Erep.
      * destruct (convert_all (f_kind f) (x :: xs)) as [l|] eqn:Ec; [|discriminate].
        destruct (IH _ _ Hnd' H) as [K V]. split.
        -- intros k Hk. rewrite K by (intros Hin; apply Hk; now right).
           apply mget_mset_list_other. intros ->. apply Hk. now left.
        -- intros g [<-|Hg].
           ++ rewrite Eq, Erep. exists l. split; [exact Ec|]. rewrite (K _ Hni).
              apply mget_mset_list_same. cbn [convert_all] in Ec.
              destruct (convert (f_kind f) x); [|discriminate].
              destruct (convert_all (f_kind f) xs); [|discriminate]. inversion Ec. discriminate.
           ++ pose proof (V g Hg) as G. unfold query_gives in G.
              assert (Hne : f_name g <> f_name f).
              { intros E. apply Hni. rewrite <- E. now apply in_map. }
              destruct (query_values q (qname g)); [|exact G].
              destruct G as [G1 G2]. split; [exact G1|]. rewrite G2. now apply mget_mset_list_other.
      * destruct (convert (f_kind f) x) as [v|] eqn:Ec; [|discriminate].
        destruct (IH _ _ Hnd' H) as [K V]. split.
        -- intros k Hk. rewrite K by (intros Hin; apply Hk; now right).
           apply mget_mset_scalar_other. intros ->. apply Hk. now left.
        -- intros g [<-|Hg].
           ++ rewrite Eq, Erep. exists v. split; [exact Ec|].
              destruct (convert_typed _ _ _ Ec) as [Ht _].
              rewrite <- (scalar_of_mset_same fs m f v Ht). apply scalar_of_mget. now apply K.
           ++ pose proof (V g Hg) as G. unfold query_gives in G.
              assert (Hne : f_name g <> f_name f).
              { intros E. apply Hni. rewrite <- E. now apply in_map. }
              destruct (query_values q (qname g)); [|exact G].
              destruct G as [G1 G2]. split; [exact G1|]. rewrite G2. now apply mget_mset_scalar_other.
Qed.

Lemma bind_query_raw_singular fs q qfs m m2 f x xs :
  NoDup (map f_name qfs) -> bind_query_raw fs qfs q m = inl m2 ->
  In f qfs -> is_repeated f = false -> query_values q (qname f) = x :: xs ->
  exists v, convert (f_kind f) x = Some v /\ scalar_of m2 f = v.
Proof.
  intros Hnd H Hf Hr Hq. destruct (bind_query_raw_vals fs q qfs m m2 Hnd H) as [_ V].
  specialize (V f Hf). unfold query_gives in V. now rewrite Hq, Hr in V.
Qed.

Lemma bind_query_raw_repeated fs q qfs m m2 f x xs :
  NoDup (map f_name qfs) -> bind_query_raw fs qfs q m = inl m2 ->
  In f qfs -> is_repeated f = true -> query_values q (qname f) = x :: xs ->
  exists l, convert_all (f_kind f) (x :: xs) = Some l /\ mget m2 (f_name f) = Some (FL l) /\
            Forall2 (fun y e => exists v, convert (f_kind f) y = Some v /\ e = FS v) (x :: xs) l.
Proof.
  intros Hnd H Hf Hr Hq. destruct (bind_query_raw_vals fs q qfs m m2 Hnd H) as [_ V].
  specialize (V f Hf). unfold query_gives in V. rewrite Hq, Hr in V. destruct V as [l [Hc Hm]].
  exists l. repeat split; [exact Hc|exact Hm|now apply convert_all_some].
Qed.

Lemma bind_query_raw_keeps fs q qfs m m2 g :
  NoDup (map f_name qfs) -> bind_query_raw fs qfs q m = inl m2 ->
  ~ In (f_name g) (map f_name qfs) -> scalar_of m2 g = scalar_of m g.
Proof.
  intros Hnd H Hni. destruct (bind_query_raw_vals fs q qfs m m2 Hnd H) as [K _].
  apply scalar_of_mget. now apply K.
Qed.

Definition query_fails (q : list (str * str)) (f : field) : Prop :=
  match query_values q (qname f) with
  | [] => qrequired f = true
  | x :: xs => if is_repeated f then exists y, In y (x :: xs) /\ convert (f_kind f) y = None
               else convert (f_kind f) x = None
  end.

Lemma bind_query_raw_reject fs q : forall qfs m n, bind_query_raw fs qfs q m = inr n ->
  exists f, In f qfs /\ f_name f = n /\ query_fails q f.
Proof.
  induction qfs as [|f qfs IH]; intros m n H; [discriminate|].
  rewrite bind_query_raw_cons in H.
  assert (Hrec : forall m', bind_query_raw fs qfs q m' = inr n ->
            exists g, In g (f :: qfs) /\ f_name g = n /\ query_fails q g).
  { intros m' H'. destruct (IH _ _ H') as [g [A B]]. exists g. split; [now right|exact B]. }
  assert (Hhere : query_fails q f -> inr (f_name f) = @inr mval str n ->
            exists g, In g (f :: qfs) /\ f_name g = n /\ query_fails q g).
  { intros Hq E. inversion E. exists f. repeat split; [now left|exact Hq]. }
  unfold query_fails in Hhere.
  destruct (query_values q (qname f)) as [|x xs].
  - destruct (qrequired f); [now apply Hhere|exact (Hrec m H)].
  - destruct (is_repeated f).
    + destruct (convert_all (f_kind f) (x :: xs)) as [l|] eqn:Ec; [exact (Hrec _ H)|].
      apply Hhere; [|exact H]. now apply convert_all_none.
    + destruct (convert (f_kind f) x) as [v|] eqn:Ec; [exact (Hrec _ H)|]. now apply Hhere.
Qed.

Lemma bind_query_raw_complete fs q : forall qfs m,
  (forall f, In f qfs -> ~ query_fails q f) -> exists m2, bind_query_raw fs qfs q m = inl m2.
Proof.
  induction qfs as [|f qfs IH]; intros m H; [now exists m|].
  rewrite bind_query_raw_cons.
  assert (H' : forall g, In g qfs -> ~ query_fails q g) by (intros g Hg; apply H; now right).
  pose proof (H f (or_introl eq_refl)) as Hf. unfold query_fails in Hf.
  destruct (query_values q (qname f)) as [|x xs].
  - destruct (qrequired f); [now contradiction Hf|now apply IH].
  - destruct (is_repeated f).
    + destruct (convert_all (f_kind f) (x :: xs)) as [l|] eqn:Ec; [now apply IH|].
      exfalso. apply Hf. now apply convert_all_none.
    + destruct (convert (f_kind f) x); [now apply IH|now contradiction Hf].
Qed.

Definition routed (rs : list sroute) (rq : raw_req) (p : str) (r : sroute) (b : list (str * str)) : Prop :=
  rq_path rq = slash :: p /\ path_unescape (rq_path rq) <> None /\
  clean_segs (split_on slash p) = true /\
  find_route rs (rq_verb rq) (split_on slash p) = Some (r, b) /\ raw_modelled r = true.

Definition raw_start (r : sroute) (rq : raw_req) : mval + str :=
  body_start (rt_body (sr_route r)) (rq_ct rq) (rq_body rq).

Lemma raw_handle_routed rs rq p r b : routed rs rq p r b ->
  raw_handle rs rq =
  match raw_start r rq with
  | inr f => Ok (RRejected f)
  | inl m0 =>
      match bind_path (sr_fields r) (rt_pathvars (sr_route r)) b m0 with
      | inr f => Ok (RRejected f)
      | inl m1 =>
          match bind_query_raw (sr_fields r) (query_fields (sr_fields r)) (parse_query (rq_query rq)) m1 with
          | inr f => Ok (RRejected f)
          | inl m2 => Ok (RDispatched (md_name (sr_md r)) m2)
          end
      end
  end.
Proof.
  intros [Hp [Hu [Hc [Hf Hm]]]]. unfold raw_handle, raw_start.
  (* the message of the unmodelled case gets a name: the steps that follow need not carry its text *)
  set (msg := s _). clearbody msg.
  rewrite Hp in *. cbv beta iota zeta.
  rewrite Ascii.eqb_refl. cbn [negb].
  destruct (path_unescape (slash :: p)); [|congruence].
  rewrite Hc. cbn [negb]. rewrite Hf, Hm. reflexivity.
Qed.

Lemma raw_handle_inv rs rq o : raw_handle rs rq = Ok o -> o <> RNotRouted ->
  exists p r b, routed rs rq p r b.
Proof.
  unfold raw_handle, routed. set (msg := s _). clearbody msg.
  destruct (rq_path rq) as [|c p] eqn:Hp; [intros H; inversion H; congruence|].
  cbv beta iota zeta.
  destruct (Ascii.eqb c slash) eqn:Ec; cbn [negb]; [|intros H; inversion H; congruence].
  apply Ascii.eqb_eq in Ec. subst c.
  destruct (path_unescape (slash :: p)) eqn:Eu; [|intros H; inversion H; congruence].
  destruct (clean_segs (split_on slash p)) eqn:Ecl; cbn [negb]; [|intros H; inversion H; congruence].
  destruct (find_route rs (rq_verb rq) (split_on slash p)) as [[r b]|] eqn:Ef;
    [|intros H; inversion H; congruence].
  destruct (raw_modelled r) eqn:Em; cbn [negb]; [|discriminate].
  intros _ _. exists p, r, b. repeat split; try assumption; try reflexivity. discriminate.
Qed.

Lemma body_start_inr has_body ct body f : body_start has_body ct body = inr f ->
  f = s "body" /\ has_body = true /\ exists g v, body = Some (g, v) /\ bfmt_eqb g (server_fmt ct) = false.
Proof.
  unfold body_start. destruct has_body; [|discriminate]. destruct body as [[g v]|]; [|discriminate].
  destruct (bfmt_eqb g (server_fmt ct)) eqn:E; [discriminate|]. intros H. inversion H.
  repeat split. now exists g, v.
Qed.

Definition url_converts (r : sroute) (b : list (str * str)) (q : list (str * str)) : Prop :=
  (forall v f, In v (rt_pathvars (sr_route r)) -> find_field (sr_fields r) v = Some f ->
     binding_of b v <> [] /\ convert (f_kind f) (binding_of b v) <> None) /\
  (forall f, In f (query_fields (sr_fields r)) -> ~ query_fails q f).

Lemma raw_handle_url_ok rs rq p r b : routed rs rq p r b ->
  url_converts r b (parse_query (rq_query rq)) ->
  (exists saw, raw_handle rs rq = Ok (RDispatched (md_name (sr_md r)) saw)) \/
  raw_handle rs rq = Ok (RRejected (s "body")).
Proof.
  intros Hr [Hp Hq]. rewrite (raw_handle_routed rs rq p r b Hr).
  destruct (raw_start r rq) as [m0|f] eqn:E0.
  - left. destruct (bind_path_complete _ b _ m0 Hp) as [m1 ->].
    destruct (bind_query_raw_complete (sr_fields r) _ _ m1 Hq) as [m2 ->]. now eexists.
  - right. apply body_start_inr in E0 as [-> _]. reflexivity.
Qed.

Lemma raw_handle_rejected_inv rs rq n : raw_handle rs rq = Ok (RRejected n) ->
  exists p r b, routed rs rq p r b /\
    ((n = s "body" /\ rt_body (sr_route r) = true /\
      exists f v, rq_body rq = Some (f, v) /\ bfmt_eqb f (server_fmt (rq_ct rq)) = false) \/
     (exists m0, raw_start r rq = inl m0 /\
        ((In n (rt_pathvars (sr_route r)) /\ exists f, find_field (sr_fields r) n = Some f /\
            (binding_of b n = [] \/ convert (f_kind f) (binding_of b n) = None)) \/
         (exists f, In f (query_fields (sr_fields r)) /\ f_name f = n /\
            query_fails (parse_query (rq_query rq)) f)))).
Proof.
  intros H. destruct (raw_handle_inv rs rq _ H) as [p [r [b Hr]]]; [discriminate|].
  exists p, r, b. split; [exact Hr|]. rewrite (raw_handle_routed rs rq p r b Hr) in H.
  destruct (raw_start r rq) as [m0|f] eqn:E0.
  - right. exists m0. split; [reflexivity|].
    destruct (bind_path (sr_fields r) (rt_pathvars (sr_route r)) b m0) as [m1|v] eqn:E1.
    + destruct (bind_query_raw (sr_fields r) (query_fields (sr_fields r)) (parse_query (rq_query rq)) m1)
        as [m2|v] eqn:E2; [discriminate|].
      right. inversion H. subst v. now apply (bind_query_raw_reject _ _ _ _ _ E2).
    + left. inversion H. subst v. now apply (bind_path_reject _ _ _ _ _ E1).
  - left. inversion H. subst f. now apply body_start_inr in E0.
Qed.

Lemma url_wins rs rq n saw c p r b :
  raw_handle rs rq = Ok (RDispatched n saw) ->
  rq_path rq = c :: p ->
  find_route rs (rq_verb rq) (split_on slash p) = Some (r, b) ->
  n = md_name (sr_md r) /\
  exists m0 m1,
    raw_start r rq = inl m0 /\
    bind_path (sr_fields r) (rt_pathvars (sr_route r)) b m0 = inl m1 /\
    bind_query_raw (sr_fields r) (query_fields (sr_fields r)) (parse_query (rq_query rq)) m1 = inl saw.
Proof.
  intros H Hp Hf.
  unfold raw_handle in H. set (msg := s _) in H. clearbody msg. rewrite Hp in *. cbv beta iota zeta in H.
  destruct (negb (Ascii.eqb c slash)); [discriminate|].
  destruct (path_unescape (c :: p)); [|discriminate].
  destruct (negb (clean_segs (split_on slash p))); [discriminate|].
  rewrite Hf in *. destruct (negb (raw_modelled r)); [discriminate|].
  change (body_start (rt_body (sr_route r)) (rq_ct rq) (rq_body rq)) with (raw_start r rq) in H.
  destruct (raw_start r rq) as [m0|f] eqn:E0; [|discriminate].
  destruct (bind_path (sr_fields r) (rt_pathvars (sr_route r)) b m0) as [m1|f] eqn:E1; [|discriminate].
  destruct (bind_query_raw (sr_fields r) (query_fields (sr_fields r)) (parse_query (rq_query rq)) m1)
    as [m2|f] eqn:E2; [|discriminate].
  inversion H; subst. split; [reflexivity|]. exists m0, m1. repeat split; assumption.
Qed.

Lemma raw_start_inl r rq m0 : raw_start r rq = inl m0 ->
  m0 = (if rt_body (sr_route r) then match rq_body rq with Some (_, v) => v | None => [] end else []).
Proof.
  unfold raw_start, body_start. destruct (rt_body (sr_route r)); [|intros H; now inversion H].
  destruct (rq_body rq) as [[f v]|]; [|intros H; now inversion H].
  destruct (bfmt_eqb f (server_fmt (rq_ct rq))); [intros H; now inversion H|discriminate].
Qed.

Lemma handler_sees_path_value rs rq n saw c p r b v f :
  raw_handle rs rq = Ok (RDispatched n saw) ->
  rq_path rq = c :: p ->
  find_route rs (rq_verb rq) (split_on slash p) = Some (r, b) ->
  NoDup (map f_name (query_fields (sr_fields r))) ->
  In v (rt_pathvars (sr_route r)) -> find_field (sr_fields r) v = Some f ->
  ~ In v (map f_name (query_fields (sr_fields r))) ->
  exists x, convert (f_kind f) (binding_of b v) = Some x /\ scalar_of saw f = x.
Proof.
  intros H Hp Hf Hnd Hv Hfd Hnq.
  destruct (url_wins rs rq n saw c p r b H Hp Hf) as [_ [m0 [m1 [_ [H1 H2]]]]].
  destruct (bind_path_vals _ b _ _ _ H1) as [_ V]. destruct (V v f Hv Hfd) as [x [_ [Hc Hx]]].
  destruct (find_field_some _ _ _ Hfd) as [_ Hname].
  exists x. split; [exact Hc|]. rewrite <- Hx.
  apply (bind_query_raw_keeps _ _ _ _ _ f Hnd H2). now rewrite Hname.
Qed.

Lemma handler_sees_query_value rs rq n saw c p r b f x xs :
  raw_handle rs rq = Ok (RDispatched n saw) ->
  rq_path rq = c :: p ->
  find_route rs (rq_verb rq) (split_on slash p) = Some (r, b) ->
  NoDup (map f_name (query_fields (sr_fields r))) ->
  In f (query_fields (sr_fields r)) -> is_repeated f = false ->
  query_values (parse_query (rq_query rq)) (qname f) = x :: xs ->
  exists y, convert (f_kind f) x = Some y /\ scalar_of saw f = y.
Proof.
  intros H Hp Hf Hnd Hin Hr Hq.
  destruct (url_wins rs rq n saw c p r b H Hp Hf) as [_ [m0 [m1 [_ [_ H2]]]]].
  exact (bind_query_raw_singular _ _ _ _ _ f x xs Hnd H2 Hin Hr Hq).
Qed.

Lemma handler_sees_query_list rs rq n saw c p r b f x xs :
  raw_handle rs rq = Ok (RDispatched n saw) ->
  rq_path rq = c :: p ->
  find_route rs (rq_verb rq) (split_on slash p) = Some (r, b) ->
  NoDup (map f_name (query_fields (sr_fields r))) ->
  In f (query_fields (sr_fields r)) -> is_repeated f = true ->
  query_values (parse_query (rq_query rq)) (qname f) = x :: xs ->
  exists l, convert_all (f_kind f) (x :: xs) = Some l /\ mget saw (f_name f) = Some (FL l).
Proof.
  intros H Hp Hf Hnd Hin Hr Hq.
  destruct (url_wins rs rq n saw c p r b H Hp Hf) as [_ [m0 [m1 [_ [_ H2]]]]].
  destruct (bind_query_raw_repeated _ _ _ _ _ f x xs Hnd H2 Hin Hr Hq) as [l [Hc [Hm _]]].
  now exists l.
Qed.

Lemma handler_sees_body_elsewhere rs rq n saw c p r b :
  raw_handle rs rq = Ok (RDispatched n saw) ->
  rq_path rq = c :: p ->
  find_route rs (rq_verb rq) (split_on slash p) = Some (r, b) ->
  NoDup (map f_name (query_fields (sr_fields r))) ->
  exists m0, raw_start r rq = inl m0 /\
    (forall k, ~ In k (rt_pathvars (sr_route r)) -> ~ In k (map f_name (query_fields (sr_fields r))) ->
       mget saw k = mget m0 k) /\
    (forall f, In f (query_fields (sr_fields r)) -> ~ In (f_name f) (rt_pathvars (sr_route r)) ->
       query_values (parse_query (rq_query rq)) (qname f) = [] -> mget saw (f_name f) = mget m0 (f_name f)).
Proof.
  intros H Hp Hf Hnd.
  destruct (url_wins rs rq n saw c p r b H Hp Hf) as [_ [m0 [m1 [H0 [H1 H2]]]]].
  exists m0. split; [exact H0|].
  destruct (bind_path_vals _ b _ _ _ H1) as [K1 _].
  destruct (bind_query_raw_vals _ _ _ _ _ Hnd H2) as [K2 V2]. split.
  - intros k Hk1 Hk2. now rewrite (K2 k Hk2), (K1 k Hk1).
  - intros f Hin Hnp Hq. pose proof (V2 f Hin) as G. unfold query_gives in G. rewrite Hq in G.
    destruct G as [_ G]. now rewrite G, (K1 _ Hnp).
Qed.
