(* CodecTextFacts.v — base64 (standard or URL alphabet, padded or not), hex and decimal text:
   decode (encode x) = x for all byte lists / integers.  What is needed of the characters of the two base64 alphabets is checked once, on the 64 sextets. *)
From Sebuf Require Import CodecText.
From SebufProofs Require Import TextFacts.
From Coq Require Import DecimalString DecimalN DecimalZ.


Definition all_sext (p : sext -> bool) : bool :=
  all_bool (fun a => all_bool (fun b => all_bool (fun c => all_bool (fun d => all_bool (fun e => all_bool (fun f =>
    p (a, b, c, d, e, f))))))).
Lemma all_sext_spec p : all_sext p = true -> forall x, p x = true.
Proof.
  intros H [[[[[a b] c] d] e] f].
  exact (all_bool_spec _ (all_bool_spec _ (all_bool_spec _ (all_bool_spec _ (all_bool_spec _ (all_bool_spec _ H a) b) c) d) e) f).
Qed.

Definition sext_eqb (x y : sext) : bool :=
  let '(a, b, c, d, e, f) := x in
  let '(a', b', c', d', e', f') := y in
  Bool.eqb a a' && Bool.eqb b b' && Bool.eqb c c' && Bool.eqb d d' && Bool.eqb e e' && Bool.eqb f f'.
Lemma sext_eqb_eq x y : sext_eqb x y = true -> x = y.
Proof.
  destruct x as [[[[[a b] c] d] e] f], y as [[[[[a' b'] c'] d'] e'] f']. cbn [sext_eqb].
  rewrite !Bool.andb_true_iff. intros [[[[[Ha Hb] Hc] Hd] He] Hf].
  apply Bool.eqb_prop in Ha, Hb, Hc, Hd, He, Hf. subst. reflexivity.
Qed.

Definition ncrlf (c : ascii) : bool := negb ((code c =? 10)%N || (code c =? 13)%N).
(* not one of the two characters that only the URL alphabet has *)
Definition std_only (c : ascii) : bool := negb (Ascii.eqb c "-"%char || Ascii.eqb c "_"%char).

(* what the proofs need of the character of a sextet: it decodes to the sextet, is not the padding character,
   is not CR / LF, and in the standard alphabet is not "-" or "_" *)
Definition b64_char_ok (url : bool) (x : sext) : bool :=
  let c := b64_char url x in
  match b64_val url c with Some y => sext_eqb y x | None => false end &&
  negb (Ascii.eqb c padc) && ncrlf c && (url || std_only c).
Lemma b64_alphabets : all_bool (fun url => all_sext (b64_char_ok url)) = true.
Proof. vm_compute. reflexivity. Qed.
Lemma b64_char_ok_all url x :
  b64_val url (b64_char url x) = Some x /\ Ascii.eqb (b64_char url x) padc = false /\
  ncrlf (b64_char url x) = true /\ (url || std_only (b64_char url x))%bool = true.
Proof.
  pose proof (all_sext_spec _ (all_bool_spec _ b64_alphabets url) x) as H. unfold b64_char_ok in H.
  apply andb_prop in H. destruct H as [H H4]. apply andb_prop in H. destruct H as [H H3].
  apply andb_prop in H. destruct H as [H1 H2]. apply Bool.negb_true_iff in H2.
  split; [|auto]. destruct (b64_val url (b64_char url x)) as [y|]; [|discriminate H1].
  rewrite (sext_eqb_eq y x H1). reflexivity.
Qed.

Lemma b64_val_char : forall url x, b64_val url (b64_char url x) = Some x.
Proof. intros url x. apply b64_char_ok_all. Qed.
Lemma b64_char_not_pad : forall url x, Ascii.eqb (b64_char url x) padc = false.
Proof. intros url x. apply b64_char_ok_all. Qed.
Lemma b64_char_ncrlf url x : ncrlf (b64_char url x) = true.
Proof. apply b64_char_ok_all. Qed.
Lemma b64_char_std x : std_only (b64_char false x) = true.
Proof. apply (b64_char_ok_all false x). Qed.

Lemma list_ind3 (A : Type) (P : list A -> Prop) :
  P [] -> (forall a, P [a]) -> (forall a b, P [a; b]) ->
  (forall a b c r, P r -> P (a :: b :: c :: r)) -> forall l, P l.
Proof.
  intros H0 H1 H2 H3.
  assert (H : forall l, P l /\ (forall a, P (a :: l)) /\ (forall a b, P (a :: b :: l))).
  { induction l as [|x l [IH0 [IH1 IH2]]].
    - split; [exact H0|]. split; [exact H1|exact H2].
    - split; [apply IH1|]. split; [intro a; apply IH2|]. intros a b. apply H3. exact IH0. }
  intro l. apply H.
Qed.

(* a property of every alphabet character and of the padding holds of every character of an encoded text *)
Lemma b64_enc_forallb (P : ascii -> bool) url pad x :
  (forall y, P (b64_char url y) = true) -> P padc = true -> forallb P (b64_enc url pad x) = true.
Proof.
  intros Hc Hp. induction x as [|a|a b|a b c r IH] using list_ind3.
  - reflexivity.
  - destruct a. destruct pad; cbn [b64_enc enc1 app forallb]; rewrite ?Hc, ?Hp; reflexivity.
  - destruct a, b. destruct pad; cbn [b64_enc enc2 app forallb]; rewrite ?Hc, ?Hp; reflexivity.
  - change (b64_enc url pad (a :: b :: c :: r)) with (enc3 url a b c ++ b64_enc url pad r).
    rewrite forallb_app, IH. destruct a, b, c. cbn [enc3 forallb]. rewrite !Hc. reflexivity.
Qed.

Lemma dec4_enc3 url a b c :
  match enc3 url a b c with
  | [c1; c2; c3; c4] => vals4 url c1 c2 c3 c4 = Some [a; b; c]
  | _ => False
  end.
Proof.
  destruct a as [a0 a1 a2 a3 a4 a5 a6 a7], b as [b0 b1 b2 b3 b4 b5 b6 b7], c as [c0 c1 c2 c3 c4 c5 c6 c7].
  unfold enc3, vals4. rewrite !b64_val_char. reflexivity.
Qed.

Lemma enc3_shape url a b c : exists c1 c2 c3 c4,
  enc3 url a b c = [c1; c2; c3; c4] /\ vals4 url c1 c2 c3 c4 = Some [a; b; c] /\ Ascii.eqb c4 padc = false.
Proof.
  destruct a as [a0 a1 a2 a3 a4 a5 a6 a7], b as [b0 b1 b2 b3 b4 b5 b6 b7], c as [c0 c1 c2 c3 c4 c5 c6 c7].
  unfold enc3. do 4 eexists. split; [reflexivity|]. split.
  - unfold vals4. rewrite !b64_val_char. reflexivity.
  - apply b64_char_not_pad.
Qed.

Lemma b64_enc_nil_inv url pad x : b64_enc url pad x = [] -> x = [].
Proof.
  destruct x as [|a [|b [|c r]]]; auto.
  - destruct a; simpl; discriminate.
  - destruct a, b; simpl; discriminate.
  - destruct a, b, c; simpl; discriminate.
Qed.

Theorem b64_roundtrip : forall url pad x, b64_dec url pad (b64_enc url pad x) = Some x.
Proof.
  intros url pad x. induction x as [|a|a b|a b c r IH] using list_ind3.
  - reflexivity.
  - destruct a as [a0 a1 a2 a3 a4 a5 a6 a7]. destruct pad; simpl.
    + unfold vals2. rewrite !b64_val_char. reflexivity.
    + unfold vals2. rewrite !b64_val_char. reflexivity.
  - destruct a as [a0 a1 a2 a3 a4 a5 a6 a7], b as [b0 b1 b2 b3 b4 b5 b6 b7]. destruct pad; simpl.
    + rewrite b64_char_not_pad. unfold vals3. rewrite !b64_val_char. reflexivity.
    + unfold vals3. rewrite !b64_val_char. reflexivity.
  - destruct (enc3_shape url a b c) as [c1 [c2 [c3 [c4 [He [Hv Hp]]]]]].
    change (b64_enc url pad (a :: b :: c :: r)) with (enc3 url a b c ++ b64_enc url pad r).
    rewrite He. simpl app.
    destruct (b64_enc url pad r) as [|y t] eqn:Er.
    + apply b64_enc_nil_inv in Er. subst r.
      simpl. rewrite Hp, Bool.andb_false_r. rewrite Hv. reflexivity.
    + change (b64_dec url pad (c1 :: c2 :: c3 :: c4 :: y :: t))
        with (match vals4 url c1 c2 c3 c4, b64_dec url pad (y :: t) with
              | Some h, Some t' => Some (h ++ t') | _, _ => None end).
      rewrite Hv, IH. reflexivity.
Qed.

Lemma hex_val_char : forall x, hex_val (hex_char x) = Some x.
Proof. intros [[[a b] c] d]. destruct a, b, c, d; reflexivity. Qed.
Lemma hex_char_ncrlf x : ncrlf (hex_char x) = true.
Proof. destruct x as [[[a b] c] d]. destruct a, b, c, d; reflexivity. Qed.

Theorem hex_roundtrip : forall x, hex_dec (hex_enc x) = Some x.
Proof.
  induction x as [|[b0 b1 b2 b3 b4 b5 b6 b7] r IH]; [reflexivity|].
  simpl hex_enc.
  change (hex_dec (hex_char (b7, b6, b5, b4) :: hex_char (b3, b2, b1, b0) :: hex_enc r))
    with (match hex_val (hex_char (b7, b6, b5, b4)), hex_val (hex_char (b3, b2, b1, b0)), hex_dec (hex_enc r) with
          | Some (b7, b6, b5, b4), Some (b3, b2, b1, b0), Some t => Some (Ascii b0 b1 b2 b3 b4 b5 b6 b7 :: t)
          | _, _, _ => None end).
  rewrite !hex_val_char, IH. reflexivity.
Qed.

Lemma show_N_parse n : dec_parse_N (show_N n) = Some n.
Proof.
  unfold dec_parse_N, show_N.
  rewrite string_of_list_ascii_of_string, NilEmpty.usu. simpl.
  rewrite DecimalN.Unsigned.of_to. reflexivity.
Qed.

Lemma show_N_head_not_minus n : match show_N n with c :: _ => Ascii.eqb c "-"%char = false | [] => True end.
Proof.
  unfold show_N. destruct (N.to_uint n); simpl; auto.
Qed.

Theorem decimal_roundtrip : forall z, Z_of_dec (show_Z z) = Some z.
Proof.
  intros z. unfold Z_of_dec.
  assert (H : match show_Z z with
              | c :: t => if Ascii.eqb c "-"%char then option_map (fun n => (- Z.of_N n)%Z) (dec_parse_N t)
                          else option_map Z.of_N (dec_parse_N (show_Z z))
              | [] => None end = Some z).
  { destruct z as [|p|p].
    - reflexivity.
    - change (show_Z (Z.pos p)) with (show_N (N.pos p)).
      pose proof (show_N_head_not_minus (N.pos p)) as Hh.
      pose proof (show_N_parse (N.pos p)) as Hp.
      destruct (show_N (N.pos p)) as [|c t].
      + discriminate.
      + rewrite Hh, Hp. reflexivity.
    - change (show_Z (Z.neg p)) with ("-"%char :: show_N (N.pos p)).
      cbv beta iota. change (Ascii.eqb "-"%char "-"%char) with true. cbv iota.
      rewrite show_N_parse. reflexivity. }
  rewrite H. rewrite str_eqb_refl. reflexivity.
Qed.
