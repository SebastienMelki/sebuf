(* FilesFacts.v — the statements of C12 (with "no files on refusal") and C14 over Validate.v / Files.v. *)
From Sebuf Require Import Text Schema Validate Files.
From SebufProofs Require Import TextFacts ListFacts ValidateFacts.
Open Scope string_scope.
Open Scope list_scope.

Lemma flat_map_filter_nil {A B} (g : A -> list B) (p : A -> bool) l : flat_map g l = [] -> flat_map g (filter p l) = [].
Proof.
  intros H. rewrite flat_map_nil in H. apply flat_map_nil. intros x Hx. apply filter_In in Hx as [Hx _]. auto.
Qed.

Lemma broken_rules_nil_generated sc : broken_rules sc = [] -> broken_generated sc = [].
Proof. apply flat_map_filter_nil. Qed.

Lemma C12_sound_lemma : forall sc mock, dom_C12 sc = true -> defects_C12 sc = [] -> broken_generated sc <> [] ->
  exists e, go_http_accepts sc = Some e /\ named_violation (broken_generated sc) e /\ emitted_go_http mock sc = [].
Proof.
  intros sc mock D H B. destruct (go_http_accepts sc) as [e|] eqn:A.
  - exists e. repeat split; [now apply go_http_some_named|]. unfold emitted_go_http. now rewrite A.
  - exfalso. apply B. now apply go_http_none_no_violation.
Qed.

Lemma C12_sound_client_lemma : forall sc, dom_C12 sc = true -> defects_C12 sc = [] ->
  (exists v, In v (broken_generated sc) /\ client_rule (v_rule v) = true) ->
  exists e, go_client_accepts sc = Some e /\ named_violation (broken_generated sc) e /\ emitted_go_client sc = [].
Proof.
  intros sc D H (v & Hv & C). destruct (go_client_accepts sc) as [e|] eqn:A.
  - exists e. repeat split; [now apply go_client_some_named|]. unfold emitted_go_client. now rewrite A.
  - exfalso. rewrite (go_client_none_only_other_rules sc D H A v Hv) in C. discriminate.
Qed.

Lemma C12_complete_lemma : forall sc, dom_C12 sc = true -> defects_C12 sc = [] -> broken_rules sc = [] ->
  go_http_accepts sc = None /\ go_client_accepts sc = None /\ ts_server_accepts sc = None /\
  ts_client_accepts sc = None /\ openapi_accepts sc = None.
Proof.
  intros sc D H B. apply broken_rules_nil_generated in B.
  assert (forall e, ~ named_violation (broken_generated sc) e) as N by (intros e (v & Hv & _); now rewrite B in Hv).
  repeat split.
  - destruct (go_http_accepts sc) as [e|] eqn:A; [|reflexivity]. exfalso. apply (N e). now apply go_http_some_named.
  - destruct (go_client_accepts sc) as [e|] eqn:A; [|reflexivity]. exfalso. apply (N e). now apply go_client_some_named.
  - destruct (ts_server_accepts sc) as [e|] eqn:A; [|reflexivity]. exfalso. apply (N e). now apply ts_server_some_named.
Qed.

(* placement: any generated file (with or without services), any message of it (at any nesting depth:
   m_path is arbitrary) *)
Lemma C12_any_placement_lemma : forall sc f m, dom_C12 sc = true -> defects_C12 sc = [] ->
  In f sc -> fl_generate f = true -> In m (fl_messages f) -> message_violations sc m <> [] ->
  exists e, go_http_accepts sc = Some e /\ named_violation (broken_generated sc) e.
Proof.
  intros sc f m D H Hf G Hm V.
  destruct (C12_sound_lemma sc false D H) as (e & A & N & _).
  - intros B. apply V. destruct (message_violations sc m) as [|v l] eqn:E; [reflexivity|].
    assert (In v (broken_generated sc)) as I.
    { apply in_broken_msg with (f := f) (m := m); [apply filter_In; auto|exact Hm|rewrite E; now left]. }
    rewrite B in I. contradiction.
  - now exists e.
Qed.

Definition fld (n : string) (num : Z) (k : kind) (c : card) : field :=
  {| f_name := s n; f_number := num; f_kind := k; f_card := c; f_oneof := None; f_query := None; f_unwrap := false;
     f_int64 := None; f_enumenc := None; f_nullable := None; f_empty := None; f_tsfmt := None; f_bytesenc := None;
     f_oneof_value := None; f_flatten := None; f_flatten_prefix := None |}.
Definition annot (f : field) (o : option str) (q : option query_cfg) (u : bool) (i : option int64_enc) (ee : option enum_enc)
  (nu : option bool) (fl : option bool) : field :=
  {| f_name := f_name f; f_number := f_number f; f_kind := f_kind f; f_card := f_card f; f_oneof := o; f_query := q; f_unwrap := u;
     f_int64 := i; f_enumenc := ee; f_nullable := nu; f_empty := f_empty f; f_tsfmt := f_tsfmt f; f_bytesenc := f_bytesenc f;
     f_oneof_value := None; f_flatten := fl; f_flatten_prefix := None |}.
Definition with_flatten f := annot f None None false None None None (Some true).
Definition with_nullable f := annot f None None false None None (Some true) None.
Definition with_i64num f := annot f None None false (Some I64Number) None None None.
Definition with_enumnum f := annot f None None false None (Some EENumber) None None.
Definition with_unwrap f := annot f None None true None None None None.
Definition in_oneof_named (o : string) f := annot f (Some (s o)) None false None None None None.
Definition with_query (q : string) f := annot f None (Some {| q_name := s q; q_required := false |}) false None None None None.
Definition with_tsfmt (t : ts_fmt) (f : field) : field :=
  {| f_name := f_name f; f_number := f_number f; f_kind := f_kind f; f_card := f_card f; f_oneof := f_oneof f; f_query := f_query f;
     f_unwrap := f_unwrap f; f_int64 := f_int64 f; f_enumenc := f_enumenc f; f_nullable := f_nullable f; f_empty := f_empty f;
     f_tsfmt := Some t; f_bytesenc := f_bytesenc f; f_oneof_value := f_oneof_value f; f_flatten := f_flatten f; f_flatten_prefix := f_flatten_prefix f |}.

Definition msg (path : list string) (fs : list field) (os : list oneof) : message :=
  {| m_name := s "p." ++ join_with (s ".") (map s path); m_path := map s path; m_fields := fs; m_oneofs := os |}.
Definition rpc (n inp : string) (v : nat) (path : string) : method :=
  {| md_name := s n; md_in := s inp; md_out := s "p.Res"; md_has_cfg := true; md_path := s path; md_verb := Some v; md_headers := [] |}.
Definition svc (ms : list method) : service := {| sv_name := s "Api"; sv_base := s "/api"; sv_headers := []; sv_methods := ms |}.
Definition pfile (path : string) (gen : bool) (ms : list message) (es : list enum) (ss : list service) : file :=
  {| fl_path := s path; fl_package := s "p"; fl_gopkg := s "p"; fl_generate := gen; fl_messages := ms; fl_enums := es; fl_services := ss |}.
Definition res_msg := msg ["Res"] [fld "ok" 1 KBool Singular] [].
Definition addr_msg := msg ["Addr"] [fld "street" 1 KString Singular; fld "zip_code" 2 KString Singular] [].
Definition status_enum : enum :=
  {| e_name := s "p.Status"; e_values := [ {| ev_name := s "STATUS_UNSPECIFIED"; ev_number := 0; ev_custom := None |};
                                          {| ev_name := s "STATUS_ACTIVE"; ev_number := 1; ev_custom := Some (s "active") |} ] |}.
Definition ping := rpc "Ping" "p.Res" 2 "/ping".

(* message Req { repeated string id = 1; }  rpc Get(Req) GET /x/{id} *)
Definition w_repeated_pathvar : schema :=
  [pfile "a.proto" true [res_msg; msg ["Req"] [fld "id" 1 KString Repeated] []] [] [svc [ping; rpc "Get" "p.Req" 1 "/x/{id}"]]].

(* message M { map<string, Status> by_key = 1 [enum_encoding = NUMBER]; }  Status has a custom value *)
Definition w_enum_map : schema :=
  [pfile "a.proto" true [res_msg; msg ["M"] [with_enumnum (fld "by_key" 1 (KEnum (s "p.Status")) (MapOf KString))] []] [status_enum] [svc [ping]]].

(* lib.proto (imported, not generated): message Bad { string nick = 1 [nullable = true]; } *)
Definition w_imported : schema :=
  [pfile "lib.proto" false [msg ["Bad"] [with_nullable (fld "nick" 1 KString Singular)] []] [] [];
   pfile "a.proto" true [res_msg] [] [svc [ping; rpc "Use" "p.Bad" 2 "/use"]]].

(* message M { optional string nick = 1 [nullable = true]; Addr home = 2 [flatten = true]; } *)
Definition w_flatten_conflict : schema :=
  [pfile "a.proto" true [res_msg; addr_msg;
      msg ["M"] [with_nullable (fld "nick" 1 KString Optional); with_flatten (fld "home" 2 (KMessage (s "p.Addr")) Singular)] []] [] [svc [ping]]].

(* message M { int64 big = 1 [int64_encoding = NUMBER]; oneof payload { option oneof_config = {discriminator: "kind"}; Addr text = 2; } } *)
Definition w_oneof_conflict : schema :=
  [pfile "a.proto" true [res_msg; addr_msg;
      msg ["M"] [with_i64num (fld "big" 1 KInt64 Singular); in_oneof_named "payload" (fld "text" 2 (KMessage (s "p.Addr")) Singular)]
          [{| o_name := s "payload"; o_has_cfg := true; o_discriminator := s "kind"; o_flatten := false |}]] [] [svc [ping]]].

(* message M { optional Addr home = 1 [flatten = true]; } *)
Definition w_flatten_optional : schema :=
  [pfile "a.proto" true [res_msg; addr_msg; msg ["M"] [with_flatten (fld "home" 1 (KMessage (s "p.Addr")) Optional)] []] [] [svc [ping]]].

(* non-vacuity: a valid schema with nested, repeated, map, oneof and annotated fields in two generated files
   (one without services) is accepted; breaking one rule inside the nested message of the service-less file
   makes both Go plugins refuse, naming the field *)
Definition nv_types (bad : bool) : file :=
  pfile "types.proto" true
    [addr_msg;
     msg ["Person"] [fld "id" 1 KString Singular; with_flatten (fld "home" 2 (KMessage (s "p.Addr")) Singular);
                     fld "tags" 3 KString Repeated; fld "by_key" 4 (KMessage (s "p.Addr")) (MapOf KString)] [];
     msg ["Person"; "Inner"] [(if bad then with_nullable (fld "nick" 1 KString Singular) else with_nullable (fld "nick" 1 KString Optional));
                              with_tsfmt TFDate (fld "at" 2 (KMessage (s "google.protobuf.Timestamp")) Singular)] [];
     msg ["Event"] [fld "id" 1 KString Singular; in_oneof_named "payload" (fld "addr" 2 (KMessage (s "p.Addr")) Singular)]
         [{| o_name := s "payload"; o_has_cfg := true; o_discriminator := s "kind"; o_flatten := true |}];
     msg ["AddrList"] [with_unwrap (fld "items" 1 (KMessage (s "p.Addr")) Repeated)] [];
     msg ["Nums"] [with_i64num (fld "big" 1 KInt64 Singular); with_enumnum (fld "level" 2 (KEnum (s "p.Level")) Singular);
                   fld "status" 3 (KEnum (s "p.Status")) Singular] []]
    [status_enum; {| e_name := s "p.Level"; e_values := [ {| ev_name := s "LEVEL_UNSPECIFIED"; ev_number := 0; ev_custom := None |} ] |}] [].
Definition nv_api : file :=
  pfile "a.proto" true [res_msg; msg ["GetReq"] [fld "id" 1 KString Singular; with_query "page" (fld "page" 2 KInt32 Singular)] []] []
        [svc [ping; rpc "Get" "p.GetReq" 1 "/people/{id}"; rpc "Put" "p.Person" 3 "/people/{id}"]].

(* whenever the client plugin emits a codec file, it lists the same types as the server plugin's file of that name *)
Lemma C14_same_name_same_contexts_lemma : forall sc f c,
  client_contexts sc f c <> [] -> client_contexts sc f c = http_contexts sc f c.
Proof.
  intros sc f c. destruct c; cbn; try reflexivity; try congruence; destruct (has_services f); congruence.
Qed.

(* a file free of the two defect classes gets the same codec methods from both plugins *)
Lemma C14_file_equiv_lemma : forall sc f, file_defects_C14 sc f = [] -> forall c, client_contexts sc f c = http_contexts sc f c.
Proof.
  intros sc f H c. unfold file_defects_C14 in H.
  destruct (any_msg (gets_unwrap_codec sc) f) eqn:U; [discriminate|].
  destruct (negb (has_services f) && (any_msg has_int64_number f || existsb enum_custom (fl_enums f))) eqn:S; [discriminate|].
  destruct c; cbn; try reflexivity.
  - unfold any_msg, gets_unwrap_codec in U. rewrite existsb_false in U.
    rewrite (filter_all_false is_root_unwrap), (filter_all_false (is_unwrap_container sc)); [reflexivity| |];
      apply existsb_false; intros m Hm; specialize (U m Hm); apply orb_false_iff in U; tauto.
  - destruct (has_services f); [reflexivity|]. cbn in S. apply orb_false_iff in S as [S _].
    unfold any_msg in S. now rewrite (filter_all_false _ _ S).
  - destruct (has_services f); [reflexivity|]. cbn in S. apply orb_false_iff in S as [_ S].
    now rewrite (filter_all_false _ _ S).
Qed.

Lemma defects_C14_nil_files sc : defects_C14 sc = [] -> forall f, In f (gen_files sc) -> file_defects_C14 sc f = [].
Proof.
  unfold defects_C14. intros H f Hf.
  destruct (existsb _ (gen_files sc)) eqn:E1 in H; [discriminate|].
  destruct (existsb _ (gen_files sc)) eqn:E2 in H; [discriminate|].
  rewrite existsb_false in E1, E2. specialize (E1 f Hf). specialize (E2 f Hf). cbv beta in E1, E2.
  apply nonempty_false in E1. apply nonempty_false in E2.
  destruct (file_defects_C14 sc f) as [|d l]; [reflexivity|].
  destruct d; cbn in E1, E2; discriminate.
Qed.

(* the package the client plugin generates alone has a codec pair for exactly the types the server package has one for *)
Lemma C14_client_only_equiv_lemma : forall sc, defects_C14 sc = [] ->
  forall tn c, client_has sc tn c = server_has sc tn c.
Proof.
  intros sc H tn c. unfold client_has, server_has.
  pose proof (defects_C14_nil_files sc H) as F.
  induction (gen_files sc) as [|f l IH]; [reflexivity|]. cbn.
  rewrite (C14_file_equiv_lemma sc f (F f (or_introl eq_refl)) c). f_equal. apply IH. intros g Hg. apply F. now right.
Qed.

(* one directory written by both plugins: the result does not depend on the order *)
Lemma codec_eqb_eq a b : codec_eqb a b = true -> a = b.
Proof. destruct a, b; cbn; congruence. Qed.

Lemma name_eqb_eq a b : name_eqb a b = true -> a = b.
Proof.
  destruct a as [p c], b as [q d]. unfold name_eqb. cbn. intros H. apply andb_true_iff in H as [H1 H2].
  apply str_eqb_eq in H1. apply codec_eqb_eq in H2. congruence.
Qed.

Lemma dir_lookup_app n A B :
  dir_lookup n (A ++ B) = match dir_lookup n B with Some x => Some x | None => dir_lookup n A end.
Proof.
  induction A as [|[k b] A IH]; cbn; [now destruct (dir_lookup n B)|].
  rewrite IH. destruct (dir_lookup n B); [reflexivity|]. reflexivity.
Qed.

Lemma dir_lookup_in n L b : dir_lookup n L = Some b -> In (n, b) L.
Proof.
  induction L as [|[k x] L IH]; cbn; [discriminate|].
  destruct (dir_lookup n L) eqn:E.
  - intros [= <-]. right. now apply IH.
  - destruct (name_eqb n k) eqn:N; [|discriminate]. intros [= <-]. apply name_eqb_eq in N. subst. now left.
Qed.

Lemma in_codec_files p sc path c ctx : In ((path, c), ctx) (codec_files p sc) ->
  exists f, In f (gen_files sc) /\ fl_path f = path /\ ctx <> [] /\
            ctx = match p with GoHttp => http_contexts sc f c | GoClient => client_contexts sc f c end.
Proof.
  unfold codec_files. intros H. apply in_flat_map in H as (f & Hf & H). apply in_flat_map in H as (c' & _ & H).
  destruct (nonempty _) eqn:N in H; [|contradiction]. destruct H as [H|[]]. inversion H; subst.
  exists f. repeat split; auto. intros E. rewrite E in N. discriminate.
Qed.

Lemma C14_order_independent_lemma : forall sc, NoDup (map fl_path (gen_files sc)) ->
  forall n, dir_lookup n (directory [GoHttp; GoClient] sc) = dir_lookup n (directory [GoClient; GoHttp] sc).
Proof.
  intros sc ND n. unfold directory. cbn [flat_map]. rewrite !app_nil_r, !dir_lookup_app.
  destruct (dir_lookup n (codec_files GoClient sc)) as [b|] eqn:B, (dir_lookup n (codec_files GoHttp sc)) as [a|] eqn:A; try reflexivity.
  destruct n as [path c].
  apply dir_lookup_in, in_codec_files in A as (f & Hf & Pf & _ & ->).
  apply dir_lookup_in, in_codec_files in B as (g & Hg & Pg & NE & ->).
  assert (f = g) as <- by (apply (NoDup_map_inj fl_path (gen_files sc)); congruence).
  f_equal. now apply C14_same_name_same_contexts_lemma.
Qed.

(* message AddrList { repeated Addr items = 1 [unwrap = true]; } in a file with a service *)
Definition w_unwrap : schema :=
  [pfile "a.proto" true [res_msg; addr_msg; msg ["AddrList"] [with_unwrap (fld "items" 1 (KMessage (s "p.Addr")) Repeated)] []] [] [svc [ping]]].

(* types.proto (generated, no service): message Nums { int64 big = 1 [int64_encoding = NUMBER]; } enum Status with a custom value *)
Definition w_serviceless : schema :=
  [pfile "types.proto" true [msg ["Nums"] [with_i64num (fld "big" 1 KInt64 Singular)] []] [status_enum] [];
   pfile "a.proto" true [res_msg] [] [svc [ping; rpc "Put" "p.Nums" 2 "/nums"]]].

(* non-vacuity: the two-file schema of C12's example is free of both classes only without its unwrap / service-less
   int64 parts; a one-file variant with every other codec is *)
Definition nv14 : schema :=
  [pfile "a.proto" true
     [res_msg; addr_msg;
      msg ["Person"] [fld "id" 1 KString Singular; with_flatten (fld "home" 2 (KMessage (s "p.Addr")) Singular)] [];
      msg ["Person"; "Inner"] [with_nullable (fld "nick" 1 KString Optional)] [];
      msg ["Times"] [with_tsfmt TFDate (fld "at" 1 (KMessage (s "google.protobuf.Timestamp")) Singular)] [];
      msg ["Event"] [fld "id" 1 KString Singular; in_oneof_named "payload" (fld "addr" 2 (KMessage (s "p.Addr")) Singular)]
          [{| o_name := s "payload"; o_has_cfg := true; o_discriminator := s "kind"; o_flatten := true |}];
      msg ["Nums"] [with_i64num (fld "big" 1 KInt64 Singular); fld "status" 2 (KEnum (s "p.Status")) Singular] []]
     [status_enum] [svc [ping]]].

(* the discriminator collides with ANY field of the message outside the oneof: cardinality, proto3 optional
   (synthetic oneof) and membership in another oneof (annotated or not) make no difference *)
Lemma C12_disc_collision_any_sibling_lemma : forall sc m o f,
  In o (m_oneofs m) -> oneof_configured o = true -> In f (m_fields m) -> in_oneof o f = false ->
  json_name (f_name f) = o_discriminator o ->
  oneof_msg_check sc m <> None /\ In (viol RDiscriminatorCollision (o_name o)) (message_violations sc m).
Proof.
  intros sc m o f Ho C Hf NI E.
  assert (In f (outside_fields m o)) as Out by (apply filter_In; split; [exact Hf|now rewrite NI]).
  split.
  - unfold oneof_msg_check. apply first_some_not_none with (x := o); [exact Ho|].
    unfold oneof_check. rewrite C. apply or_else_not_none_l. unfold disc_collision_check.
    apply first_some_not_none with (x := f); [exact Out|].
    cbv beta. rewrite E, str_eqb_refl. discriminate.
  - apply in_message_oneof with (o := o); [exact Ho|]. unfold oneof_part. rewrite C. apply in_or_app. left.
    apply in_when. split; [|reflexivity].
    apply mem_str_in. rewrite <- E. apply in_map_iff. now exists f.
Qed.

(* a child of a flattened variant collides with ANY field outside the oneof *)
Lemma C12_flat_child_collision_any_sibling_lemma : forall sc m o f v c,
  In o (m_oneofs m) -> oneof_configured o = true -> o_flatten o = true ->
  In f (m_fields m) -> in_oneof o f = false ->
  In v (variants m o) -> In c (kind_children sc (f_kind v)) -> snd c = json_name (f_name f) ->
  oneof_msg_check sc m <> None /\ In (viol ROneofFlattenChildCollision (o_name o)) (message_violations sc m).
Proof.
  intros sc m o f v c Ho C Fl Hf NI Hv Hc E.
  assert (mem_str (snd c) (reserved_names m o) = true) as R.
  { apply mem_str_in. unfold reserved_names. right. rewrite E. apply in_map_iff. exists f. split; [reflexivity|].
    apply filter_In. split; [exact Hf|now rewrite NI]. }
  split.
  - unfold oneof_msg_check. apply first_some_not_none with (x := o); [exact Ho|].
    unfold oneof_check. rewrite C, Fl. apply or_else_not_none_r. unfold oneof_flatten_check. apply or_else_not_none_r.
    apply first_some_not_none with (x := v); [exact Hv|]. cbv beta.
    apply first_some_not_none with (x := c); [exact Hc|]. cbv beta. rewrite R. discriminate.
  - apply in_message_oneof with (o := o); [exact Ho|]. unfold oneof_part. rewrite C, Fl.
    apply in_or_app. right. apply in_or_app. right. apply in_when. split; [|reflexivity].
    apply existsb_exists. exists v. split; [exact Hv|]. apply existsb_exists. exists c. now split.
Qed.

(* a flattened child collides with ANY non-flattened field of the message *)
Lemma C12_flatten_collision_any_sibling_lemma : forall sc m f g c,
  (forall x, In x (m_fields m) -> flatten_field_check m x = None) ->
  In f (m_fields m) -> is_flatten f = false ->
  In g (m_fields m) -> well_formed_flatten g = true -> In c (kind_children sc (f_kind g)) ->
  flatten_prefix g ++ snd c = json_name (f_name f) ->
  flatten_msg_check sc m <> None /\ In (viol RFlattenCollision (f_name g)) (message_violations sc m).
Proof.
  intros sc m f g c OK Hf NF Hg WF Hc E.
  assert (In (f_name g, fst c, flatten_prefix g ++ snd c) (spec_flattened sc m)) as I.
  { unfold spec_flattened, names_of. apply in_flat_map. exists g. split; [apply filter_In; auto|].
    apply in_map_iff. now exists c. }
  assert (mem_str (flatten_prefix g ++ snd c) (parent_json_names m) = true) as P.
  { apply mem_str_in. rewrite E. unfold parent_json_names. apply in_map_iff. exists f. split; [reflexivity|].
    apply filter_In. split; [exact Hf|now rewrite NF]. }
  assert (has_flatten m = true) as HF.
  { unfold has_flatten. apply existsb_exists. exists g. split; [exact Hg|].
    unfold well_formed_flatten in WF. destruct (is_flatten g); [reflexivity|discriminate]. }
  split.
  - intros N. destruct (flatten_msg_none sc m N) as [_ CP]. unfold collision_part in CP.
    rewrite flat_map_nil in CP. specialize (CP _ I). cbn [snd fst] in CP. rewrite P in CP. discriminate.
  - rewrite message_violations_parts. do 3 (apply in_or_app; right). apply in_or_app. left.
    unfold collision_part. apply in_flat_map. eexists. split; [exact I|]. cbn [snd fst]. rewrite P. now left.
Qed.

(* concrete instances: the sibling named like the discriminator is a proto3 optional field / a member of a second
   plain oneof / a member of a second annotated oneof / a map *)
Definition w_sibling (sib : list field) (extra : list oneof) : schema :=
  [pfile "a.proto" true
     [res_msg; addr_msg;
      msg ["Event"] (fld "id" 1 KString Singular :: sib ++ [in_oneof_named "content" (fld "text" 10 (KMessage (s "p.Addr")) Singular)])
          ({| o_name := s "content"; o_has_cfg := true; o_discriminator := s "kind"; o_flatten := true |} :: extra)] [] [svc [ping]]].
Definition plain_oneof : oneof := {| o_name := s "other"; o_has_cfg := false; o_discriminator := []; o_flatten := false |}.
Definition annotated_oneof : oneof := {| o_name := s "other"; o_has_cfg := true; o_discriminator := s "d2"; o_flatten := false |}.
Definition refused (sc : schema) : option (err_class * err_class) :=
  match go_http_accepts sc, go_client_accepts sc with
  | Some e, Some e' => Some (e_class e, e_class e')
  | _, _ => None
  end.

(* message Event { Timestamp created_at = 1 [UNIX_SECONDS]; message Occurrence { Timestamp at = 1 [UNIX_MILLIS];
   message Detail { Timestamp seen = 1 [DATE]; } } }  message Audit { message Entry { Timestamp at = 1 [UNIX_MILLIS]; } } *)
Definition ts_field (n : string) (t : ts_fmt) : field := with_tsfmt t (fld n 1 (KMessage (s "google.protobuf.Timestamp")) Singular).
Definition w_nested : schema :=
  [pfile "a.proto" true
     [res_msg;
      msg ["Event"] [ts_field "created_at" TFUnixSeconds] [];
      msg ["Event"; "Occurrence"] [ts_field "at" TFUnixMillis] [];
      msg ["Event"; "Occurrence"; "Detail"] [ts_field "seen" TFDate] [];
      msg ["Audit"] [fld "id" 1 KString Singular] [];
      msg ["Audit"; "Entry"] [ts_field "at" TFUnixMillis] []] [] [svc [ping]]].
