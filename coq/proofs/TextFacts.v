(* TextFacts.v — [str_eqb] decides equality of strings; [has_prefix] and [trim_prefix]; a boolean fact about all
   256 bytes by one evaluation; [split_on] and [join_with] undo each other. *)
From Sebuf Require Import Text.

Lemma str_eqb_refl x : str_eqb x x = true.
Proof. induction x as [|c x IH]; cbn; [reflexivity|]. now rewrite Ascii.eqb_refl, IH. Qed.

Lemma str_eqb_eq x y : str_eqb x y = true <-> x = y.
Proof.
  split.
  - revert y; induction x as [|c x IH]; intros [|d y] H; cbn in H; try discriminate; [reflexivity|].
    apply andb_true_iff in H as [H1 H2]. apply Ascii.eqb_eq in H1. subst. f_equal. now apply IH.
  - intros ->. apply str_eqb_refl.
Qed.

Lemma str_eqb_neq x y : str_eqb x y = false <-> x <> y.
Proof.
  split.
  - intros H E. apply str_eqb_eq in E. congruence.
  - intros H. destruct (str_eqb x y) eqn:E; [|reflexivity]. apply str_eqb_eq in E. contradiction.
Qed.

Lemma str_eqb_sym x y : str_eqb x y = str_eqb y x.
Proof.
  destruct (str_eqb x y) eqn:E.
  - apply str_eqb_eq in E. subst. symmetry. apply str_eqb_refl.
  - symmetry. apply str_eqb_neq. apply str_eqb_neq in E. congruence.
Qed.

Lemma has_prefix_cons1 c x : has_prefix [c] x = true -> exists r, x = c :: r.
Proof.
  destruct x as [|d r]; cbn; [discriminate|]. rewrite andb_true_r. intros H.
  apply Ascii.eqb_eq in H. subst. now exists r.
Qed.

Lemma has_prefix_cons1_false c x : has_prefix [c] x = false -> forall r, x <> c :: r.
Proof.
  intros H r ->. cbn in H. now rewrite Ascii.eqb_refl in H.
Qed.

Lemma trim_prefix_cons1_hit c r : trim_prefix [c] (c :: r) = r.
Proof. unfold trim_prefix. cbn. now rewrite Ascii.eqb_refl. Qed.

Lemma trim_prefix_miss p x : has_prefix p x = false -> trim_prefix p x = x.
Proof. unfold trim_prefix. now intros ->. Qed.

(* A boolean fact about every byte, checked on the 256 of them bit by bit: state it as [all_byte p = true], prove
   that by evaluation, and read it off with [all_byte_spec]. *)
Definition all_bool (p : bool -> bool) : bool := p true && p false.
Definition all_byte (p : ascii -> bool) : bool :=
  all_bool (fun a => all_bool (fun b => all_bool (fun c => all_bool (fun d =>
  all_bool (fun e => all_bool (fun f => all_bool (fun g => all_bool (fun h => p (Ascii a b c d e f g h))))))))).

Lemma all_bool_spec p : all_bool p = true -> forall b, p b = true.
Proof. unfold all_bool. intros H b. apply andb_true_iff in H. now destruct b. Qed.

Lemma all_byte_spec p : all_byte p = true -> forall c, p c = true.
Proof.
  intros H [a b c d e f g h].
  exact (all_bool_spec _ (all_bool_spec _ (all_bool_spec _ (all_bool_spec _ (all_bool_spec _ (all_bool_spec _
           (all_bool_spec _ (all_bool_spec _ H a) b) c) d) e) f) g) h).
Qed.

Lemma byte_implb (p q : ascii -> bool) :
  all_byte (fun c => implb (p c) (q c)) = true -> forall c, p c = true -> q c = true.
Proof. intros H c Hp. pose proof (all_byte_spec _ H c) as T. cbv beta in T. now rewrite Hp in T. Qed.

Lemma str_eqb_trans a b c : str_eqb a b = true -> str_eqb b c = true -> str_eqb a c = true.
Proof. intros H1 H2. apply str_eqb_eq in H1, H2. apply str_eqb_eq. congruence. Qed.

Lemma has_prefix_app p x : has_prefix p (p ++ x) = true.
Proof. induction p as [|c p IH]; [reflexivity|]. cbn. now rewrite Ascii.eqb_refl, IH. Qed.

Lemma trim_prefix_app p x : trim_prefix p (p ++ x) = x.
Proof.
  unfold trim_prefix. rewrite has_prefix_app. induction p as [|c p IH]; [reflexivity|exact IH].
Qed.

(* [split_on c] cuts at every [c] and [join_with [c]] puts the pieces together again: each undoes the other, on a
   list of pieces that hold no [c]. *)

Lemma split_on_aux_app c x : forall acc rest, ~ In c x ->
  split_on_aux c acc (x ++ rest) = split_on_aux c (rev x ++ acc) rest.
Proof.
  induction x as [|d x IH]; intros acc rest Hni; [reflexivity|].
  cbn [app split_on_aux].
  assert (E : Ascii.eqb d c = false).
  { apply Ascii.eqb_neq. intros ->. apply Hni. now left. }
  rewrite E, IH by (intros Hin; apply Hni; now right).
  cbn [rev]. now rewrite <- app_assoc.
Qed.

Lemma split_on_aux_sep c acc rest :
  split_on_aux c acc (c :: rest) = rev acc :: split_on_aux c [] rest.
Proof. cbn [split_on_aux]. now rewrite Ascii.eqb_refl. Qed.

Lemma split_on_aux_join c : forall l acc x,
  (forall y, In y (x :: l) -> ~ In c y) ->
  split_on_aux c acc (join_with [c] (x :: l)) = (rev acc ++ x) :: l.
Proof.
  induction l as [|y l IH]; intros acc x Hni.
  - cbn [join_with]. rewrite <- (app_nil_r x) at 1.
    rewrite split_on_aux_app by (apply Hni; now left).
    cbn [split_on_aux]. now rewrite rev_app_distr, rev_involutive.
  - change (join_with [c] (x :: y :: l)) with (x ++ [c] ++ join_with [c] (y :: l)).
    rewrite split_on_aux_app by (apply Hni; now left).
    cbn [app]. rewrite split_on_aux_sep, rev_app_distr, rev_involutive.
    rewrite IH by (intros z Hz; apply Hni; now right). reflexivity.
Qed.

Lemma split_on_join : forall c l, l <> [] -> (forall x, In x l -> ~ In c x) ->
  split_on c (join_with [c] l) = l.
Proof.
  intros c [|x l] Hne Hni; [congruence|]. unfold split_on. now rewrite split_on_aux_join.
Qed.

Lemma split_on_none c x : ~ In c x -> split_on c x = [x].
Proof. intros H. apply (split_on_join c [x]); [discriminate|]. intros y [<-|[]]. exact H. Qed.

Lemma split_on_aux_nonempty c x : forall acc, split_on_aux c acc x <> [].
Proof.
  induction x as [|d x IH]; intros acc; cbn [split_on_aux]; [discriminate|].
  destruct (Ascii.eqb d c); [discriminate|apply IH].
Qed.

Lemma split_on_nonempty c x : split_on c x <> [].
Proof. apply split_on_aux_nonempty. Qed.

Lemma split_on_no_sep c x : forall y, In y (split_on c x) -> ~ In c y.
Proof.
  unfold split_on.
  assert (G : forall acc, ~ In c acc -> forall y, In y (split_on_aux c acc x) -> ~ In c y).
  { induction x as [|d x IH]; intros acc Hacc y Hy; cbn [split_on_aux] in Hy.
    - destruct Hy as [<-|[]]. now rewrite <- in_rev.
    - destruct (Ascii.eqb d c) eqn:E.
      + destruct Hy as [<-|Hy]; [now rewrite <- in_rev|].
        apply (IH [] (fun f => f) y Hy).
      + apply (IH (d :: acc)); [|exact Hy].
        intros [->|Hin]; [now rewrite Ascii.eqb_refl in E|contradiction]. }
  apply G. intros [].
Qed.

Lemma join_split_aux c x : forall acc, join_with [c] (split_on_aux c acc x) = rev acc ++ x.
Proof.
  induction x as [|d x IH]; intros acc; cbn [split_on_aux].
  - cbn. now rewrite app_nil_r.
  - destruct (Ascii.eqb d c) eqn:E.
    + apply Ascii.eqb_eq in E. subst d.
      pose proof (IH []) as J. destruct (split_on_aux c [] x) as [|b l] eqn:Es.
      * now apply split_on_aux_nonempty in Es.
      * change (join_with [c] (rev acc :: b :: l)) with (rev acc ++ [c] ++ join_with [c] (b :: l)).
        rewrite J. reflexivity.
    + rewrite IH. cbn [rev]. now rewrite <- app_assoc.
Qed.

Lemma join_split c x : join_with [c] (split_on c x) = x.
Proof. unfold split_on. now rewrite join_split_aux. Qed.
