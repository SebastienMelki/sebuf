(* RawMap.v — map[string]json.RawMessage as the codecs use it: an association list read with raw_get / raw_has
   and written with raw_set (in place, or appended when the key is new) and raw_del; and the shape every
   field codec has: one pass over the declared fields that keeps, sets or deletes the entry under each
   field's JSON name.  Since the fields have distinct JSON names such a pass acts on each entry on its
   own: [fold_astep] when the action is fixed beforehand, [fold_gstep_closed] when it looks at the value.
   Last, an object cut into segments with disjoint keys, for the codecs that inline a child's entries: lookups and
   deletions of a list of keys ([del_all]) stay inside a segment ([raw_get_frame], [del_all_frame]), and a fold of
   steps that each own a segment rewrites them one after the other ([fold_frame]). *)
From Sebuf Require Import CodecCases.
From SebufProofs Require Import TextFacts ListFacts.

Lemma raw_has_app k a b : raw_has k (a ++ b) = raw_has k a || raw_has k b.
Proof. unfold raw_has. apply existsb_app. Qed.

Lemma raw_del_notin k l : raw_has k l = false -> raw_del k l = l.
Proof.
  unfold raw_has, raw_del. induction l as [|e r IH]; simpl; [reflexivity|].
  intros H. apply Bool.orb_false_iff in H. destruct H as [H1 H2]. rewrite H1. simpl. rewrite (IH H2). reflexivity.
Qed.
Lemma raw_del_app k a b : raw_del k (a ++ b) = raw_del k a ++ raw_del k b.
Proof. unfold raw_del. apply filter_app. Qed.
Lemma raw_get_app_l k a b v : raw_get k a = Some v -> raw_get k (a ++ b) = Some v.
Proof.
  unfold raw_get. induction a as [|[k' v'] r IH]; simpl; [discriminate|].
  destruct (str_eqb k k'); auto.
Qed.
Lemma raw_get_app_r k a b : raw_has k a = false -> raw_get k (a ++ b) = raw_get k b.
Proof.
  unfold raw_get, raw_has. induction a as [|[k' v'] r IH]; simpl; [reflexivity|].
  intros H. apply Bool.orb_false_iff in H. destruct H as [H1 H2].
  assert (Hs : str_eqb k k' = false).
  { destruct (str_eqb k k') eqn:E; [|reflexivity]. apply str_eqb_eq in E. subst. rewrite str_eqb_refl in H1. discriminate. }
  rewrite Hs. apply IH. exact H2.
Qed.
Lemma raw_get_in k l v : raw_get k l = Some v -> In (k, v) l.
Proof.
  unfold raw_get. induction l as [|[k' v'] r IH]; simpl; [discriminate|].
  destruct (str_eqb k k') eqn:E; intros H.
  - inversion H; subst. apply str_eqb_eq in E. subst. left. reflexivity.
  - right. apply IH. exact H.
Qed.
Lemma raw_has_get k l : raw_has k l = true -> exists v, raw_get k l = Some v.
Proof.
  unfold raw_has, raw_get. induction l as [|[k' v'] r IH]; simpl; [discriminate|].
  intros H. destruct (str_eqb k k') eqn:E; [eauto|].
  assert (Hs : str_eqb k' k = false).
  { destruct (str_eqb k' k) eqn:E'; [|reflexivity]. apply str_eqb_eq in E'. subst. rewrite str_eqb_refl in E. discriminate. }
  rewrite Hs in H. simpl in H. apply IH. exact H.
Qed.
Lemma raw_has_keys k l : raw_has k l = true <-> In k (map fst l).
Proof.
  unfold raw_has. rewrite existsb_exists. split.
  - intros [e [Hin He]]. apply str_eqb_eq in He. subst. apply in_map. exact Hin.
  - intros H. apply in_map_iff in H. destruct H as [e [He Hin]]. exists e. split; [exact Hin|]. subst. apply str_eqb_refl.
Qed.

Lemma raw_has_map_fst k (r : rawmap) : raw_has k r = existsb (fun x => str_eqb x k) (map fst r).
Proof. unfold raw_has. induction r as [|e r IH]; cbn [existsb map]; [reflexivity|]. rewrite IH. reflexivity. Qed.
Lemma raw_has_same_keys k (a b : rawmap) : map fst a = map fst b -> raw_has k a = raw_has k b.
Proof. intros H. rewrite !raw_has_map_fst, H. reflexivity. Qed.

Lemma raw_get_has k raw v : raw_get k raw = Some v -> raw_has k raw = true.
Proof. intros H. apply raw_has_keys. apply raw_get_in in H. apply (in_map fst) in H. exact H. Qed.
Lemma raw_get_not_has k raw : raw_has k raw = false -> raw_get k raw = None.
Proof.
  intros H. destruct (raw_get k raw) as [v|] eqn:Eg; [|reflexivity].
  rewrite (raw_get_has _ _ _ Eg) in H. discriminate.
Qed.
Lemma raw_get_nodup (raw : rawmap) e : NoDup (map fst raw) -> In e raw -> raw_get (fst e) raw = Some (snd e).
Proof.
  unfold raw_get. induction raw as [|[k v] r IH]; [intros _ []|].
  cbn [map fst assoc_json]. intros Hn Hin. inversion Hn as [|k0 l0 Hk Hr]; subst. destruct Hin as [Hin|Hin].
  - subst e. cbn [fst snd]. rewrite str_eqb_refl. reflexivity.
  - destruct (str_eqb (fst e) k) eqn:Eek; [|apply IH; assumption].
    exfalso. apply str_eqb_eq in Eek. subst k. apply Hk. apply (in_map fst) in Hin. exact Hin.
Qed.

(* what MarshalJSON does under the key of field f: nothing, set a value, delete the key *)
Definition action := option (option json).
Definition astep (act : field -> action) (raw : rawmap) (f : field) : rawmap :=
  match act f with
  | None => raw
  | Some (Some v) => raw_set (jn f) v raw
  | Some None => raw_del (jn f) raw
  end.

Lemma in_raw_set k v k0 v0 raw : In (k, v) (raw_set k0 v0 raw) -> (k = k0 /\ v = v0) \/ (In (k, v) raw /\ k <> k0).
Proof.
  unfold raw_set. destruct (raw_has k0 raw) eqn:Eh.
  - intros H. apply in_map_iff in H. destruct H as [[k1 v1] [He Hin]]. cbn [fst] in He.
    destruct (str_eqb k1 k0) eqn:E.
    + inversion He; subst. left. split; reflexivity.
    + inversion He; subst. right. split; [exact Hin|]. intros ->. rewrite str_eqb_refl in E. discriminate.
  - intros H. apply in_app_or in H. destruct H as [H|H].
    + destruct (str_eqb k k0) eqn:E.
      * apply str_eqb_eq in E. subst k0. exfalso.
        assert (T : raw_has k raw = true) by (apply raw_has_keys; apply (in_map fst) in H; exact H).
        congruence.
      * right. split; [exact H|]. intros ->. rewrite str_eqb_refl in E. discriminate.
    + destruct H as [H|[]]. inversion H; subst. left. split; reflexivity.
Qed.

Lemma in_raw_del k v k0 raw : In (k, v) (raw_del k0 raw) -> In (k, v) raw /\ k <> k0.
Proof.
  unfold raw_del. intros H. apply filter_In in H. destruct H as [H E]. cbn [fst] in E. split; [exact H|].
  intros ->. rewrite str_eqb_refl in E. discriminate.
Qed.

Lemma fold_in act fs : forall raw k v,
  In (k, v) (fold_left (astep act) fs raw) ->
  (In (k, v) raw /\ forall f, In f fs -> jn f = k -> act f = None) \/
  (exists f, In f fs /\ k = jn f /\ act f = Some (Some v)).
Proof.
  induction fs as [|f r IH]; intros raw k v H; cbn [fold_left] in H.
  - left. split; [exact H|]. intros f [].
  - destruct (IH _ k v H) as [[Hin Hnone]|[g [Hg [Hk Ha]]]].
    2: { right. exists g. split; [right; exact Hg|]. split; assumption. }
    unfold astep in Hin. destruct (act f) as [[v'|]|] eqn:Ea.
    + apply in_raw_set in Hin. destruct Hin as [[-> ->]|[Hin Hne]].
      * right. exists f. split; [left; reflexivity|]. split; [reflexivity|exact Ea].
      * left. split; [exact Hin|]. intros g [<-|Hg] Hj; [congruence|exact (Hnone g Hg Hj)].
    + apply in_raw_del in Hin. destruct Hin as [Hin Hne].
      left. split; [exact Hin|]. intros g [<-|Hg] Hj; [congruence|exact (Hnone g Hg Hj)].
    + left. split; [exact Hin|]. intros g [<-|Hg] Hj; [exact Ea|exact (Hnone g Hg Hj)].
Qed.

Lemma raw_set_keys k v raw : raw_has k raw = true -> map fst (raw_set k v raw) = map fst raw.
Proof.
  unfold raw_set. intros ->. rewrite map_map. apply map_ext. intros [k1 v1]. cbn [fst].
  destruct (str_eqb k1 k) eqn:E1; [|reflexivity]. apply str_eqb_eq in E1. subst. reflexivity.
Qed.

Lemma raw_has_set k k0 v0 raw : raw_has k (raw_set k0 v0 raw) = raw_has k raw || str_eqb k0 k.
Proof.
  destruct (raw_has k0 raw) eqn:E.
  - rewrite (raw_has_same_keys k _ raw (raw_set_keys k0 v0 raw E)).
    destruct (str_eqb k0 k) eqn:E2; [|rewrite orb_false_r; reflexivity].
    apply str_eqb_eq in E2. subst. rewrite E. reflexivity.
  - unfold raw_set. rewrite E, raw_has_app. f_equal. unfold raw_has. cbn [existsb fst]. apply orb_false_r.
Qed.

Lemma raw_has_del k k0 raw : k <> k0 -> raw_has k (raw_del k0 raw) = raw_has k raw.
Proof.
  intros Hne. unfold raw_has, raw_del. induction raw as [|[k1 v1] r IH]; [reflexivity|].
  cbn [filter existsb fst]. destruct (str_eqb k1 k0) eqn:E; cbn [negb].
  - rewrite IH. apply str_eqb_eq in E. subst k1.
    destruct (str_eqb k0 k) eqn:E2; [|reflexivity]. apply str_eqb_eq in E2. congruence.
  - cbn [existsb fst]. rewrite IH. reflexivity.
Qed.

Lemma fold_has act fs k : forall raw,
  (forall g, In g fs -> jn g = k -> act g <> Some None) ->
  raw_has k raw = true \/ (exists f v, In f fs /\ jn f = k /\ act f = Some (Some v)) ->
  raw_has k (fold_left (astep act) fs raw) = true.
Proof.
  induction fs as [|f r IH]; intros raw Hnd H; cbn [fold_left].
  - destruct H as [H|[f [v [[] _]]]]. exact H.
  - apply IH; [intros g Hg; apply Hnd; right; exact Hg|].
    destruct H as [H|[f0 [v [[Heq|Hf0] [Hj Ha]]]]]; [|subst f0|].
    + left. unfold astep. destruct (act f) as [[v'|]|] eqn:Ea; [| |exact H].
      * rewrite raw_has_set, H. reflexivity.
      * rewrite raw_has_del; [exact H|]. intros Hk. exact (Hnd f (or_introl eq_refl) (eq_sym Hk) Ea).
    + left. unfold astep. rewrite Ha, raw_has_set. rewrite Hj, str_eqb_refl. apply orb_true_r.
    + right. exists f0, v. split; [exact Hf0|]. split; assumption.
Qed.

(* one action under one key: [astep act raw f] is [alter (jn f) (act f) raw].  On the object it works entry by
   entry ([alter_flat]): the entry under k becomes [upd a e] (it stays, gets the new value or goes; [aval] is the
   value it ends with, if any), and a set under a key the object lacks appends [fresh1 k a] *)
Definition alter (k : str) (a : action) (raw : rawmap) : rawmap :=
  match a with None => raw | Some (Some v) => raw_set k v raw | Some None => raw_del k raw end.

Definition aval (a : action) (j : json) : option json := match a with None => Some j | Some o => o end.
Definition upd (a : action) (e : str * json) : list (str * json) :=
  match aval a (snd e) with Some v => [(fst e, v)] | None => [] end.
Definition fresh1 (k : str) (a : action) : rawmap := match a with Some (Some v) => [(k, v)] | _ => [] end.

Lemma flat_map_miss k (F : str * json -> list (str * json)) raw :
  raw_has k raw = false -> flat_map (fun e => if str_eqb (fst e) k then F e else [e]) raw = raw.
Proof.
  unfold raw_has. induction raw as [|e r IH]; cbn [existsb flat_map]; [reflexivity|].
  intros H. apply Bool.orb_false_iff in H. destruct H as [H1 H2]. rewrite H1, (IH H2). reflexivity.
Qed.

Lemma alter_flat k a raw :
  alter k a raw = flat_map (fun e => if str_eqb (fst e) k then upd a e else [e]) raw
                  ++ (if raw_has k raw then [] else fresh1 k a).
Proof.
  destruct a as [[v|]|]; cbn [alter fresh1].
  - unfold raw_set. destruct (raw_has k raw) eqn:Eh.
    + rewrite app_nil_r. clear Eh. induction raw as [|e r IH]; [reflexivity|]. cbn [map flat_map]. rewrite IH.
      destruct (str_eqb (fst e) k) eqn:Ek; [|reflexivity]. apply str_eqb_eq in Ek. subst k. reflexivity.
    + rewrite (flat_map_miss k _ raw Eh). reflexivity.
  - assert (Ht : (if raw_has k raw then [] else []) = @nil (str * json)) by (destruct (raw_has k raw); reflexivity).
    rewrite Ht, app_nil_r. clear Ht. unfold raw_del. induction raw as [|e r IH]; [reflexivity|]. cbn [filter flat_map]. rewrite <- IH.
    destruct (str_eqb (fst e) k); reflexivity.
  - assert (Ht : (if raw_has k raw then [] else []) = @nil (str * json)) by (destruct (raw_has k raw); reflexivity).
    rewrite Ht, app_nil_r. rewrite <- (flat_map_single raw) at 1. apply flat_map_ext. intros e.
    destruct (str_eqb (fst e) k); destruct e; reflexivity.
Qed.

Lemma raw_has_alter k k0 a raw : k <> k0 -> raw_has k (alter k0 a raw) = raw_has k raw.
Proof.
  intros Hne. destruct a as [[v|]|]; cbn [alter]; [|apply raw_has_del; exact Hne|reflexivity].
  rewrite raw_has_set. replace (str_eqb k0 k) with false; [apply orb_false_r|].
  symmetry. apply str_eqb_neq. intros ->. apply Hne. reflexivity.
Qed.

Lemma raw_get_alter k k0 a raw : k <> k0 -> raw_get k (alter k0 a raw) = raw_get k raw.
Proof.
  intros Hne. assert (Hs : forall k1, str_eqb k1 k0 = true -> str_eqb k k1 = false).
  { intros k1 H1. apply str_eqb_eq in H1. subst k1. apply str_eqb_neq. exact Hne. }
  unfold raw_get. destruct a as [[v|]|]; cbn [alter]; [| |reflexivity].
  - unfold raw_set. destruct (raw_has k0 raw).
    + induction raw as [|[k1 v1] r IH]; [reflexivity|]. cbn [map fst assoc_json]. rewrite <- IH.
      destruct (str_eqb k1 k0) eqn:E1; [|reflexivity]. cbn [assoc_json]. rewrite (Hs k1 E1), (Hs k0 (str_eqb_refl k0)). reflexivity.
    + induction raw as [|[k1 v1] r IH]; cbn [app assoc_json].
      * rewrite (Hs k0 (str_eqb_refl k0)). reflexivity.
      * rewrite IH. reflexivity.
  - unfold raw_del. induction raw as [|[k1 v1] r IH]; [reflexivity|]. cbn [filter fst assoc_json].
    destruct (str_eqb k1 k0) eqn:E1; cbn [negb assoc_json]; rewrite IH; [rewrite (Hs k1 E1)|]; reflexivity.
Qed.

Lemma alter_keys_NoDup k a raw : NoDup (map fst raw) -> NoDup (map fst (alter k a raw)).
Proof.
  intros Hnd. destruct a as [[v|]|]; cbn [alter]; [| |exact Hnd].
  - destruct (raw_has k raw) eqn:Eh; [rewrite (raw_set_keys k v raw Eh); exact Hnd|].
    unfold raw_set. rewrite Eh, map_app. apply NoDup_app; [exact Hnd|repeat constructor; intros []|].
    intros x Hx [<-|[]]. apply raw_has_keys in Hx. cbn [fst] in Hx. congruence.
  - apply NoDup_map_filter. exact Hnd.
Qed.

Lemma fold_astep_NoDup act fs : forall raw, NoDup (map fst raw) -> NoDup (map fst (fold_left (astep act) fs raw)).
Proof. induction fs as [|f r IH]; intros raw H; [exact H|]. apply IH. exact (alter_keys_NoDup (jn f) (act f) raw H). Qed.

Lemma field_by_json_spec fs k f : field_by_json fs k = Some f -> In f fs /\ jn f = k.
Proof.
  induction fs as [|g r IH]; cbn [field_by_json]; [discriminate|].
  destruct (str_eqb (json_name (f_name g)) k) eqn:Ek; intros H.
  - inversion H; subst g. split; [left; reflexivity|]. apply str_eqb_eq. exact Ek.
  - destruct (IH H) as [Hin Hk]. split; [right; exact Hin|exact Hk].
Qed.
Lemma field_by_json_none fs k : ~ In k (map jn fs) -> field_by_json fs k = None.
Proof.
  intros Hn. destruct (field_by_json fs k) as [f|] eqn:Ef; [|reflexivity]. exfalso.
  destruct (field_by_json_spec fs k f Ef) as [Hin Hk]. apply Hn. rewrite <- Hk. apply in_map. exact Hin.
Qed.
Lemma field_by_json_cons f r k :
  field_by_json (f :: r) k = if str_eqb (jn f) k then Some f else field_by_json r k.
Proof. reflexivity. Qed.
Lemma field_by_json_jn fs f : NoDup (map jn fs) -> In f fs -> field_by_json fs (jn f) = Some f.
Proof.
  intros Hnd Hin. destruct (field_by_json fs (jn f)) as [g|] eqn:Eg.
  - destruct (field_by_json_spec fs (jn f) g Eg) as [Hg Hk]. f_equal. exact (NoDup_map_inj jn fs g f Hnd Hg Hin Hk).
  - exfalso. clear Hnd. induction fs as [|g r IH]; [exact Hin|]. rewrite field_by_json_cons in Eg.
    destruct (str_eqb (jn g) (jn f)) eqn:Ek; [discriminate|].
    destruct Hin as [Hin|Hin]; [|exact (IH Hin Eg)]. subst g. rewrite str_eqb_refl in Ek. discriminate.
Qed.

(* a whole pass in that form ([fold_astep]): [slot] is what becomes of an entry of the object, rewritten by the
   field whose JSON name is its key, if there is one; [fresh] are the entries appended for the fields whose key
   the object lacked *)
Definition slot (act : field -> action) (fs : list field) (e : str * json) : list (str * json) :=
  match field_by_json fs (fst e) with Some f => upd (act f) e | None => [e] end.
Definition fresh (act : field -> action) (fs : list field) (raw : rawmap) : rawmap :=
  flat_map (fun f => if raw_has (jn f) raw then [] else fresh1 (jn f) (act f)) fs.

Lemma slot_other act fs k v : ~ In k (map jn fs) -> slot act fs (k, v) = [(k, v)].
Proof. intros H. unfold slot. cbn [fst]. rewrite (field_by_json_none fs k H). reflexivity. Qed.

Lemma fold_astep act fs : forall raw, NoDup (map jn fs) ->
  fold_left (astep act) fs raw = flat_map (slot act fs) raw ++ fresh act fs raw.
Proof.
  induction fs as [|f r IH]; intros raw Hnd.
  - cbn [fold_left fresh flat_map]. rewrite app_nil_r. symmetry. apply flat_map_single.
  - cbn [map] in Hnd. inversion Hnd as [|k0 l0 Hnot Hnd']; subst.
    cbn [fold_left]. rewrite (IH _ Hnd'). change (astep act raw f) with (alter (jn f) (act f) raw).
    assert (Hfr : fresh act r (alter (jn f) (act f) raw) = fresh act r raw).
    { unfold fresh. apply flat_map_ext_in. intros h Hh. rewrite raw_has_alter; [reflexivity|].
      intros Heq. apply Hnot. rewrite <- Heq. apply in_map. exact Hh. }
    rewrite Hfr, alter_flat, flat_map_app, flat_map_flat_map. cbn [fresh flat_map]. rewrite <- !app_assoc. f_equal.
    + apply flat_map_ext. intros e. unfold slot at 2. rewrite field_by_json_cons, (str_eqb_sym (jn f) (fst e)).
      destruct (str_eqb (fst e) (jn f)) eqn:Ek; [|cbn [flat_map]; apply app_nil_r].
      apply str_eqb_eq in Ek. unfold upd. destruct (aval (act f) (snd e)); [|reflexivity].
      cbn [flat_map]. rewrite Ek, (slot_other act r (jn f) j Hnot). reflexivity.
    + f_equal. destruct (raw_has (jn f) raw); [reflexivity|].
      destruct (act f) as [[v|]|]; cbn [fresh1 flat_map]; [|reflexivity|reflexivity].
      rewrite (slot_other act r (jn f) v Hnot). reflexivity.
Qed.

(* a pass whose action looks at the value under the key and does nothing when the key is absent (UnmarshalJSON).
   [found g raw] is the fixed action that a step comes to on raw, [gslot] what becomes of an entry *)
Definition gstep (g : field -> json -> action) (raw : rawmap) (f : field) : rawmap :=
  match raw_get (jn f) raw with Some v => alter (jn f) (g f v) raw | None => raw end.
Definition found (g : field -> json -> action) (raw : rawmap) (f : field) : action :=
  match raw_get (jn f) raw with Some v => g f v | None => None end.
Definition gslot (g : field -> json -> action) (fs : list field) (e : str * json) : list (str * json) :=
  match field_by_json fs (fst e) with Some f => upd (g f (snd e)) e | None => [e] end.

Lemma gstep_astep g raw f : gstep g raw f = astep (found g raw) raw f.
Proof. unfold gstep, astep, found. destruct (raw_get (jn f) raw); reflexivity. Qed.

Lemma found_alter g raw k a h : jn h <> k -> found g (alter k a raw) h = found g raw h.
Proof. intros H. unfold found. rewrite (raw_get_alter _ _ a raw H). reflexivity. Qed.

(* the keys are distinct, so what a step finds under its key is what the object had there from the start *)
Lemma fold_gstep g fs : forall raw, NoDup (map jn fs) ->
  fold_left (gstep g) fs raw = fold_left (astep (found g raw)) fs raw.
Proof.
  induction fs as [|f r IH]; intros raw Hnd; [reflexivity|].
  cbn [map] in Hnd. inversion Hnd as [|k0 l0 Hnot Hnd']; subst.
  cbn [fold_left]. rewrite gstep_astep, (IH _ Hnd'). apply fold_left_ext_in. intros a h Hh.
  assert (Hf : found g (astep (found g raw) raw f) h = found g raw h).
  { apply (found_alter g raw (jn f) (found g raw f) h). intros Heq. apply Hnot. rewrite <- Heq. apply in_map. exact Hh. }
  unfold astep at 1 3. rewrite Hf. reflexivity.
Qed.

Lemma fold_gstep_closed g fs raw : NoDup (map jn fs) -> NoDup (map fst raw) ->
  fold_left (gstep g) fs raw = flat_map (gslot g fs) raw.
Proof.
  intros Hnd Hk. rewrite (fold_gstep g fs raw Hnd), (fold_astep _ fs raw Hnd).
  assert (Hfr : fresh (found g raw) fs raw = []).
  { unfold fresh. apply flat_map_nil. intros f _. destruct (raw_has (jn f) raw) eqn:Eh; [reflexivity|].
    unfold found. rewrite (raw_get_not_has _ _ Eh). reflexivity. }
  rewrite Hfr, app_nil_r. apply flat_map_ext_in. intros e He. unfold slot, gslot.
  destruct (field_by_json fs (fst e)) as [f|] eqn:Ef; [|reflexivity].
  destruct (field_by_json_spec fs _ f Ef) as [_ Hj]. unfold found. rewrite Hj, (raw_get_nodup raw e Hk He). reflexivity.
Qed.

(* a key the first pass adds and the second deletes leaves nothing *)
Lemma fresh_gslot_nil act g fs raw :
  NoDup (map jn fs) ->
  (forall f v, In f fs -> raw_has (jn f) raw = false -> act f = Some (Some v) -> g f v = Some None) ->
  flat_map (gslot g fs) (fresh act fs raw) = [].
Proof.
  intros Hnd Hdel. apply flat_map_nil. intros e He. unfold fresh in He. apply in_flat_map in He. destruct He as [f [Hf He]].
  destruct (raw_has (jn f) raw) eqn:Eh; [destruct He|].
  destruct (act f) as [[v|]|] eqn:Ea; [|destruct He..]. destruct He as [<-|[]].
  unfold gslot. cbn [fst snd]. rewrite (field_by_json_jn fs f Hnd Hf), (Hdel f v Hf Eh Ea). reflexivity.
Qed.

Definition keys (r : rawmap) : list str := map fst r.
Definition disj (a b : list str) : Prop := forall k, In k a -> In k b -> False.

Lemma disj_sym a b : disj a b -> disj b a.
Proof. intros H k Hb Ha. exact (H k Ha Hb). Qed.
Lemma disj_incl a b a' b' : disj a b -> incl a' a -> incl b' b -> disj a' b'.
Proof. intros H Ha Hb k Hk Hk'. exact (H k (Ha k Hk) (Hb k Hk')). Qed.
Lemma disj_app_r a b c : disj a b -> disj a c -> disj a (b ++ c).
Proof. intros Hb Hc k Hk Hin. apply in_app_or in Hin. destruct Hin as [Hin|Hin]; [exact (Hb k Hk Hin)|exact (Hc k Hk Hin)]. Qed.

Lemma keys_app a b : keys (a ++ b) = keys a ++ keys b.
Proof. apply map_app. Qed.
Lemma keys_flat_map {A} (g : A -> rawmap) os : keys (flat_map g os) = flat_map (fun o => keys (g o)) os.
Proof. induction os as [|o r IH]; [reflexivity|]. cbn [flat_map]. rewrite keys_app, IH. reflexivity. Qed.

Lemma raw_has_notin k r : ~ In k (keys r) -> raw_has k r = false.
Proof. intros H. destruct (raw_has k r) eqn:Eh; [|reflexivity]. exfalso. apply H, raw_has_keys. exact Eh. Qed.
Lemma raw_get_notin k r : ~ In k (keys r) -> raw_get k r = None.
Proof. intros H. apply raw_get_not_has. apply raw_has_notin. exact H. Qed.
Lemma raw_set_fresh k v r : ~ In k (keys r) -> raw_set k v r = r ++ [(k, v)].
Proof. intros H. unfold raw_set. rewrite (raw_has_notin k r H). reflexivity. Qed.
Lemma raw_del_fresh k r : ~ In k (keys r) -> raw_del k r = r.
Proof. intros H. apply raw_del_notin. apply raw_has_notin. exact H. Qed.
Lemma raw_get_head k v r : raw_get k ((k, v) :: r) = Some v.
Proof. unfold raw_get. cbn [assoc_json]. rewrite str_eqb_refl. reflexivity. Qed.
Lemma raw_get_tail k k' v r : k <> k' -> raw_get k ((k', v) :: r) = raw_get k r.
Proof. intros H. unfold raw_get. cbn [assoc_json]. rewrite (proj2 (str_eqb_neq k k') H). reflexivity. Qed.
Lemma raw_get_here k v a b : ~ In k (keys a) -> raw_get k (a ++ (k, v) :: b) = Some v.
Proof. intros H. rewrite (raw_get_app_r k a _ (raw_has_notin k a H)). apply raw_get_head. Qed.
Lemma raw_get_nodup_in k v r : NoDup (keys r) -> In (k, v) r -> raw_get k r = Some v.
Proof. intros Hnd Hin. exact (raw_get_nodup r (k, v) Hnd Hin). Qed.

Lemma keys_raw_set k k' v r : In k (keys (raw_set k' v r)) -> k = k' \/ In k (keys r).
Proof.
  intros H. apply in_map_iff in H. destruct H as [[k0 v0] [Hk H]]. cbn [fst] in Hk. subst k0.
  destruct (in_raw_set _ _ _ _ _ H) as [[Hk _]|[Hin _]]; [left; exact Hk|right; exact (in_map fst _ _ Hin)].
Qed.
Lemma keys_raw_del k k' r : In k (keys (raw_del k' r)) -> In k (keys r) /\ k <> k'.
Proof.
  intros H. apply in_map_iff in H. destruct H as [[k0 v0] [Hk H]]. cbn [fst] in Hk. subst k0.
  destruct (in_raw_del _ _ _ _ H) as [Hin Hne]. split; [exact (in_map fst _ _ Hin)|exact Hne].
Qed.

Lemma raw_get_frame k P X Q : ~ In k (keys P) -> ~ In k (keys Q) -> raw_get k (P ++ X ++ Q) = raw_get k X.
Proof.
  intros HP HQ. rewrite (raw_get_app_r k P _ (raw_has_notin k P HP)).
  destruct (raw_get k X) as [w|] eqn:Ex; [exact (raw_get_app_l k X Q w Ex)|].
  rewrite raw_get_app_r; [exact (raw_get_notin k Q HQ)|].
  destruct (raw_has k X) eqn:Eh; [|reflexivity]. destruct (raw_has_get k X Eh) as [w Hw]. congruence.
Qed.

Lemma fold_raw_set_fresh (ckv r : rawmap) :
  NoDup (keys ckv) -> disj (keys ckv) (keys r) ->
  fold_left (fun r0 e => raw_set (fst e) (snd e) r0) ckv r = r ++ ckv.
Proof.
  revert r. induction ckv as [|[k v] t IH]; intros r Hnd Hf; [rewrite app_nil_r; reflexivity|].
  cbn [keys map fst] in Hnd. inversion Hnd as [|x l Hx Hl]; subst.
  cbn [fold_left fst snd]. rewrite (raw_set_fresh k v r (Hf k (or_introl eq_refl))), IH.
  - rewrite <- app_assoc. reflexivity.
  - exact Hl.
  - rewrite keys_app. apply disj_app_r; [exact (disj_incl _ _ _ _ Hf (incl_tl k (incl_refl _)) (incl_refl _))|].
    intros k' Hk' [<-|[]]. exact (Hx Hk').
Qed.

Definition del_all (ks : list str) (r : rawmap) : rawmap := filter (fun e => negb (existsb (str_eqb (fst e)) ks)) r.

Lemma In_del_all ks r e : In e (del_all ks r) <-> In e r /\ ~ In (fst e) ks.
Proof.
  unfold del_all. rewrite filter_In, Bool.negb_true_iff. split; intros [H1 H2]; (split; [exact H1|]).
  - intros Hin. apply existsb_str_eqb_In in Hin. congruence.
  - destruct (existsb (str_eqb (fst e)) ks) eqn:Ex; [|reflexivity]. exfalso. apply H2, existsb_str_eqb_In, Ex.
Qed.
Lemma del_all_nil r : del_all [] r = r.
Proof. unfold del_all. cbn [existsb negb]. induction r as [|e t IH]; [reflexivity|]. cbn [filter]. rewrite IH. reflexivity. Qed.
Lemma del_all_cons k ks r : del_all ks (raw_del k r) = del_all (k :: ks) r.
Proof.
  unfold del_all, raw_del. induction r as [|e t IH]; [reflexivity|]. cbn [filter existsb].
  destruct (str_eqb (fst e) k); cbn [negb orb]; [exact IH|]. cbn [filter].
  destruct (existsb (str_eqb (fst e)) ks); cbn [negb]; rewrite IH; reflexivity.
Qed.
Lemma del_all_more ks ks' r : del_all ks' (del_all ks r) = del_all (ks ++ ks') r.
Proof. revert r. induction ks as [|k t IH]; intros r; cbn [app]; [rewrite del_all_nil; reflexivity|]. rewrite <- !del_all_cons. apply IH. Qed.
Lemma fold_raw_del {A} (h : A -> str) (l : list A) : forall r,
  fold_left (fun r0 a => raw_del (h a) r0) l r = del_all (map h l) r.
Proof. induction l as [|a t IH]; intros r; cbn [fold_left map]; [symmetry; apply del_all_nil|]. rewrite IH. apply del_all_cons. Qed.
Lemma fold_raw_del_notin {A} (h : A -> str) (l : list A) : forall r,
  (forall a, In a l -> raw_has (h a) r = false) -> fold_left (fun r0 a => raw_del (h a) r0) l r = r.
Proof.
  induction l as [|a t IH]; intros r H; [reflexivity|]. cbn [fold_left].
  rewrite (raw_del_notin _ _ (H a (or_introl eq_refl))). apply IH. intros b Hb. apply H. right. exact Hb.
Qed.
Lemma del_all_app ks a b : del_all ks (a ++ b) = del_all ks a ++ del_all ks b.
Proof. apply filter_app. Qed.
Lemma del_all_keep ks r : disj (keys r) ks -> del_all ks r = r.
Proof.
  induction r as [|e t IH]; intros H; [reflexivity|]. cbn [del_all filter].
  destruct (existsb (str_eqb (fst e)) ks) eqn:Ex; [exfalso; exact (H (fst e) (or_introl eq_refl) (proj1 (existsb_str_eqb_In _ _) Ex))|].
  cbn [negb]. f_equal. apply IH. intros k Hk. apply H. right. exact Hk.
Qed.
Lemma del_all_sub ks r : incl (keys r) ks -> del_all ks r = [].
Proof.
  induction r as [|e t IH]; intros H; [reflexivity|]. cbn [del_all filter].
  rewrite (proj2 (existsb_str_eqb_In (fst e) ks) (H _ (or_introl eq_refl))). cbn [negb]. apply IH. intros k Hk. apply H. right. exact Hk.
Qed.
Lemma del_all_frame ks P X Q : disj (keys P) ks -> disj (keys Q) ks -> del_all ks (P ++ X ++ Q) = P ++ del_all ks X ++ Q.
Proof. intros HP HQ. rewrite !del_all_app, (del_all_keep ks P HP), (del_all_keep ks Q HQ). reflexivity. Qed.
Lemma del_all_keys ds r : incl (keys (del_all ds r)) (keys r).
Proof. intros k Hk. apply in_map_iff in Hk. destruct Hk as [e [He Hin]]. apply In_del_all in Hin. subst k. apply in_map, Hin. Qed.
Lemma del_all_gone ds r : disj ds (keys (del_all ds r)).
Proof. intros k Hk Hin. apply in_map_iff in Hin. destruct Hin as [e [He Hin]]. apply In_del_all in Hin. subst k. exact (proj2 Hin Hk). Qed.
Lemma del_all_nodup ds r : NoDup (keys r) -> NoDup (keys (del_all ds r)).
Proof. apply NoDup_map_filter. Qed.

(* a fold of steps each of which rewrites its own segment A o of the map into K o, appends B o, and touches only keys it
   owns: the segments are rewritten one after the other *)
Lemma fold_frame {X} (step : X -> rawmap -> res rawmap) (A K B : X -> rawmap) (own : X -> list str) (ok : X -> rawmap -> Prop) :
  (forall o P Y, ok o P -> ok o (P ++ Y)) ->
  forall os,
  (forall o, In o os -> incl (keys (A o)) (own o) /\ incl (keys (K o)) (own o) /\ incl (keys (B o)) (own o)) ->
  (forall o P Q, In o os -> NoDup (own o) -> disj (own o) (keys P ++ keys Q) -> ok o P ->
                 step o (P ++ A o ++ Q) = ROk (P ++ K o ++ Q ++ B o)) ->
  NoDup (flat_map own os) ->
  forall P Q, disj (flat_map own os) (keys P ++ keys Q) -> (forall o, In o os -> ok o P) ->
  fold_left (fun acc o => acc >>= step o) os (ROk (P ++ flat_map A os ++ Q)) = ROk (P ++ flat_map K os ++ Q ++ flat_map B os).
Proof.
  intros Hmono. induction os as [|o r IH]; intros Hown Hstep Hnd P Q Hdisj Hok.
  - cbn [fold_left flat_map app]. rewrite app_nil_r. reflexivity.
  - cbn [flat_map] in *. destruct (NoDup_app_inv _ _ Hnd) as [Hno [Hnr Hd]].
    destruct (Hown o (or_introl eq_refl)) as [HA [HK HB]].
    assert (Hown_r : forall o', In o' r -> incl (keys (A o')) (own o') /\ incl (keys (K o')) (own o') /\ incl (keys (B o')) (own o'))
      by (intros o' Ho'; apply Hown; right; exact Ho').
    assert (HAr : incl (keys (flat_map A r)) (flat_map own r)).
    { rewrite keys_flat_map. apply incl_flat_map. intros o' Ho'. apply (Hown_r o' Ho'). }
    cbn [fold_left rbind]. rewrite <- !app_assoc.
    rewrite (Hstep o P (flat_map A r ++ Q) (or_introl eq_refl) Hno).
    + replace (P ++ K o ++ (flat_map A r ++ Q) ++ B o) with ((P ++ K o) ++ flat_map A r ++ (Q ++ B o))
        by (rewrite <- !app_assoc; reflexivity).
      rewrite (IH Hown_r (fun o' P' Q' Ho' => Hstep o' P' Q' (or_intror Ho')) Hnr).
      * rewrite <- !app_assoc. reflexivity.
      * rewrite !keys_app, <- app_assoc. apply disj_app_r; [|apply disj_app_r; [|apply disj_app_r]].
        -- exact (disj_incl _ _ _ _ Hdisj (incl_appr _ (incl_refl _)) (incl_appl _ (incl_refl _))).
        -- exact (disj_incl _ _ _ _ (disj_sym _ _ Hd) (incl_refl _) HK).
        -- exact (disj_incl _ _ _ _ Hdisj (incl_appr _ (incl_refl _)) (incl_appr _ (incl_refl _))).
        -- exact (disj_incl _ _ _ _ (disj_sym _ _ Hd) (incl_refl _) HB).
      * intros o' Ho'. apply Hmono. apply Hok. right. exact Ho'.
    + rewrite keys_app, app_assoc. apply disj_app_r; [|exact (disj_incl _ _ _ _ Hdisj (incl_appl _ (incl_refl _)) (incl_appr _ (incl_refl _)))].
      apply disj_app_r; [exact (disj_incl _ _ _ _ Hdisj (incl_appl _ (incl_refl _)) (incl_appl _ (incl_refl _)))|].
      exact (disj_incl _ _ _ _ Hd (incl_refl _) HAr).
    + apply Hok. left. reflexivity.
Qed.
