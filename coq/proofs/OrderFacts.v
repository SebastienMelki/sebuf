(* OrderFacts.v — C15, output independent of input order.  str_le is a total order on byte strings, so
   sorting by it gives one result for every arrival order (Sections SortGeneric, SortFacts); the
   case-insensitive key is total and transitive but not antisymmetric, and a sort by it does depend on
   arrival order (coarse_key_sort_depends_on_arrival_order).  Second half: the unwrap table of a request is
   resolved against all files, so generating a file ignores files it does not reach ([subl], the
   order-preserving sublist, carries this through filter / flat_map). *)
From Sebuf Require Import Text Order.
From SebufProofs Require Import TextFacts ListFacts.

Lemma code_inj a b : code a = code b -> a = b.
Proof. unfold code. intros H. rewrite <- (ascii_N_embedding a), <- (ascii_N_embedding b). now rewrite H. Qed.

(* the order is lexicographic in the byte codes *)
Lemma str_le_cons x a y b :
  str_le (x :: a) (y :: b) = true <-> (code x < code y)%N \/ (code x = code y /\ str_le a b = true).
Proof.
  cbn. destruct (N.ltb_spec (code x) (code y)) as [H|H]; [split; auto|].
  destruct (N.ltb_spec (code y) (code x)) as [H'|H']; split.
  - discriminate.
  - intros [?|[? _]]; lia.
  - intros E. right. split; [lia|exact E].
  - intros [?|[_ E]]; [lia|exact E].
Qed.

Lemma str_le_refl a : str_le a a = true.
Proof. induction a as [|x a IH]; [reflexivity|]. apply str_le_cons. now right. Qed.

Lemma str_le_total a b : str_le a b = true \/ str_le b a = true.
Proof.
  revert b; induction a as [|x a IH]; intros [|y b]; [now left..|now right|]. rewrite !str_le_cons.
  destruct (N.lt_trichotomy (code x) (code y)) as [H|[H|H]]; auto.
  destruct (IH b); [left|right]; right; auto.
Qed.

Lemma str_le_antisym a b : str_le a b = true -> str_le b a = true -> a = b.
Proof.
  revert b; induction a as [|x a IH]; intros [|y b]; try discriminate; [reflexivity|]. rewrite !str_le_cons.
  intros [H1|[E1 H1]] [H2|[E2 H2]]; try lia. f_equal; [now apply code_inj|now apply IH].
Qed.

Lemma str_le_trans a b c : str_le a b = true -> str_le b c = true -> str_le a c = true.
Proof.
  revert b c; induction a as [|x a IH]; intros [|y b] [|z c]; try discriminate; auto. rewrite !str_le_cons.
  intros [H1|[E1 H1]] [H2|[E2 H2]]; [left; lia..|]. right. split; [lia|now apply (IH b)].
Qed.

Section SortGeneric.
  Variable A : Type.
  Notation entry := (str * A)%type.

  (* generic in the comparison: what makes the sorted output unique is that [le] is total,
     transitive and ANTISYMMETRIC ON KEYS *)
  Variable le : str -> str -> bool.
  Hypothesis le_total : forall a b, le a b = true \/ le b a = true.
  Hypothesis le_trans : forall a b c, le a b = true -> le b c = true -> le a c = true.
  Hypothesis le_antisym : forall a b, le a b = true -> le b a = true -> a = b.

  Lemma le_false_flip (x y : str) : le x y = false -> le y x = true.
  Proof. intros H. destruct (le_total x y); congruence. Qed.
  (* antisymmetry is used exactly here: two DIFFERENT keys cannot each be below the other, so their
     relative position after insertion does not depend on which was inserted first *)
  Lemma le_neq_flip (x y : str) : x <> y -> le x y = true -> le y x = false.
  Proof. intros Hn H. destruct (le y x) eqn:E; [|reflexivity]. exfalso. apply Hn. now apply le_antisym. Qed.

  Lemma insert_comm (x y : entry) l : fst x <> fst y ->
    insert_with le x (insert_with le y l) = insert_with le y (insert_with le x l).
  Proof.
    intros Hn. induction l as [|z r IH].
    - cbn. destruct (le (fst x) (fst y)) eqn:E.
      + now rewrite (le_neq_flip _ _ Hn E).
      + now rewrite (le_false_flip _ _ E).
    - cbn [insert_with]. destruct (le (fst y) (fst z)) eqn:Eyz; destruct (le (fst x) (fst z)) eqn:Exz; cbn [insert_with].
      + destruct (le (fst x) (fst y)) eqn:Exy.
        * rewrite (le_neq_flip _ _ Hn Exy). now rewrite Eyz.
        * rewrite (le_false_flip _ _ Exy). now rewrite Exz.
      + assert (Exy : le (fst x) (fst y) = false).
        { destruct (le (fst x) (fst y)) eqn:E; [|reflexivity]. rewrite (le_trans _ _ _ E Eyz) in Exz. discriminate. }
        rewrite Exy, Exz, Eyz. reflexivity.
      + assert (Eyx : le (fst y) (fst x) = false).
        { destruct (le (fst y) (fst x)) eqn:E; [|reflexivity]. rewrite (le_trans _ _ _ E Exz) in Eyz. discriminate. }
        rewrite Exz, Eyx, Eyz. reflexivity.
      + rewrite Exz, Eyz. now rewrite IH.
  Qed.

  Theorem sort_with_perm (l l' : list entry) :
    Permutation l l' -> NoDup (map fst l) -> sort_with le l = sort_with le l'.
  Proof.
    induction 1 as [|x l l' Hp IH|x y l|l l' l'' Hp1 IH1 Hp2 IH2]; intros Hnd.
    - reflexivity.
    - change (insert_with le x (sort_with le l) = insert_with le x (sort_with le l')).
      rewrite IH; [reflexivity|]. cbn in Hnd. now inversion Hnd.
    - change (insert_with le y (insert_with le x (sort_with le l)) = insert_with le x (insert_with le y (sort_with le l))).
      apply insert_comm. cbn in Hnd. inversion Hnd as [|? ? Hin _]. intros E. apply Hin. left. now symmetry.
    - rewrite IH1 by assumption. apply IH2.
      apply (Permutation_NoDup (l := map fst l)); [now apply Permutation_map|assumption].
  Qed.

End SortGeneric.

Section SortFacts.
  Variable A : Type.
  Notation entry := (str * A)%type.

  (* the generators' instance: sort.Strings on the exact names *)
  Theorem sort_by_key_perm (l l' : list entry) :
    Permutation l l' -> NoDup (map fst l) -> sort_by_key l = sort_by_key l'.
  Proof. apply (sort_with_perm A str_le str_le_total str_le_trans str_le_antisym). Qed.

  (* the content of a Go map has unique keys *)
  Lemma remove_key_in k (l : list entry) e : In e (remove_key k l) -> In e l /\ fst e <> k.
  Proof.
    induction l as [|y r IH]; cbn; [contradiction|]. destruct (str_eqb k (fst y)) eqn:E.
    - intros H. destruct (IH H). split; [now right|assumption].
    - intros [->|H]; [split; [now left|]|].
      + apply str_eqb_neq in E. congruence.
      + destruct (IH H). split; [now right|assumption].
  Qed.
  Lemma remove_key_nodup k (l : list entry) : NoDup (map fst l) -> NoDup (map fst (remove_key k l)).
  Proof.
    induction l as [|y r IH]; cbn; intros H; [constructor|]. inversion H as [|? ? Hin Hr]. subst.
    destruct (str_eqb k (fst y)); [now apply IH|]. cbn. constructor; [|now apply IH].
    intros Hc. apply Hin. apply in_map_iff in Hc as (e & He & Hi). apply remove_key_in in Hi as [Hi _].
    apply in_map_iff. eauto.
  Qed.
  Lemma map_put_nodup (m : list entry) x : NoDup (map fst m) -> NoDup (map fst (map_put m x)).
  Proof.
    intros H. unfold map_put. cbn. constructor; [|now apply remove_key_nodup].
    intros Hc. apply in_map_iff in Hc as (e & He & Hi). apply remove_key_in in Hi as [_ Hi]. congruence.
  Qed.
  Lemma map_of_nodup_from (ws m : list entry) : NoDup (map fst m) -> NoDup (map fst (fold_left map_put ws m)).
  Proof. revert m; induction ws as [|w r IH]; intros m H; cbn; [assumption|]. apply IH. now apply map_put_nodup. Qed.
  Lemma map_of_nodup (ws : list entry) : NoDup (map fst (map_of ws)).
  Proof. apply map_of_nodup_from. constructor. Qed.

  (* CombineHeaders returns the same slice whatever order the runtime iterates the map in *)
  Theorem combine_headers_order_independent (pi pi' : list entry -> list entry) svc mth :
    (forall m, Permutation m (pi m)) -> (forall m, Permutation m (pi' m)) ->
    combine_headers pi svc mth = combine_headers pi' svc mth.
  Proof.
    intros H1 H2. unfold combine_headers. destruct svc; [reflexivity|]. destruct mth; [reflexivity|].
    set (m := map_of _). transitivity (sort_by_key m).
    - symmetry. apply sort_by_key_perm; [apply H1|apply map_of_nodup].
    - apply sort_by_key_perm; [apply H2|apply map_of_nodup].
  Qed.
End SortFacts.

(* A sort under a coarser key is NOT a function of the collection: the case-insensitive comparison is
   total and transitive, yet two different names that are equal up to case come out in arrival order. *)
Lemma str_le_ci_total a b : str_le_ci a b = true \/ str_le_ci b a = true.
Proof. apply str_le_total. Qed.
Lemma str_le_ci_trans a b c : str_le_ci a b = true -> str_le_ci b c = true -> str_le_ci a c = true.
Proof. apply str_le_trans. Qed.
Lemma str_le_ci_not_antisymmetric :
  str_le_ci (s "X-Request-Id") (s "X-Request-ID") = true /\ str_le_ci (s "X-Request-ID") (s "X-Request-Id") = true /\
  s "X-Request-Id" <> s "X-Request-ID".
Proof. repeat split; try reflexivity. vm_compute. discriminate. Qed.
Lemma coarse_key_sort_depends_on_arrival_order :
  let l1 := [(s "X-Request-Id", 1%nat); (s "X-Request-ID", 2%nat); (s "Accept", 3%nat)] in
  let l2 := [(s "X-Request-ID", 2%nat); (s "X-Request-Id", 1%nat); (s "Accept", 3%nat)] in
  Permutation l1 l2 /\ NoDup (map fst l1) /\
  sort_with str_le_ci l1 <> sort_with str_le_ci l2 /\
  sort_by_key l1 = sort_by_key l2.
Proof.
  cbv zeta. split; [apply perm_swap|]. split.
  - repeat constructor; cbn; intuition discriminate.
  - split; [vm_compute; discriminate|reflexivity].
Qed.

Inductive subl {X} : list X -> list X -> Prop :=
  | subl_nil : subl [] []
  | subl_skip x l l' : subl l l' -> subl l (x :: l')
  | subl_keep x l l' : subl l l' -> subl (x :: l) (x :: l').

Lemma subl_refl {X} (l : list X) : subl l l.
Proof. induction l; [constructor|now apply subl_keep]. Qed.
Lemma subl_filter {X} (P : X -> bool) l : subl (filter P l) l.
Proof. induction l as [|x r IH]; cbn; [constructor|]. destruct (P x); [now apply subl_keep|now apply subl_skip]. Qed.
Lemma subl_app {X} (a a' b b' : list X) : subl a a' -> subl b b' -> subl (a ++ b) (a' ++ b').
Proof. induction 1; cbn; intros Hb; [assumption|apply subl_skip; auto|apply subl_keep; auto]. Qed.
Lemma subl_nil_l {X} (l : list X) : subl [] l.
Proof. induction l; [constructor|now apply subl_skip]. Qed.
Lemma subl_flat_map {X Y} (f : X -> list Y) l l' : subl l l' -> subl (flat_map f l) (flat_map f l').
Proof.
  induction 1; cbn; [constructor| |].
  - replace (flat_map f l) with ([] ++ flat_map f l) by reflexivity. apply subl_app; [apply subl_nil_l|assumption].
  - apply subl_app; [apply subl_refl|assumption].
Qed.
Lemma subl_in {X} (l l' : list X) x : subl l l' -> In x l -> In x l'.
Proof. induction 1; cbn; intros Hx; auto. destruct Hx; auto. Qed.

Lemma find_msg_some ms n m : find_msg ms n = Some m -> In m ms /\ om_name m = n.
Proof.
  induction ms as [|a r IH]; cbn; [discriminate|]. destruct (str_eqb (om_name a) n) eqn:E.
  - intros H. inversion H. subst. split; [now left|now apply str_eqb_eq].
  - intros H. destruct (IH H). split; [now right|assumption].
Qed.
Lemma find_msg_in ms n : In n (map om_name ms) -> exists m, find_msg ms n = Some m.
Proof.
  induction ms as [|a r IH]; cbn; [contradiction|]. destruct (str_eqb (om_name a) n) eqn:E; [eauto|].
  intros [H|H]; [apply str_eqb_neq in E; congruence|auto].
Qed.

(* unique names: a lookup in a sub-list of the pool finds what the pool finds *)
Lemma find_msg_subl l l' n m : subl l l' -> NoDup (map om_name l') -> find_msg l n = Some m -> find_msg l' n = Some m.
Proof.
  induction 1 as [|x l l' Hs IH|x l l' Hs IH]; cbn; intros Hnd Hf.
  - discriminate.
  - inversion Hnd as [|? ? Hin Hr]. subst. destruct (str_eqb (om_name x) n) eqn:E; [|auto].
    exfalso. apply Hin. apply find_msg_some in Hf as [Hi Hn]. apply str_eqb_eq in E. rewrite E, <- Hn.
    apply in_map. now apply (subl_in _ _ _ Hs).
  - inversion Hnd. subst. destruct (str_eqb (om_name x) n); [assumption|auto].
Qed.

Lemma subl_trans {X} (a b c : list X) : subl a b -> subl b c -> subl a c.
Proof.
  intros H1 H2. revert a H1. induction H2 as [|x l l' H2 IH|x l l' H2 IH]; intros a H1.
  - assumption.
  - apply subl_skip. auto.
  - inversion H1; subst; [apply subl_skip|apply subl_keep]; auto.
Qed.

Lemma global_subl r : subl (global_unwrap r) (all_msgs (rq_files r)).
Proof.
  unfold global_unwrap, all_msgs.
  eapply subl_trans; [apply subl_filter|]. apply subl_flat_map. apply subl_filter.
Qed.

(* the table lookup and its fallback always amount to "the unwrap info of the resolved message":
   which files are generated together does not matter *)
Theorem unwrap_info_is_resolved r n : wf_request r ->
  unwrap_info r n = match resolve r n with Some m => om_unwrap m | None => None end.
Proof.
  intros Hwf. unfold unwrap_info. destruct (find_msg (global_unwrap r) n) as [m|] eqn:E; [|reflexivity].
  unfold resolve. now rewrite (find_msg_subl _ _ _ _ (global_subl r) Hwf E).
Qed.

Lemma generate_via_resolve r1 r2 f : wf_request r1 -> wf_request r2 ->
  (forall m n, In m (of_msgs f) -> In n (om_refs m ++ om_mapvals m) -> resolve r1 n = resolve r2 n) ->
  generate r1 f = generate r2 f.
Proof.
  intros W1 W2 H. unfold generate, generate_with. f_equal.
  - apply flat_map_ext_in. intros m Hm. apply map_ext_in. intros n Hn. now apply (H m n).
  - unfold unwrap_part. apply flat_map_ext_in. intros m Hm. apply flat_map_ext_in. intros n Hn.
    rewrite !unwrap_info_is_resolved by assumption. rewrite (H m n Hm); [reflexivity|]. apply in_or_app. now right.
Qed.


(* files added anywhere in proto_file (and possibly to file_to_generate) that f does not reach *)
Theorem generate_ignores_unrelated r1 r2 f :
  subl (rq_files r1) (rq_files r2) -> wf_request r2 -> closed_in r1 f ->
  generate r1 f = generate r2 f.
Proof.
  intros Hs W2 Hc.
  assert (Hsm : subl (all_msgs (rq_files r1)) (all_msgs (rq_files r2))) by (apply subl_flat_map; assumption).
  assert (W1 : wf_request r1).
  { unfold wf_request, names in *. clear Hc. induction Hsm as [|x l l' Hs' IH|x l l' Hs' IH]; cbn in *.
    - constructor.
    - inversion W2; auto.
    - inversion W2 as [|? ? Hin Hr]; subst. constructor; [|auto].
      intros Hc. apply Hin. apply in_map_iff in Hc as (e & He & Hi). apply in_map_iff. exists e. split; [assumption|].
      now apply (subl_in _ _ _ Hs'). }
  apply generate_via_resolve; [assumption|assumption|].
  intros m n Hm Hn. specialize (Hc m n Hm Hn). unfold names in Hc. apply find_msg_in in Hc as (x & Hx).
  unfold resolve. rewrite Hx. symmetry. now apply (find_msg_subl _ _ _ _ Hsm W2).
Qed.

(* without the fallback of collectUnwrapMapFields the output of a file WOULD depend on whether the
   file defining a map's value type is generated in the same invocation *)
Local Open Scope string_scope.
Definition b_file : ofile := {| of_path := s "b.proto"; of_imports := [];
  of_msgs := [ {| om_name := s "p.B"; om_unwrap := Some 7; om_mapvals := []; om_refs := []; om_body := 0 |} ]; of_body := 0 |}.
Definition a_file : ofile := {| of_path := s "a.proto"; of_imports := [s "b.proto"];
  of_msgs := [ {| om_name := s "p.A"; om_unwrap := None; om_mapvals := [s "p.B"]; om_refs := []; om_body := 1 |} ]; of_body := 0 |}.
Definition r_single : request := {| rq_files := [b_file; a_file]; rq_gen := [s "a.proto"] |}.
Definition r_multi : request := {| rq_files := [b_file; a_file]; rq_gen := [s "b.proto"; s "a.proto"] |}.


Lemma r_multi_wf : wf_request r_multi /\ closed_in r_multi a_file.
Proof.
  split.
  - unfold wf_request. cbn. repeat constructor; cbn; intuition discriminate.
  - intros m n Hm Hn. cbn in *. destruct Hm as [<-|[]]. cbn in Hn. destruct Hn as [<-|[]]. now left.
Qed.
