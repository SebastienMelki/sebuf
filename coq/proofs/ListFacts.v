(* ListFacts.v — facts about lists, boolean tests over lists (of strings, too), options and folds that are not
   about any one model; a store written key by key; a fold that keeps the best candidate. *)
From Sebuf Require Import Text.
From SebufProofs Require Import TextFacts.
From Coq Require Import List Bool.
Import ListNotations.

Lemma existsb_false {A} (p : A -> bool) l : existsb p l = false <-> forall x, In x l -> p x = false.
Proof.
  split.
  - intros H x Hx. destruct (p x) eqn:E; [|reflexivity].
    rewrite <- H. symmetry. apply existsb_exists. now exists x.
  - intros H. destruct (existsb p l) eqn:E; [|reflexivity].
    apply existsb_exists in E as [x [Hx E]]. now rewrite (H x Hx) in E.
Qed.

Lemma existsb_false_of_forallb {A} (f g : A -> bool) l :
  (forall c, g c = true -> f c = false) -> forallb g l = true -> existsb f l = false.
Proof.
  intros H Hg. apply existsb_false. intros c Hc. apply H. exact (proj1 (forallb_forall g l) Hg c Hc).
Qed.

Lemma existsb_str_eqb_In x l : existsb (str_eqb x) l = true <-> In x l.
Proof.
  rewrite existsb_exists. split.
  - intros [y [Hy E]]. apply str_eqb_eq in E. now subst.
  - intros H. exists x. split; [exact H|apply str_eqb_refl].
Qed.

Lemma flat_map_nil {A B} (f : A -> list B) l : flat_map f l = [] <-> forall x, In x l -> f x = [].
Proof.
  induction l as [|a l IH]; cbn; [split; [intros _ x []|reflexivity]|].
  split.
  - intros H x [<-|Hx]; apply app_eq_nil in H as [H1 H2]; [exact H1|now apply IH].
  - intros H. rewrite (H a (or_introl eq_refl)). apply IH. intros x Hx. apply H. now right.
Qed.

Lemma filter_nil {A} (p : A -> bool) l : filter p l = [] <-> forall x, In x l -> p x = false.
Proof.
  induction l as [|a l IH]; cbn; [split; [intros _ x []|reflexivity]|].
  destruct (p a) eqn:E; split.
  - discriminate.
  - intros H. now rewrite (H a (or_introl eq_refl)) in E.
  - intros H x [<-|Hx]; [exact E|now apply IH].
  - intros H. apply IH. intros x Hx. apply H. now right.
Qed.

Lemma filter_idem {A} (p : A -> bool) l : filter p (filter p l) = filter p l.
Proof.
  induction l as [|a r IH]; simpl; [reflexivity|].
  destruct (p a) eqn:Ep; simpl; [rewrite Ep, IH; reflexivity|exact IH].
Qed.
Lemma filter_cons_app {A} (p : A -> bool) x l : filter p (x :: l) = (if p x then [x] else []) ++ filter p l.
Proof. cbn [filter]. destruct (p x); reflexivity. Qed.

Lemma if_nil {A} (b : bool) (x : A) : (if b then [x] else []) = [] -> b = false.
Proof. destruct b; [discriminate|reflexivity]. Qed.

Lemma NoDup_map_inj {A B} (f : A -> B) l a b : NoDup (map f l) -> In a l -> In b l -> f a = f b -> a = b.
Proof.
  induction l as [|x l IH]; cbn; intros ND Ha Hb E; [contradiction|].
  inversion ND as [|? ? NI ND']; subst.
  destruct Ha as [<-|Ha], Hb as [<-|Hb]; [reflexivity| | |now apply IH].
  - exfalso. apply NI. rewrite E. now apply in_map.
  - exfalso. apply NI. rewrite <- E. now apply in_map.
Qed.

Lemma NoDup_app {A} (a b : list A) : NoDup a -> NoDup b -> (forall x, In x a -> In x b -> False) -> NoDup (a ++ b).
Proof.
  induction a as [|x a IH]; intros Ha Hb Hd; [exact Hb|].
  inversion Ha as [|? ? Hx Ha']; subst. cbn. constructor.
  - intros Hin. apply in_app_or in Hin as [Hin|Hin]; [exact (Hx Hin)|exact (Hd x (or_introl eq_refl) Hin)].
  - apply IH; [exact Ha'|exact Hb|]. intros y Hy. apply Hd. now right.
Qed.

Lemma NoDup_app_inv {A} (a b : list A) : NoDup (a ++ b) -> NoDup a /\ NoDup b /\ (forall x, In x a -> In x b -> False).
Proof.
  induction a as [|x r IH]; intros H; [split; [constructor|split; [exact H|intros x []]]|].
  cbn [app] in H. inversion H as [|y l Hx Hl]; subst. destruct (IH Hl) as [H1 [H2 H3]]. split; [|split].
  - constructor; [|exact H1]. intros Hin. apply Hx. apply in_or_app. left. exact Hin.
  - exact H2.
  - intros z [Hz|Hz] Hb; [subst z; apply Hx; apply in_or_app; right; exact Hb|exact (H3 z Hz Hb)].
Qed.

Lemma NoDup_map_filter {A B} (g : A -> B) (p : A -> bool) l : NoDup (map g l) -> NoDup (map g (filter p l)).
Proof.
  induction l as [|a r IH]; cbn [map filter]; intros H; [constructor|]. inversion H as [|x l0 Hn Hr]; subst.
  destruct (p a); [|exact (IH Hr)]. cbn [map]. constructor; [|exact (IH Hr)].
  intros Hin. apply Hn. apply in_map_iff in Hin. destruct Hin as [b [Hb Hinb]]. apply filter_In in Hinb.
  rewrite <- Hb. apply in_map. apply Hinb.
Qed.

Lemma NoDup_map_in {A B} (g : A -> B) (l : list A) :
  NoDup l -> (forall a b, In a l -> In b l -> g a = g b -> a = b) -> NoDup (map g l).
Proof.
  induction l as [|a r IH]; intros Hnd Hinj; cbn [map]; [constructor|].
  inversion Hnd as [|x l0 Hnotin Hnd']; subst. constructor.
  - intros Hin. apply in_map_iff in Hin. destruct Hin as [b [Hb Hinb]].
    assert (Hba : b = a) by (apply Hinj; [right; exact Hinb|left; reflexivity|exact Hb]).
    subst b. contradiction.
  - apply IH; [exact Hnd'|]. intros x y Hx Hy. apply Hinj; right; assumption.
Qed.

Lemma find_unique {A} (p : A -> bool) (l : list A) f :
  In f l -> p f = true -> (forall g, In g l -> p g = true -> g = f) -> find p l = Some f.
Proof.
  induction l as [|a r IH]; intros Hin Hp Hu; [destruct Hin|]. cbn [find].
  destruct (p a) eqn:Ea.
  - f_equal. apply Hu; [left; reflexivity|exact Ea].
  - destruct Hin as [Hin|Hin]; [subst a; congruence|]. apply IH; [exact Hin|exact Hp|]. intros g Hg. apply Hu. right. exact Hg.
Qed.

Lemma filter_map_comm {A B} (g : A -> B) (P : B -> bool) (l : list A) :
  filter P (map g l) = map g (filter (fun a => P (g a)) l).
Proof. induction l as [|a l IH]; [reflexivity|]. cbn [map filter]. destruct (P (g a)); [cbn [map]; f_equal|]; exact IH. Qed.

Lemma flat_map_single {A} (l : list A) : flat_map (fun e => [e]) l = l.
Proof. induction l as [|a r IH]; cbn [flat_map]; [reflexivity|]. rewrite IH. reflexivity. Qed.
Lemma flat_map_flat_map {A B C} (f : A -> list B) (g : B -> list C) l :
  flat_map g (flat_map f l) = flat_map (fun x => flat_map g (f x)) l.
Proof. induction l as [|a r IH]; cbn [flat_map]; [reflexivity|]. rewrite flat_map_app, IH. reflexivity. Qed.
Lemma flat_map_ext_in {A B} (f g : A -> list B) l : (forall a, In a l -> f a = g a) -> flat_map f l = flat_map g l.
Proof.
  induction l as [|a r IH]; intros H; cbn [flat_map]; [reflexivity|].
  rewrite (H a (or_introl eq_refl)), IH; [reflexivity|]. intros b Hb. apply H. right. exact Hb.
Qed.
Lemma incl_flat_map {A B} (g h : A -> list B) os : (forall o, In o os -> incl (g o) (h o)) -> incl (flat_map g os) (flat_map h os).
Proof.
  intros H k Hk. apply in_flat_map in Hk. destruct Hk as [o [Ho Hk]]. apply in_flat_map. exists o. split; [exact Ho|exact (H o Ho k Hk)].
Qed.

Lemma Forall2_in_l {A B} (R : A -> B -> Prop) l l' a : Forall2 R l l' -> In a l -> exists b, In b l' /\ R a b.
Proof.
  induction 1 as [|x y r r' Hxy _ IH]; intros Hin; [destruct Hin|]. destruct Hin as [<-|Hin].
  - exists y. split; [left; reflexivity|exact Hxy].
  - destruct (IH Hin) as [b [Hb HR]]. exists b. split; [right; exact Hb|exact HR].
Qed.
Lemma Forall2_in_r {A B} (R : A -> B -> Prop) l l' b : Forall2 R l l' -> In b l' -> exists a, In a l /\ R a b.
Proof.
  induction 1 as [|x y r r' Hxy _ IH]; intros Hin; [destruct Hin|]. destruct Hin as [<-|Hin].
  - exists x. split; [left; reflexivity|exact Hxy].
  - destruct (IH Hin) as [a [Ha HR]]. exists a. split; [right; exact Ha|exact HR].
Qed.
Lemma Forall2_filter {A B} (R : A -> B -> Prop) (p : A -> bool) (q : B -> bool) l l' :
  Forall2 R l l' -> (forall a b, R a b -> p a = q b) -> Forall2 R (filter p l) (filter q l').
Proof.
  intros HF Hpq. induction HF as [|a b r r' Hab _ IH]; [constructor|]. cbn [filter]. rewrite <- (Hpq a b Hab).
  destruct (p a); [constructor; assumption|exact IH].
Qed.
Lemma Forall2_flat_map_in {A B C D} (P : A -> B -> Prop) (Q : C -> D -> Prop) (F : A -> list C) (G : B -> list D) l1 l2 :
  Forall2 P l1 l2 -> (forall a b, In a l1 -> P a b -> Forall2 Q (F a) (G b)) -> Forall2 Q (flat_map F l1) (flat_map G l2).
Proof.
  intros HF. induction HF as [|a b r r' Hab _ IH]; intros Himp; cbn [flat_map]; [constructor|].
  apply Forall2_app; [apply Himp; [left; reflexivity|exact Hab]|].
  apply IH. intros a' b' Hin. apply Himp. right. exact Hin.
Qed.
Lemma Forall2_flat_map {A B C} (R : B -> C -> Prop) (f : A -> list B) (g : A -> list C) l :
  (forall a, In a l -> Forall2 R (f a) (g a)) -> Forall2 R (flat_map f l) (flat_map g l).
Proof.
  induction l as [|a r IH]; intros H; [constructor|]. cbn [flat_map]. apply Forall2_app.
  - apply H. left. reflexivity.
  - apply IH. intros b Hb. apply H. right. exact Hb.
Qed.

Lemma fold_left_ext_in {A B} (g h : A -> B -> A) (l : list B) :
  (forall a b, In b l -> g a b = h a b) -> forall a, fold_left g l a = fold_left h l a.
Proof.
  induction l as [|b l IH]; intros H a; [reflexivity|]. cbn [fold_left]. rewrite (H a b (or_introl eq_refl)).
  apply IH. intros a' b' Hb'. apply H. right. exact Hb'.
Qed.
Lemma fold_left_ext {A B} (g h : A -> B -> A) (l : list B) : (forall a b, g a b = h a b) -> forall a, fold_left g l a = fold_left h l a.
Proof. intros H. apply fold_left_ext_in. intros a b _. apply H. Qed.

Lemma fold_left_none {A X} (st : option A -> X -> option A) :
  (forall x, st None x = None) -> forall xs, fold_left st xs None = None.
Proof. intros H xs. induction xs as [|x xs IH]; cbn; [reflexivity|]. now rewrite H. Qed.

Lemma nth_error_map_mid {A B} (g : A -> B) pre x post :
  nth_error (map g (pre ++ x :: post)) (length pre) = Some (g x).
Proof. induction pre as [|a pre IH]; cbn; [reflexivity|exact IH]. Qed.

(* a statement about whatever a lookup finds, from the one thing it finds *)
Lemma forall_found {A} (o : option A) (P : A -> Prop) a : o = Some a -> P a -> forall x, o = Some x -> P x.
Proof. intros -> Hp x Hx. injection Hx as <-. exact Hp. Qed.

Lemma fold_left_some {A X} (P : A -> Prop) (st : option A -> X -> option A) es :
  (forall a e, In e es -> P a -> exists a', st (Some a) e = Some a' /\ P a') ->
  forall a, P a -> exists a', fold_left st es (Some a) = Some a' /\ P a'.
Proof.
  induction es as [|e es IH]; intros H a Pa; cbn [fold_left]; [now exists a|].
  destruct (H a e (or_introl eq_refl) Pa) as (a1 & E & P1). rewrite E.
  apply IH; [|exact P1]. intros b e' He'. apply H. now right.
Qed.

Lemma option_map_some {A B} (f : A -> B) (o : option A) (b : B) :
  option_map f o = Some b -> exists a, o = Some a /\ f a = b.
Proof. destruct o as [a|]; [intros [= <-]; now exists a|discriminate]. Qed.

Lemma skipn_app_len {A} (p x : list A) : skipn (List.length p) (p ++ x) = x.
Proof. induction p; [reflexivity|assumption]. Qed.

Lemma firstn_In {A} (x : A) n l : In x (firstn n l) -> In x l.
Proof.
  revert l; induction n as [|n IH]; intros [|a l]; cbn; try tauto.
  intros [->|H]; [now left|right; now apply IH].
Qed.

Lemma filter_id {A} (P : A -> bool) l : (forall x, In x l -> P x = true) -> filter P l = l.
Proof.
  induction l as [|a l IH]; intros H; [reflexivity|]. cbn. rewrite (H a (or_introl eq_refl)). f_equal.
  apply IH. intros x Hx. apply H. now right.
Qed.

Lemma filter_all_false {A} (p : A -> bool) l : existsb p l = false -> filter p l = [].
Proof. intros H. apply filter_nil. now apply existsb_false. Qed.

(* a weaker test keeps at least as many elements, and strictly more if it keeps one that the stronger drops *)
Lemma filter_le {A} (p q : A -> bool) (l : list A) :
  (forall x, In x l -> q x = true -> p x = true) -> List.length (filter q l) <= List.length (filter p l).
Proof.
  induction l as [|a l IH]; intros H; cbn [filter]; [apply le_n|].
  assert (IH' : List.length (filter q l) <= List.length (filter p l)).
  { apply IH. intros x Hx. apply H. now right. }
  destruct (q a) eqn:Eq.
  - rewrite (H a (or_introl eq_refl) Eq). apply le_n_S, IH'.
  - destruct (p a); [apply le_S|]; exact IH'.
Qed.

Lemma filter_lt {A} (p q : A -> bool) (l : list A) (a : A) :
  (forall x, In x l -> q x = true -> p x = true) -> In a l -> p a = true -> q a = false ->
  List.length (filter q l) < List.length (filter p l).
Proof.
  induction l as [|b l IH]; intros H Hin Hp Hq; [contradiction|]. cbn [filter].
  assert (Hl : forall x, In x l -> q x = true -> p x = true) by (intros x Hx; apply H; now right).
  destruct Hin as [->|Hin].
  - rewrite Hp, Hq. apply le_n_S, filter_le, Hl.
  - specialize (IH Hl Hin Hp Hq).
    destruct (q b) eqn:Eq.
    + rewrite (H b (or_introl eq_refl) Eq). apply le_n_S, IH.
    + destruct (p b); [apply le_S|]; exact IH.
Qed.

Lemma count_occ_filter {A} (dec : forall a b : A, {a = b} + {a <> b}) (P : A -> bool) x l :
  count_occ dec (filter P l) x <= count_occ dec l x.
Proof.
  induction l as [|y r IH]; cbn [filter count_occ]; [apply le_n|].
  destruct (P y); cbn [count_occ]; destruct (dec y x); [apply le_n_S| |apply le_S|]; exact IH.
Qed.

Lemma NoDup_tagged {T A} (t : T) (l : list A) : NoDup l -> NoDup (map (pair t) l).
Proof.
  induction 1 as [|a l Ha Hl IH]; cbn; constructor; [|assumption].
  intros Hin. apply in_map_iff in Hin as [b [[= ->] Hin]]. contradiction.
Qed.

Lemma tagged_disjoint {T A} (t u : T) (l1 l2 : list A) e :
  t <> u -> In e (map (pair t) l1) -> In e (map (pair u) l2) -> False.
Proof. intros Htu H1 H2. apply in_map_iff in H1 as [a [<- _]]. apply in_map_iff in H2 as [b [[= Hb _] _]]. now symmetry in Hb. Qed.

Lemma find_by_key {A K} (key : A -> K) (eqb : K -> K -> bool) l x :
  (forall a b, eqb a b = true <-> a = b) -> NoDup (map key l) -> In x l ->
  find (fun y => eqb (key y) (key x)) l = Some x.
Proof.
  intros R. induction l as [|a l IH]; intros Hnd Hin; [contradiction|].
  cbn in Hnd. inversion Hnd as [|? ? Hnotin Hnd']; subst. cbn.
  destruct (eqb (key a) (key x)) eqn:E.
  - destruct Hin as [->|Hin]; [reflexivity|]. apply R in E. exfalso. apply Hnotin. rewrite E. now apply in_map.
  - destruct Hin as [->|Hin]; [|now apply IH]. assert (eqb (key x) (key x) = true) by now apply R. congruence.
Qed.

(* the test for a repeated string that the route checks of both runtimes and of the OpenAPI generator write out *)
Fixpoint dupb (l : list str) : bool :=
  match l with [] => false | x :: t => existsb (str_eqb x) t || dupb t end.

Lemma NoDup_cons_existsb x t : existsb (str_eqb x) t = false -> NoDup t -> NoDup (x :: t).
Proof. intros H Ht. constructor; [|exact Ht]. intros Hin. apply existsb_str_eqb_In in Hin. congruence. Qed.

Lemma dupb_false_NoDup l : dupb l = false -> NoDup l.
Proof.
  induction l as [|x l IH]; intros H; [constructor|].
  apply orb_false_iff in H as [H1 H2]. apply NoDup_cons_existsb; [exact H1|exact (IH H2)].
Qed.

(* A store written key by key.  Binding a list of keys is a fold of single-key writes; what a key holds
   afterwards is what the last write to it put there. *)
Section Store.
Variables (S V : Type) (get : S -> str -> option V) (set : S -> str -> option V -> S).
Hypothesis get_set : forall s k c g, get (set s k c) g = if str_eqb g k then c else get s g.

Definition set_keys (X : str -> option V) (ks : list str) (s : S) : S :=
  fold_left (fun s k => set s k (X k)) ks s.

Lemma get_set_keys X : forall ks s g,
  get (set_keys X ks s) g = if existsb (str_eqb g) ks then X g else get s g.
Proof.
  unfold set_keys. induction ks as [|k ks IH]; intros s g; [reflexivity|].
  cbn [fold_left existsb]. rewrite IH, get_set.
  destruct (existsb (str_eqb g) ks); [now rewrite orb_true_r|]. rewrite orb_false_r.
  destruct (str_eqb g k) eqn:E; [|reflexivity]. apply str_eqb_eq in E. now subst.
Qed.
End Store.

(* A fold that keeps the best candidate.  Both routers (ServeMux and the TS template router) scan the routes once, keeping the best match so far. *)

Definition best_step {R C} (cand : R -> option C) (keep : C -> C -> bool) (best : option C) (r : R) : option C :=
  match cand r with
  | Some c => match best with
              | Some c0 => if keep c0 c then best else Some c
              | None => Some c
              end
  | None => best
  end.

Section FoldBest.
Context {R C : Type} (cand : R -> option C) (keep : C -> C -> bool).

Lemma fold_best_sound : forall rs best c, fold_left (best_step cand keep) rs best = Some c ->
  best = Some c \/ exists r, In r rs /\ cand r = Some c.
Proof.
  induction rs as [|r rs IH]; intros best c H; [now left|].
  cbn [fold_left] in H. apply IH in H as [H|[r' [Hin Hc]]]; [|right; exists r'; split; [now right|exact Hc]].
  unfold best_step in H. destruct (cand r) as [c1|] eqn:Ec; [|now left].
  destruct best as [c0|]; [destruct (keep c0 c1); [now left|]|];
    inversion H; subst c1; right; exists r; split; [now left|exact Ec|now left|exact Ec].
Qed.

Lemma fold_best_complete : forall rs best,
  (best <> None \/ exists r, In r rs /\ cand r <> None) -> fold_left (best_step cand keep) rs best <> None.
Proof.
  induction rs as [|r rs IH]; intros best H; cbn [fold_left].
  - destruct H as [H|[r [[] _]]]. exact H.
  - apply IH. destruct H as [H|[r' [[->|Hin] Hc]]]; [left|left|right; now exists r'].
    + unfold best_step. destruct (cand r); [|exact H]. destruct best as [c0|]; [|congruence].
      destruct (keep c0 c); [exact H|discriminate].
    + unfold best_step. destruct (cand r') as [c|]; [|congruence].
      destruct best as [c0|]; [destruct (keep c0 c)|]; discriminate.
Qed.
End FoldBest.
