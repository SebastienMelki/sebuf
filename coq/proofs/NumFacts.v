(* NumFacts.v — printing then parsing a number gives the number back (fmt.Sprint / strconv). *)
From Coq Require Import ZifyN ZifyNat ZifyBool.
From Sebuf Require Import Text Num.

Local Open Scope N_scope.

Lemma lt10_cases (d : N) : d < 10 ->
  d = 0 \/ d = 1 \/ d = 2 \/ d = 3 \/ d = 4 \/ d = 5 \/ d = 6 \/ d = 7 \/ d = 8 \/ d = 9.
Proof. lia. Qed.

Lemma digit_val_char d : d < 10 -> digit_val (digit_char d) = Some d.
Proof.
  intros H. apply lt10_cases in H.
  repeat (destruct H as [H|H]; [subst d; vm_compute; reflexivity|]). subst d; vm_compute; reflexivity.
Qed.

Lemma is_digit_char d : d < 10 -> is_digit (digit_char d) = true.
Proof.
  intros H. apply lt10_cases in H.
  repeat (destruct H as [H|H]; [subst d; vm_compute; reflexivity|]). subst d; vm_compute; reflexivity.
Qed.

Lemma mod10_lt n : n mod 10 < 10.
Proof. apply N.mod_lt. discriminate. Qed.

Lemma parse_digits_step a d r : d < 10 ->
  parse_digits a (digit_char d :: r) = parse_digits (a * 10 + d) r.
Proof. intros H. cbn [parse_digits]. now rewrite (digit_val_char d H). Qed.

Lemma parse_digits_app x : forall acc y,
  parse_digits acc (x ++ y) =
  match parse_digits acc x with Some a => parse_digits a y | None => None end.
Proof.
  induction x as [|c x IH]; intros acc y; cbn [app parse_digits]; [reflexivity|].
  destruct (digit_val c) as [d|]; [apply IH|reflexivity].
Qed.

Lemma show_N_fuel_parse : forall fuel n acc,
  n < 2 ^ N.of_nat fuel -> fuel <> O ->
  parse_digits 0 (show_N_fuel fuel n acc) = parse_digits n acc.
Proof.
  induction fuel as [|f IH]; intros n acc Hlt Hne; [congruence|].
  cbn [show_N_fuel].
  destruct (n <? 10) eqn:E.
  - apply N.ltb_lt in E. rewrite parse_digits_step by apply mod10_lt.
    rewrite N.mod_small by exact E. reflexivity.
  - apply N.ltb_ge in E.
    assert (Hpow : 2 ^ N.of_nat (S f) = 2 * 2 ^ N.of_nat f).
    { rewrite Nat2N.inj_succ. apply N.pow_succ_r'. }
    rewrite Hpow in Hlt.
    assert (Hf : f <> O).
    { intros ->. cbn in Hlt. lia. }
    assert (Hdiv : n / 10 < 2 ^ N.of_nat f).
    { apply N.div_lt_upper_bound; [discriminate|]. lia. }
    rewrite (IH (n / 10) _ Hdiv Hf).
    rewrite parse_digits_step by apply mod10_lt.
    f_equal. rewrite (N.div_mod' n 10) at 3. lia.
Qed.

Lemma show_N_fuel_pre : forall fuel n acc,
  exists pre, show_N_fuel fuel n acc = pre ++ acc /\ forallb is_digit pre = true /\
              (fuel <> O -> pre <> []).
Proof.
  induction fuel as [|f IH]; intros n acc.
  - exists []. cbn. repeat split; congruence.
  - cbn [show_N_fuel].
    destruct (n <? 10).
    + exists [digit_char (n mod 10)]. cbn [app forallb]. rewrite is_digit_char by apply mod10_lt.
      repeat split; discriminate.
    + destruct (IH (n / 10) (digit_char (n mod 10) :: acc)) as [pre [E [D _]]].
      exists (pre ++ [digit_char (n mod 10)]). rewrite E, <- app_assoc. split; [reflexivity|].
      split.
      * rewrite forallb_app, D. cbn [forallb]. now rewrite is_digit_char by apply mod10_lt.
      * intros _ Hnil. apply app_eq_nil in Hnil as [_ Hnil]. discriminate.
Qed.

Lemma show_nat_N_shape n : exists c r, show_nat_N n = c :: r /\ is_digit c = true /\ forallb is_digit r = true.
Proof.
  unfold show_nat_N.
  destruct (show_N_fuel_pre (S (N.to_nat (N.size n))) n []) as [pre [E [D Hne]]].
  rewrite E, app_nil_r. destruct pre as [|c r]; [exfalso; now apply Hne|].
  cbn [forallb] in D. apply andb_true_iff in D as [D1 D2]. now exists c, r.
Qed.

Lemma size_bound n : n < 2 ^ N.of_nat (S (N.to_nat (N.size n))).
Proof.
  rewrite Nat2N.inj_succ, N2Nat.id, N.pow_succ_r'.
  pose proof (N.size_gt n) as H. lia.
Qed.

Lemma parse_nat_show : forall n : N, parse_nat (show_nat_N n) = Some n.
Proof.
  intros n. destruct (show_nat_N_shape n) as [c [r [E _]]].
  unfold parse_nat. rewrite E, <- E. unfold show_nat_N.
  rewrite show_N_fuel_parse; [reflexivity|apply size_bound|discriminate].
Qed.

Lemma digit_not_sign c : is_digit c = true ->
  Ascii.eqb c "-"%char = false /\ Ascii.eqb c "+"%char = false /\ Ascii.eqb c "."%char = false /\
  Ascii.eqb c "/"%char = false.
Proof.
  intros H. repeat split.
  all: match goal with |- Ascii.eqb ?x ?d = false =>
         destruct (Ascii.eqb x d) eqn:E; [apply Ascii.eqb_eq in E; subst x; vm_compute in H; discriminate|reflexivity]
       end.
Qed.

Lemma parse_int_digit_first bits c r : is_digit c = true ->
  parse_int bits (c :: r) =
  match parse_nat (c :: r) with
  | Some n => if n <? 2 ^ (bits - 1) then Some (Z.of_N n) else None
  | None => None
  end.
Proof.
  intros H. destruct (digit_not_sign c H) as [H1 [H2 _]].
  unfold parse_int. rewrite H1, H2. reflexivity.
Qed.

Lemma parse_int_minus bits r :
  parse_int bits ("-"%char :: r) =
  match parse_nat r with
  | Some n => if n <=? 2 ^ (bits - 1) then Some (- Z.of_N n)%Z else None
  | None => None
  end.
Proof. reflexivity. Qed.

Lemma pow2_N2Z b : Z.of_N (2 ^ b) = (2 ^ Z.of_N b)%Z.
Proof. rewrite N2Z.inj_pow. reflexivity. Qed.

Lemma show_int_pos p : show_int (Zpos p) = show_nat_N (Npos p).
Proof. reflexivity. Qed.

Lemma parse_int_show : forall bits z, (0 < bits)%N ->
  (- 2 ^ Z.of_N (bits - 1) <= z < 2 ^ Z.of_N (bits - 1))%Z ->
  parse_int bits (show_int z) = Some z.
Proof.
  intros bits z Hb [Hlo Hhi]. rewrite <- pow2_N2Z in Hlo, Hhi.
  destruct z as [|p|p].
  - change (show_int 0) with [digit_char 0].
    rewrite parse_int_digit_first by (vm_compute; reflexivity).
    change (parse_nat [digit_char 0]) with (Some 0). cbv beta iota.
    assert (E : (0 <? 2 ^ (bits - 1)) = true) by (apply N.ltb_lt; lia).
    rewrite E. reflexivity.
  - rewrite show_int_pos. destruct (show_nat_N_shape (Npos p)) as [c [r [E [D _]]]].
    rewrite E, (parse_int_digit_first bits c r D), <- E, parse_nat_show.
    assert (L : (Npos p <? 2 ^ (bits - 1)) = true) by (apply N.ltb_lt; lia).
    rewrite L. reflexivity.
  - change (show_int (Zneg p)) with ("-"%char :: show_nat_N (Npos p)).
    rewrite parse_int_minus, parse_nat_show.
    assert (L : (Npos p <=? 2 ^ (bits - 1)) = true) by (apply N.leb_le; lia).
    rewrite L. reflexivity.
Qed.

Lemma parse_uint_show : forall bits z, (0 <= z < 2 ^ Z.of_N bits)%Z ->
  parse_uint bits (show_int z) = Some z.
Proof.
  intros bits z [Hlo Hhi]. rewrite <- pow2_N2Z in Hhi. unfold parse_uint.
  destruct z as [|p|p]; [| |lia].
  - change (parse_nat (show_int 0)) with (Some 0). cbv beta iota.
    assert (E : (0 <? 2 ^ bits) = true) by (apply N.ltb_lt; lia).
    rewrite E. reflexivity.
  - rewrite show_int_pos, parse_nat_show.
    assert (L : (Npos p <? 2 ^ bits) = true) by (apply N.ltb_lt; lia).
    rewrite L. reflexivity.
Qed.

Lemma parse_bool_show : forall b, parse_bool (show_bool b) = Some b.
Proof. intros [|]; vm_compute; reflexivity. Qed.

Lemma show_int_first : forall z, exists c r,
  show_int z = c :: r /\ (is_digit c = true \/ c = "-"%char).
Proof.
  intros [|p|p].
  - exists (digit_char 0), []. split; [reflexivity|left; vm_compute; reflexivity].
  - rewrite show_int_pos. destruct (show_nat_N_shape (Npos p)) as [c [r [E [D _]]]].
    exists c, r. split; [exact E|now left].
  - exists "-"%char, (show_nat_N (Npos p)). split; [reflexivity|now right].
Qed.

Lemma show_int_nonempty z : show_int z <> [].
Proof. destruct (show_int_first z) as [c [r [E _]]]. rewrite E. discriminate. Qed.

(* fmt.Sprint of an integer starts with a digit or '-', hence with no other byte *)
Lemma show_int_not_first c z r : is_digit c = false -> c <> "-"%char -> show_int z <> c :: r.
Proof.
  intros Hd Hm E0. destruct (show_int_first z) as [c' [r' [E [D|D]]]]; rewrite E in E0; inversion E0; congruence.
Qed.

Lemma show_bool_nonempty b : show_bool b <> [].
Proof. destruct b; discriminate. Qed.

