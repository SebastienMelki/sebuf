(* TsRtBodiless.v — the TS server on GET / DELETE routes: path variables and query parameters of the
   kinds the TS server model handles (string, bool, 32-bit and — String()-typed — 64-bit integers), for every
   value of the declared type.  TS client -> TS server and Go client -> TS server deliver the request the caller
   passed, modulo the zero-value elision both clients perform (a query field holding its zero value is not
   sent; the server's Number("0") / === "true" / ?? "" defaults re-create the zero value, which a handler
   object does not list). *)
From Coq Require Import Lia ZArith.
From Sebuf Require Import Text Json Url Num Route Schema Value GoRt TsRt.
From SebufProofs Require Import TextFacts ListFacts UrlFacts NumFacts GoRtFacts TsRtFacts.

Lemma js_number_show_int z : (- 2 ^ 53 <= z <= 2 ^ 53)%Z -> z <> 0%Z -> js_number (show_int z) = NumInt z.
Proof.
  intros [Hlo Hhi] Hz. destruct z as [|p|p]; [congruence| |].
  - rewrite show_int_pos. destruct (show_nat_N_shape (Npos p)) as [c [r [E [D _]]]].
    destruct (digit_not_sign c D) as [H1 [H2 _]].
    rewrite E. cbv beta iota zeta delta [js_number]. rewrite H1, H2. rewrite <- E, parse_nat_show.
    assert (L : (2 ^ 53 <? Npos p)%N = false) by (apply N.ltb_ge; lia).
    rewrite L. reflexivity.
  - change (show_int (Zneg p)) with ("-"%char :: show_nat_N (Npos p)).
    cbv beta iota zeta delta [js_number]. change (Ascii.eqb "-"%char "-"%char) with true. cbv beta iota.
    rewrite parse_nat_show.
    assert (L : (2 ^ 53 <? Npos p)%N = false) by (apply N.ltb_ge; lia).
    rewrite L. reflexivity.
Qed.

Lemma js_number_zero : js_number (s "0") = NumInt 0.
Proof. vm_compute. reflexivity. Qed.

Lemma canon_dec_show sg z : int_range sg 64 z -> canon_dec sg 64 (show_int z) = Some z.
Proof.
  intros H. unfold canon_dec. destruct sg; cbn [int_range] in H.
  - rewrite (parse_int_show 64 z ltac:(reflexivity) H). now rewrite str_eqb_refl.
  - rewrite (parse_uint_show 64 z H). now rewrite str_eqb_refl.
Qed.

(* what [int_kind] decides for the TS server: the property's type and the canonical reading *)
Lemma int_kind_64 k sg bits : int_kind k = Some (sg, bits) ->
  is_str_or_64 k = is_64 k /\ bits = (if is_64 k then 64 else 32)%N.
Proof. destruct k; intros H; try discriminate H; inversion H; split; reflexivity. Qed.

Lemma ts_scalar_type_int f sg bits : int_kind (f_kind f) = Some (sg, bits) ->
  ts_scalar_type f =
  if is_64 (f_kind f) then match f_int64 f with Some I64Number => TNumber | _ => TString end else TNumber.
Proof. unfold ts_scalar_type. destruct (f_kind f); intros H; try discriminate H; reflexivity. Qed.

Lemma canon_js_str64 k sg bits y : int_kind k = Some (sg, bits) -> is_64 k = true ->
  canon_js k (JsStr y) =
  match canon_dec sg 64 y with
  | Some z => if is_zero (VInt z) then None else Some (TsV (FS (VInt z)))
  | None => Some (TsRaw (JStr y))
  end.
Proof. destruct k; intros H; try discriminate H; inversion H; intros H64; try discriminate H64; reflexivity. Qed.

Lemma canon_js_int32 k sg bits z : int_kind k = Some (sg, bits) -> is_64 k = false ->
  canon_js k (JsInt z) =
  if (if sg then zin (- 2 ^ 31) (2 ^ 31) z else zin 0 (2 ^ 32) z)
  then (if is_zero (VInt z) then None else Some (TsV (FS (VInt z)))) else Some (TsRaw (JNum z)).
Proof. destruct k; intros H; try discriminate H; inversion H; intros H64; try discriminate H64; reflexivity. Qed.

Lemma zin_int32 sg z : int_range sg 32 z -> (if sg then zin (- 2 ^ 31) (2 ^ 31) z else zin 0 (2 ^ 32) z) = true.
Proof.
  destruct sg; intros [H1 H2]; apply andb_true_iff; (split; [apply Z.leb_le; exact H1|apply Z.ltb_lt; exact H2]).
Qed.

(* a 32-bit integer is a double that Number() reads exactly *)
Lemma int32_safe sg z : int_range sg 32 z -> (- 2 ^ 53 <= z <= 2 ^ 53)%Z.
Proof.
  destruct sg; unfold int_range; change (Z.of_N (32 - 1)) with 31%Z; change (Z.of_N 32) with 32%Z; lia.
Qed.

Lemma show_int_utf8 z : utf8_valid (show_int z) = true.
Proof. exact (utf8_show_int z). Qed.

(* the request's value for the field, as a handler object lists it: nothing for the zero value *)
Definition ts_expect (req : mval) (f : field) : option tsval :=
  if is_zero (scalar_of req f) then None else Some (TsV (FS (scalar_of req f))).
Definition expect_key (fs : list field) (req : mval) (k : str) : option tsval :=
  match find_field fs k with Some f => ts_expect req f | None => None end.

Lemma expect_key_field fs req f : NoDup (map f_name fs) -> In f fs ->
  expect_key fs req (f_name f) = ts_expect req f.
Proof. intros Hnd Hf. unfold expect_key. now rewrite (find_field_nodup fs f Hnd Hf). Qed.

Lemma expect_key_none fs req k : ~ In k (map f_name fs) -> expect_key fs req k = None.
Proof.
  intros H. unfold expect_key. destruct (find_field fs k) as [f|] eqn:E; [|reflexivity].
  apply find_field_some in E as [Hf Hn]. exfalso. apply H. rewrite <- Hn. now apply in_map.
Qed.

(* a path parameter: decodeURIComponent's string read in a string or 64-bit property *)
Lemma canon_path_value k v : is_str_or_64 k = true -> typed_scalar k v -> sprint v <> [] ->
  canon_js k (JsStr (sprint v)) = if is_zero v then None else Some (TsV (FS v)).
Proof.
  intros Hk Ht Hne. destruct (typed_scalar_inv k v Ht) as [x|b|k sg bits z Hik Hr].
  - destruct x as [|c x]; [now contradiction Hne|reflexivity].
  - discriminate Hk.
  - destruct (int_kind_64 k sg bits Hik) as [E Hb]. rewrite E in Hk. rewrite Hk in Hb. subst bits.
    rewrite (canon_js_str64 k sg 64 _ Hik Hk). cbn [sprint]. now rewrite (canon_dec_show sg z Hr).
Qed.

(* a query parameter: Number(q ?? "0") / q === "true" / q ?? "" of what the clients send for the value *)
Definition not_number_enc (f : field) : bool := match f_int64 f with Some I64Number => false | _ => true end.

Lemma canon_query_value f q v :
  url_kind_ok (f_kind f) = true -> not_number_enc f = true ->
  typed_scalar (f_kind f) v -> is_64 (f_kind f) && is_zero v = false ->
  params_get q (qname f) = (if is_zero v then None else Some (sprint v)) ->
  exists j, ts_query_js f q = Ok j /\
            canon_js (f_kind f) j = if is_zero v then None else Some (TsV (FS v)).
Proof.
  intros _ Hn Ht H64 Hq. unfold ts_query_js.
  (* the unmodelled answer gets a name: the steps that follow need not carry its message *)
  set (u := Unmodelled _). clearbody u. rewrite Hq.
  remember (f_kind f) as k eqn:Ek. destruct (typed_scalar_inv k v Ht) as [x|b|k sg bits z Hik Hr].
  - (* string: q ?? "" *)
    unfold ts_scalar_type. rewrite <- Ek. destruct x as [|c x]; eexists; (split; [reflexivity|]); reflexivity.
  - (* bool: q === "true" *)
    unfold ts_scalar_type. rewrite <- Ek. destruct b; eexists; (split; [reflexivity|]); reflexivity.
  - rewrite (ts_scalar_type_int f sg bits) by (now rewrite <- Ek). rewrite <- Ek.
    destruct (int_kind_64 k sg bits Hik) as [_ Hb]. destruct (is_64 k) eqn:E64; subst bits; cbn [sprint].
    + (* 64-bit kinds: the string itself (never the zero value here) *)
      cbn [andb] in H64. rewrite H64. unfold not_number_enc in Hn.
      destruct (f_int64 f) as [[| |]|]; try discriminate Hn; (eexists; split; [reflexivity|]);
        now rewrite (canon_js_str64 k sg 64 _ Hik E64), (canon_dec_show sg z Hr), H64.
    + (* 32-bit kinds: Number() *)
      assert (Hj : js_number (if is_zero (VInt z) then s "0" else show_int z) = NumInt z).
      { cbn [is_zero]. destruct (Z.eqb z 0) eqn:Ez.
        - apply Z.eqb_eq in Ez. subst z. exact js_number_zero.
        - apply Z.eqb_neq in Ez. exact (js_number_show_int z (int32_safe sg z Hr) Ez). }
      destruct (is_zero (VInt z)) eqn:Ez; rewrite Hj; (eexists; split; [reflexivity|]);
        now rewrite (canon_js_int32 k sg 32 z Hik E64), (zin_int32 sg z Hr), Ez.
Qed.

Lemma ts_bind_query_keys (X : str -> option tsval) q : forall qfs o,
  (forall f, In f qfs -> exists j, ts_query_js f q = Ok j /\ canon_js (f_kind f) j = X (f_name f)) ->
  ts_bind_query qfs q o = Ok (tset_keys X (map f_name qfs) o).
Proof.
  induction qfs as [|f qfs IH]; intros o H; [reflexivity|].
  destruct (H f (or_introl eq_refl)) as [j [Hj Hc]].
  cbn [ts_bind_query map]. rewrite Hj, Hc. unfold tset_keys, set_keys. cbn [fold_left].
  apply IH. intros g Hg. apply H. now right.
Qed.

Section TsServerNoBody.
Variables (sc : schema) (fl : file) (sv : service) (md : method) (req : mval) (hs : list (str * str)) (E : str -> str).
Notation fs := (in_fields sc md).
Notation r := (info_of fl sv md (in_fields sc md)).
Hypothesis E_nil : forall x, E x = [] -> x = [].
Hypothesis E_dec : forall x, utf8_valid x = true -> decode_uri_component (E x) = Some x.
Hypothesis E_noslash : forall x, ~ In slash (E x).

(* a path variable the TS server carries faithfully: its field exists, has a string or 64-bit kind, holds a
   value of that kind whose text is a non-empty UTF-8 string *)
Definition path_var_ok (v : str) : Prop :=
  exists f, find_field fs v = Some f /\ is_str_or_64 (f_kind f) = true /\
    typed_scalar (f_kind f) (scalar_of req f) /\
    var_val fs req v <> [] /\ utf8_valid (var_val fs req v) = true.

(* a query parameter as both clients send it: absent for the zero value, else the printed value; a 64-bit
   field holding zero is the documented defect C08Int64QueryAbsent *)
Definition query_par_ok (q : list (str * str)) (f : field) : Prop :=
  typed_scalar (f_kind f) (scalar_of req f) /\
  is_64 (f_kind f) && is_zero (scalar_of req f) = false /\
  params_get q (qname f) = (if is_zero (scalar_of req f) then None else Some (sprint (scalar_of req f))).

Theorem ts_server_nobody tw segs :
  In md (sv_methods sv) -> NoDup (map md_name (sv_methods sv)) ->
  tsegs (client_path r) = Some segs -> seg_vars segs = path_vars r ->
  (forall x, In (SLit x) segs -> ~ In slash x) ->
  verb_has_body (eff_verb r) = false ->
  tw_verb tw = eff_verb r ->
  tw_path tw = slash :: join_with [slash] (map (efill fs req E) segs) ->
  NoDup (map f_name fs) ->
  (forall v, In v (path_vars r) -> path_var_ok v) ->
  (forall f, In f (query_fields fs) -> query_par_ok (form_parse (tw_query tw)) f) ->
  hdr_violation (sv_headers sv ++ md_headers md) hs = Ok None ->
  (forall n, ts_dispatched sc fl sv tw = Some n -> n = md_name md) ->
  forall o, ts_server_handle sc fl sv tw hs = Ok o ->
  exists saw, o = TsDelivered (md_name md) saw /\
    forall k, tget saw k = if existsb (str_eqb k) (path_vars r ++ map f_name (query_fields fs))
                           then expect_key fs req k else None.
Proof.
  intros Hmd Hnd Hts Hvars Hlit Hbody Hverb Hpath Hfnd Hpv Hqp Hhdr Hdisp o H.
  destruct (ts_routed sc fl sv md req E E_nil E_noslash tw segs Hmd Hnd Hts Hvars Hlit Hverb Hpath)
    as [tl [Htl [HF [Hsplit Hroute]]]];
    [intros v Hv; now destruct (Hpv v Hv) as [f [_ [_ [_ [Hne _]]]]]|exact Hdisp|].
  unfold ts_server_handle in H. set (msg := s _) in H. clearbody msg.
  cbn [ts_server_loads negb] in H. rewrite Hsplit, Hroute in H.
  cbn [ts_route_of tr_md tr_fields tr_route tr_tmpl ts_server client_route rt_body rt_pathvars rt_path] in H.
  rewrite Hbody in H. cbn [negb] in H. rewrite Htl in H.
  destruct (ts_url_modelled fs (path_vars r) true) eqn:Hmod; cbn [negb] in H; [|discriminate].
  rewrite Hhdr in H.
  unfold ts_url_modelled in Hmod. cbn [negb orb] in Hmod. apply andb_true_iff in Hmod as [_ Hmq].
  rewrite forallb_forall in Hmq.
  rewrite (ts_bind_query_keys (expect_key fs req) (form_parse (tw_query tw)) (query_fields fs) []) in H.
  2: { intros f Hf. destruct (Hqp f Hf) as [Ht [H64 Hq]].
       specialize (Hmq f Hf). apply andb_true_iff in Hmq as [Hmq Hnum]. apply andb_true_iff in Hmq as [Hk _].
       rewrite (expect_key_field fs req f Hfnd) by (now apply query_fields_In in Hf as [Hf _]).
       exact (canon_query_value f _ (scalar_of req f) Hk Hnum Ht H64 Hq). }
  assert (Hall : forall v, In v (path_vars r) -> In (SVar v) segs /\
            exists f, find_field fs v = Some f /\ utf8_valid (var_val fs req v) = true /\
                      canon_js (f_kind f) (JsStr (var_val fs req v)) = expect_key fs req v).
  { intros v Hv. split; [apply seg_vars_in; now rewrite Hvars|].
    destruct (Hpv v Hv) as [f [Hf [Hk [Ht [Hne Hu]]]]]. exists f.
    repeat split; try assumption.
    unfold expect_key, ts_expect. rewrite Hf. rewrite (var_val_field fs req v f Hf) in Hne |- *.
    now apply canon_path_value. }
  rewrite !(ts_bind_path_keys sc md req E E_dec _ tl segs HF (path_vars r) _ Hall) in H.
  inversion H; subst o. eexists. split; [reflexivity|].
  intros k. rewrite !tget_set_keys, existsb_app. cbn [tget].
  destruct (existsb (str_eqb k) (path_vars r)); [reflexivity|]. cbn [orb].
  destruct (existsb (str_eqb k) (map f_name (query_fields fs))); reflexivity.
Qed.
End TsServerNoBody.

Lemma params_get_values q k : params_get q k = match query_values q k with [] => None | x :: _ => Some x end.
Proof. reflexivity. Qed.

(* the path values are UTF-8 (a JS string always is; a Go string need not be) *)
Definition path_vals_utf8 (fs : list field) (req : mval) (vars : list str) : bool :=
  forallb (fun v => utf8_valid (var_val fs req v)) vars.

Definition ts_saw_req (fs : list field) (req : mval) (saw : tsobj) : Prop :=
  (forall f, In f fs -> tget saw (f_name f) = ts_expect req f) /\
  (forall k, ~ In k (map f_name fs) -> tget saw k = None).

Section ToTsNoBody.
Variables (sc : schema) (fl : file) (sv : service) (md : method) (req : mval).
Notation fs := (in_fields sc md).
Notation r := (info_of fl sv md (in_fields sc md)).

Lemma saw_of_keys saw :
  NoDup (map f_name fs) ->
  (forall f, In f fs -> In (f_name f) (path_vars r) \/ f_query f <> None) ->
  (forall k, tget saw k = if existsb (str_eqb k) (path_vars r ++ map f_name (query_fields fs))
                          then expect_key fs req k else None) ->
  ts_saw_req fs req saw.
Proof.
  intros Hfnd Hcover Hk. split.
  - intros f Hf. rewrite Hk.
    assert (Hin : existsb (str_eqb (f_name f)) (path_vars r ++ map f_name (query_fields fs)) = true).
    { apply existsb_str_eqb_In. apply in_or_app. destruct (Hcover f Hf) as [Hp|Hq]; [now left|right].
      apply in_map. apply query_fields_In. now split. }
    rewrite Hin. now apply expect_key_field.
  - intros k Hn. rewrite Hk, (expect_key_none fs req k Hn).
    now destruct (existsb (str_eqb k) (path_vars r ++ map f_name (query_fields fs))).
Qed.

Lemma to_ts_conditions p q :
  p <> TsGo -> defects_C08 p sc fl sv md req = [] ->
  wf_nobody sc fl sv md req = true ->
  path_vals_utf8 fs req (path_vars r) = true ->
  (forall v, In v (path_vars r) -> exists f, find_field fs v = Some f /\ field_url_ok f = true) ->
  (if verb_has_body (eff_verb r) then Ok [] else client_query fs req) = Ok q ->
  verb_has_body (eff_verb r) = false /\ NoDup (map md_name (sv_methods sv)) /\ NoDup (map f_name fs) /\
  (forall f, In f fs -> In (f_name f) (path_vars r) \/ f_query f <> None) /\
  (forall v, In v (path_vars r) -> path_var_ok sc md req v) /\
  NoDup (map fst q) /\
  (forall f, In f (query_fields fs) -> query_par_ok req q f) /\
  (forall f, In f fs -> field_url_ok f = true).
Proof.
  intros Hp Hdef Hwf Hutf Hfields Hq.
  destruct (wf_nobody_spec _ _ _ _ _ Hwf) as [Hbody [Hnd [Hne [Hty [Hfnd Hcov]]]]].
  rewrite path_vals_nonempty_spec in Hne.
  destruct (defects_to_ts_inv sc fl sv md req p Hp Hdef) as [_ [_ [Hps [H64 Hdup]]]].
  rewrite Hbody in H64, Hdup, Hq. cbn [negb andb] in H64, Hdup.
  unfold client_query in Hq. apply client_query_gen in Hq as [Hqok ->].
  assert (Hqnd : NoDup (map qname (query_fields fs))) by now apply dupb_false_NoDup.
  assert (Hpv : forall v, In v (path_vars r) -> path_var_ok sc md req v).
  { intros v Hv. destruct (Hfields v Hv) as [f [Hf Hok]]. exists f.
    pose proof (proj1 (existsb_false _ _) Hps v Hv) as F. cbv beta in F. rewrite Hf in F. apply negb_false_iff in F.
    repeat split; try assumption.
    - apply Hty; [now apply (find_field_some fs v f)|now apply field_url_ok_kind].
    - now apply Hne.
    - unfold path_vals_utf8 in Hutf. rewrite forallb_forall in Hutf. now apply Hutf. }
  assert (Hqp : forall f, In f (query_fields fs) -> query_par_ok req (flat_map (qgen req) (query_fields fs)) f).
  { intros f Hf. unfold query_par_ok. split; [|split].
    - apply Hty; [now apply query_fields_In in Hf as [Hf _]|now apply field_url_ok_kind, Hqok].
    - exact (proj1 (existsb_false _ _) H64 f Hf).
    - rewrite params_get_values, (qgen_values req (query_fields fs) Hqnd f Hf).
      now destruct (is_zero (scalar_of req f)). }
  split; [exact Hbody|]. split; [exact Hnd|]. split; [exact Hfnd|]. split; [exact Hcov|].
  split; [exact Hpv|]. split; [now apply qgen_nodup|]. split; [exact Hqp|].
  intros f Hf. destruct (Hcov f Hf) as [Hp'|Hq'].
  - destruct (Hfields (f_name f) Hp') as [f' [Hf' Hok]].
    rewrite (find_field_nodup fs f Hfnd Hf) in Hf'. inversion Hf'. now subst f'.
  - apply Hqok. apply query_fields_In. now split.
Qed.

Lemma saw_req_canonical saw :
  ts_saw_req fs req saw -> canonical fs req -> NoDup (map f_name fs) ->
  (forall f, In f fs -> field_url_ok f = true) ->
  forall k, tget saw k = tget (tsobj_of_mval req) k.
Proof.
  intros [Hs1 Hs2] Hcan Hfnd Hok k. rewrite tget_of_mval.
  destruct (in_dec str_dec k (map f_name fs)) as [Hin|Hni].
  - apply in_map_iff in Hin as [f [<- Hf]]. rewrite (Hs1 f Hf). unfold ts_expect, scalar_of.
    destruct (mget req (f_name f)) as [v|] eqn:Eg.
    + pose proof (canonical_key_ok fs req _ _ Hcan (mget_In _ _ _ Eg)) as K. unfold key_ok in K.
      rewrite (find_field_nodup fs f Hfnd Hf), (Hok f Hf) in K.
      destruct v as [x|m|l|kv]; try discriminate K. apply negb_true_iff in K. now rewrite K.
    + now rewrite is_zero_zero_of.
  - rewrite (Hs2 k Hni). destruct (mget req k) as [v|] eqn:Eg; [|reflexivity]. exfalso.
    pose proof (canonical_key_ok fs req _ _ Hcan (mget_In _ _ _ Eg)) as K. unfold key_ok in K.
    destruct (find_field fs k) as [g|] eqn:Eg2; [|discriminate K].
    apply find_field_some in Eg2 as [Hg Hn]. apply Hni. rewrite <- Hn. now apply in_map.
Qed.

(* The two calls into the TS server differ in the client that built the request: in the codec E of its path
   values, in the wire request the call reports (w0), and in how the query string was written (Hquery). *)
Lemma to_ts_nobody p E hs resp tw segs q (w0 w : wire_req) o :
  p <> TsGo -> defects_C08 p sc fl sv md req = [] ->
  In md (sv_methods sv) -> wf_nobody sc fl sv md req = true -> path_vals_utf8 fs req (path_vars r) = true ->
  hdr_violation (sv_headers sv ++ md_headers md) hs = Ok None ->
  (forall x, E x = [] -> x = []) -> (forall x, utf8_valid x = true -> decode_uri_component (E x) = Some x) ->
  (forall x, ~ In slash (E x)) ->
  built_path sc fl sv md req E segs q (tw_path tw) -> tw_verb tw = eff_verb r ->
  (NoDup (map fst q) -> forall f, query_par_ok req q f -> query_par_ok req (form_parse (tw_query tw)) f) ->
  (forall n, ts_dispatched sc fl sv tw = Some n -> n = md_name md) ->
  match ts_server_handle sc fl sv tw hs with
  | Unmodelled why => Unmodelled why
  | Ok o' => Ok (w0, of_ts_outcome o' resp)
  end = Ok (w, o) ->
  exists saw, o = ODelivered (md_name md) saw resp /\ ts_saw_req fs req saw /\
              NoDup (map f_name fs) /\ (forall f, In f fs -> field_url_ok f = true).
Proof.
  intros Hp Hdef Hmd Hwf Hutf Hhdr En Ed Es [Hts [Hvars [_ [Hfields [Hq Hpath]]]]] Hverb Hquery Hdisp Hcall.
  destruct (to_ts_conditions p q Hp Hdef Hwf Hutf Hfields Hq)
    as [Hbody [Hnd [Hfnd [Hcover [Hpv [Hqnd [Hqp Hallok]]]]]]].
  destruct (ts_server_handle sc fl sv tw hs) as [to|] eqn:Hsh; [|discriminate].
  destruct (ts_server_nobody sc fl sv md req hs E En Ed Es tw segs Hmd Hnd Hts Hvars (proj2 (tsegs_inv _ _ Hts))
              Hbody Hverb Hpath Hfnd Hpv (fun f Hf => Hquery Hqnd f (Hqp f Hf)) Hhdr Hdisp to Hsh) as [saw [-> Hsaw]].
  inversion Hcall; subst. exists saw. split; [reflexivity|]. split; [now apply saw_of_keys|now split].
Qed.

Lemma ts_ts_nobody_core : forall hs resp w o,
  ts_ts_call sc fl sv md hs req resp = Ok (w, o) ->
  defects_C08 TsTs sc fl sv md req = [] ->
  In md (sv_methods sv) ->
  wf_nobody sc fl sv md req = true ->
  path_vals_utf8 fs req (path_vars r) = true ->
  template_ok r = true -> ts_template_ok r = true ->
  hdr_violation (sv_headers sv ++ md_headers md) hs = Ok None ->
  exists saw, o = ODelivered (md_name md) saw resp /\ ts_saw_req fs req saw /\
              NoDup (map f_name fs) /\ (forall f, In f fs -> field_url_ok f = true).
Proof.
  intros hs resp w o Hcall Hdef Hmd Hwf Hutf Htpl Hlits Hhdr.
  destruct (defects_to_ts_inv sc fl sv md req TsTs ltac:(discriminate) Hdef) as [Hdirty [Hdisp _]].
  unfold ts_ts_call in Hcall. cbv zeta in Hcall.
  destruct (ts_client_build fl sv md fs req) as [tw|] eqn:Htb; [|discriminate].
  destruct (ts_client_built sc fl sv md req tw Htb Htpl Hlits Hdirty) as [segs [q [Hbuilt [Hverb [Hquery _]]]]].
  apply (to_ts_nobody TsTs encode_uri_component hs resp tw segs q (go_wire_of tw) w o ltac:(discriminate) Hdef Hmd Hwf Hutf
           Hhdr (codec_nil _ encode_uri_codec) decode_encode_uri encode_uri_no_slash Hbuilt Hverb);
    [|exact (Hdisp tw eq_refl)|exact Hcall].
  intros Hqnd f Hf. rewrite Hquery, (params_of_nodup q Hqnd), form_parse_form_encode. exact Hf.
Qed.

Lemma go_ts_nobody_core : forall hs resp w o,
  go_ts_call sc fl sv md hs req resp = Ok (w, o) ->
  defects_C08 GoTs sc fl sv md req = [] ->
  In md (sv_methods sv) ->
  wf_nobody sc fl sv md req = true ->
  path_vals_utf8 fs req (path_vars r) = true ->
  template_ok r = true -> ts_template_ok r = true ->
  hdr_violation (sv_headers sv ++ md_headers md) hs = Ok None ->
  exists saw, o = ODelivered (md_name md) saw resp /\ ts_saw_req fs req saw /\
              NoDup (map f_name fs) /\ (forall f, In f fs -> field_url_ok f = true).
Proof.
  intros hs resp w o Hcall Hdef Hmd Hwf Hutf Htpl Hlits Hhdr.
  destruct (defects_to_ts_inv sc fl sv md req GoTs ltac:(discriminate) Hdef) as [Hdirty [Hdisp _]].
  unfold go_ts_call in Hcall. cbv zeta in Hcall.
  destruct (client_build fl sv md fs CtJSON req) as [w0|] eqn:Hcb; [|discriminate].
  destruct (go_client_built sc fl sv md req CtJSON w0 Hcb Htpl Hlits Hdirty)
    as [segs [q [Hbuilt [Hww [Hverb [Hquery _]]]]]].
  apply (to_ts_nobody GoTs path_escape hs resp (ts_wire_of w0) segs q w0 w o ltac:(discriminate) Hdef Hmd Hwf Hutf
           Hhdr (codec_nil _ path_escape_codec) decode_path_escape path_escape_no_slash);
    [|exact Hverb| |exact (Hdisp w0 eq_refl)|exact Hcall].
  - cbn [ts_wire_of tw_path]. rewrite Hww. exact Hbuilt.
  - intros Hqnd f [Ht [H64 Hg]]. cbn [ts_wire_of tw_query]. rewrite Hquery, form_parse_encode_query.
    split; [exact Ht|]. split; [exact H64|].
    rewrite params_get_values, (query_values_sort_kv _ _ (sort_kv_nodup q Hqnd)), (query_values_sort_kv _ _ Hqnd).
    exact Hg.
Qed.

Theorem ts_ts_nobody : forall hs resp w o,
  ts_ts_call sc fl sv md hs req resp = Ok (w, o) ->
  defects_C08 TsTs sc fl sv md req = [] ->
  In md (sv_methods sv) ->
  wf_nobody sc fl sv md req = true ->
  path_vals_utf8 fs req (path_vars r) = true ->
  template_ok r = true -> ts_template_ok r = true ->
  hdr_violation (sv_headers sv ++ md_headers md) hs = Ok None ->
  exists saw, o = ODelivered (md_name md) saw resp /\ ts_saw_req fs req saw.
Proof.
  intros hs resp w o Hcall Hdef Hmd Hwf Hutf Htpl Hlits Hhdr.
  destruct (ts_ts_nobody_core hs resp w o Hcall Hdef Hmd Hwf Hutf Htpl Hlits Hhdr) as [saw [Ho [Hs _]]].
  now exists saw.
Qed.

Theorem go_ts_nobody : forall hs resp w o,
  go_ts_call sc fl sv md hs req resp = Ok (w, o) ->
  defects_C08 GoTs sc fl sv md req = [] ->
  In md (sv_methods sv) ->
  wf_nobody sc fl sv md req = true ->
  path_vals_utf8 fs req (path_vars r) = true ->
  template_ok r = true -> ts_template_ok r = true ->
  hdr_violation (sv_headers sv ++ md_headers md) hs = Ok None ->
  exists saw, o = ODelivered (md_name md) saw resp /\ ts_saw_req fs req saw.
Proof.
  intros hs resp w o Hcall Hdef Hmd Hwf Hutf Htpl Hlits Hhdr.
  destruct (go_ts_nobody_core hs resp w o Hcall Hdef Hmd Hwf Hutf Htpl Hlits Hhdr) as [saw [Ho [Hs _]]].
  now exists saw.
Qed.

Theorem ts_ts_nobody_exact : forall hs resp w o,
  ts_ts_call sc fl sv md hs req resp = Ok (w, o) ->
  defects_C08 TsTs sc fl sv md req = [] ->
  In md (sv_methods sv) ->
  wf_nobody sc fl sv md req = true ->
  path_vals_utf8 fs req (path_vars r) = true ->
  template_ok r = true -> ts_template_ok r = true ->
  hdr_violation (sv_headers sv ++ md_headers md) hs = Ok None ->
  canonicalb fs req = true ->
  exists saw, o = ODelivered (md_name md) saw resp /\ forall k, tget saw k = tget (tsobj_of_mval req) k.
Proof.
  intros hs resp w o Hcall Hdef Hmd Hwf Hutf Htpl Hlits Hhdr Hcan.
  destruct (ts_ts_nobody_core hs resp w o Hcall Hdef Hmd Hwf Hutf Htpl Hlits Hhdr) as [saw [Ho [Hs [Hfnd Hok]]]].
  exists saw. split; [exact Ho|]. now apply saw_req_canonical.
Qed.

Theorem go_ts_nobody_exact : forall hs resp w o,
  go_ts_call sc fl sv md hs req resp = Ok (w, o) ->
  defects_C08 GoTs sc fl sv md req = [] ->
  In md (sv_methods sv) ->
  wf_nobody sc fl sv md req = true ->
  path_vals_utf8 fs req (path_vars r) = true ->
  template_ok r = true -> ts_template_ok r = true ->
  hdr_violation (sv_headers sv ++ md_headers md) hs = Ok None ->
  canonicalb fs req = true ->
  exists saw, o = ODelivered (md_name md) saw resp /\ forall k, tget saw k = tget (tsobj_of_mval req) k.
Proof.
  intros hs resp w o Hcall Hdef Hmd Hwf Hutf Htpl Hlits Hhdr Hcan.
  destruct (go_ts_nobody_core hs resp w o Hcall Hdef Hmd Hwf Hutf Htpl Hlits Hhdr) as [saw [Ho [Hs [Hfnd Hok]]]].
  exists saw. split; [exact Ho|]. now apply saw_req_canonical.
Qed.
End ToTsNoBody.
