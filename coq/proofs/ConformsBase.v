(* ConformsBase.v — Impl = Spec (C05) for a message owned by one of the five field codecs, once.
   Impl: MarshalJSON is protojson's entries followed by one keep / set / delete pass over the declared fields
   (RawMap.astep), which with distinct JSON names rewrites each entry where it stands and appends what it sets
   under absent keys (RawMap.fold_astep).  Spec: Mapping.mp_fval renders entry by entry and appends the nulls.
   The two agree as soon as they agree entry by entry ([conforms_keylocal]). *)
From Sebuf Require Import CodecCases.
From SebufProofs Require Import ListFacts ProtoJsonFacts NullableFacts MappingFacts.

Open Scope Z_scope.

(* what the owner being one field codec rules out in the documented mapping *)
Lemma owner_excludes sc md ft :
  owner_of sc md = Own ft -> is_field_codec ft = true ->
  mp_root_unwrap md = None /\
  (forall f, In f (m_fields md) ->
     is_flatten f = false /\ mp_oneof_of md f = None /\
     (ft <> FtEmpty -> empty_of f = None) /\ (ft <> FtNullable -> is_nullable f = false)).
Proof.
  intros Hown Hft.
  (* the test of every other feature fails; for g = FtUnwrapRoot, FtFlatten, ... [feature_test sc md g] is the
     test itself *)
  assert (Hno : forall g, g <> ft -> feature_test sc md g = false) by (intros g; exact (owner_excl sc md ft g Hown)).
  assert (Nroot : FtUnwrapRoot <> ft) by (intros <-; discriminate Hft).
  assert (Nflat : FtFlatten <> ft) by (intros <-; discriminate Hft).
  assert (Noneof : FtOneof <> ft) by (intros <-; discriminate Hft).
  split.
  - apply no_root_unwrap. exact (Hno FtUnwrapRoot Nroot).
  - intros f Hin. split; [|split; [|split]].
    + exact (proj1 (existsb_false _ _) (Hno FtFlatten Nflat) f Hin).
    + apply no_oneof_cfg. exact (Hno FtOneof Noneof).
    + intros Hd. pose proof (proj1 (existsb_false _ _) (Hno FtEmpty (not_eq_sym Hd)) f Hin) as He. cbv beta in He.
      destruct (empty_of f); [discriminate He|reflexivity].
    + intros Hd. exact (proj1 (existsb_false _ _) (Hno FtNullable (not_eq_sym Hd)) f Hin).
Qed.

Section Conforms.
Variable E : ExtLib.
Variable sc : schema.

(* what MarshalJSON of a message owned by a field codec returns *)
Lemma encode_act ft tn md m :
  is_field_codec ft = true ->
  str_eqb tn ts_name = false -> is_wkt_other tn = false ->
  find_message (all_messages sc) tn = Some md -> owner_of sc md = Own ft ->
  buildable sc ft md = true -> declared md m = true ->
  encode E sc tn m =
  m_msg E sc md m >>= (fun es => ROk (JObj (fold_left (astep (act_of E ft m)) (m_fields md) es))).
Proof.
  intros Hft Hts Hwk Hfm Hown Hb Hdecl. pose proof (find_lookup sc tn md Hts Hfm) as Hlk.
  unfold encode. rewrite (owner_owns sc tn md ft Hlk Hown), (gj_fval_owned E sc tn md ft m Hwk Hlk Hown).
  rewrite (kids_loop_none E sc ft md m (fun f => needs_gj_field_codec sc ft md f Hft) Hdecl). cbn [rbind].
  apply codec_body_field_codec; assumption.
Qed.

(* a declared name whose JSON key is that of f names f *)
Lemma declared_key md m f :
  nodup_str (map jn (m_fields md)) = true -> declared md m = true -> In f (m_fields md) ->
  In (jn f) (map (fun e => json_name (fst e)) m) -> In (f_name f) (map fst m).
Proof.
  intros Hnd Hdecl Hin Hk. apply in_map_iff in Hk. destruct Hk as [[n x] [Hn Hinm]]. cbn [fst] in Hn.
  unfold declared in Hdecl. rewrite forallb_forall in Hdecl. specialize (Hdecl _ Hinm). cbn [fst] in Hdecl.
  destruct (find_field (m_fields md) n) as [g|] eqn:Eg; [|discriminate Hdecl].
  destruct (find_field_spec _ _ _ Eg) as [Hing Hname].
  assert (g = f) by (apply (nodup_jn_inj (m_fields md) g f Hnd Hing Hin); unfold jn; rewrite Hname; exact Hn).
  subst g. rewrite Hname. apply (in_map fst) in Hinm. exact Hinm.
Qed.

(* the entry hypothesis: Mapping's pieces for (n, x) are what the codec's action makes of protojson's entry; it is
   asked of a declared field that is not flattened, not a variant of a configured oneof, and without
   empty_behavior unless that is the codec ([owner_excludes]) *)
Theorem conforms_keylocal ft tn md m :
  is_field_codec ft = true ->
  str_eqb tn ts_name = false -> is_wkt_other tn = false ->
  find_message (all_messages sc) tn = Some md -> owner_of sc md = Own ft ->
  buildable sc ft md = true ->
  nodup_str (map jn (m_fields md)) = true ->
  declared md m = true ->
  (forall n x f, In (n, x) m -> find_field (m_fields md) n = Some f -> In f (m_fields md) -> f_name f = n ->
     is_flatten f = false -> mp_oneof_of md f = None -> (ft <> FtEmpty -> empty_of f = None) ->
     mp_entry E sc md n f x =
     pj_fval E sc (f_kind f) x >>= (fun j =>
       ROk (map (fun e => PField (fst e) (snd e)) (upd (act_of E ft m f) (json_name n, j))))) ->
  encode E sc tn m = to_json E sc tn m.
Proof.
  intros Hft Hts Hwk Hfm Hown Hb Hnd Hdecl Hent.
  destruct (owner_excludes sc md ft Hown Hft) as [Hru Hfs].
  pose proof (proj1 (nodup_str_iff _) Hnd) as Hnd'.
  rewrite (encode_act ft tn md m Hft Hts Hwk Hfm Hown Hb Hdecl).
  unfold to_json. rewrite mp_fval_FM, Hts, Hwk, Hfm.
  rewrite (mp_msg_entries E sc md (fun k j => slot (act_of E ft m) (m_fields md) (k, j)) m).
  2:{ intros n x f Hin Hf. destruct (find_field_spec _ _ _ Hf) as [Hinf Hname].
      destruct (Hfs f Hinf) as [Hfl [Hoo [Hem _]]]. rewrite (Hent n x f Hin Hf Hinf Hname Hfl Hoo Hem).
      unfold slot. cbn [fst]. replace (json_name n) with (jn f) by (unfold jn; rewrite Hname; reflexivity).
      rewrite (field_by_json_jn (m_fields md) f Hnd' Hinf). reflexivity. }
  destruct (m_msg E sc md m) as [es|e|w] eqn:Hes; cbn [rbind]; try reflexivity.
  rewrite (mp_finish_fields md m _ Hru), (fold_astep _ _ es Hnd'). do 3 f_equal.
  - apply flat_map_ext_in. intros [k j] _. reflexivity.
  - (* the appended values are the nulls of the unpopulated nullable fields *)
    unfold fresh, mp_nulls. apply flat_map_ext_in. intros f Hin.
    destruct (mget m (f_name f)) as [x|] eqn:Hg.
    + rewrite (m_msg_has E sc md m es f Hes) by (rewrite Hg; discriminate).
      destruct (f_nullable f) as [[|]|]; reflexivity.
    + assert (Hh : raw_has (jn f) es = false).
      { destruct (raw_has (jn f) es) eqn:Eh; [exfalso|reflexivity]. apply raw_has_keys in Eh.
        rewrite (m_msg_keys E sc md m es Hes) in Eh.
        exact (mget_in m (f_name f) (declared_key md m f Hnd Hdecl Hin Eh) Hg). }
      rewrite Hh, (act_of_absent E ft m f Hg).
      destruct (Hfs f Hin) as [_ [_ [_ Hnn]]]. unfold is_nullable in Hnn |- *.
      destruct (f_nullable f) as [[|]|]; destruct ft; try reflexivity;
        assert (T : true = false) by (apply Hnn; discriminate); discriminate T.
Qed.

(* the usual entry: a field the codec keeps, whose own options are inert, with nothing annotated below *)
Lemma mp_fval_keep n f x :
  inert_at f (f_kind f) = true -> plain_in sc (f_kind f) x = true ->
  mp_fval E sc (Some f) (f_kind f) x >>= (fun j => ROk [PField (json_name n) j]) =
  pj_fval E sc (f_kind f) x >>= (fun j => ROk (map (fun e => PField (fst e) (snd e)) (upd None (json_name n, j)))).
Proof. intros Hi Hp. rewrite (mapping_plain_inert E sc f (f_kind f) x Hi Hp). reflexivity. Qed.
Lemma mp_entry_keep md n f x :
  empty_of f = None -> is_flatten f = false -> mp_oneof_of md f = None ->
  inert_at f (f_kind f) = true -> plain_in sc (f_kind f) x = true ->
  mp_entry E sc md n f x =
  pj_fval E sc (f_kind f) x >>= (fun j => ROk (map (fun e => PField (fst e) (snd e)) (upd None (json_name n, j)))).
Proof. intros Hem Hfl Hoo Hi Hp. rewrite (mp_entry_default E sc md n f x Hem Hfl Hoo). apply mp_fval_keep; assumption. Qed.
End Conforms.

(* "the children of the value are un-annotated", as the per-codec theorems state it *)
Lemma plain_children_in sc md (m : mval) n x f :
  forallb (fun e => match find_field (m_fields md) (fst e) with
                    | Some f => plain_in sc (f_kind f) (snd e)
                    | None => false end) m = true ->
  In (n, x) m -> find_field (m_fields md) n = Some f -> plain_in sc (f_kind f) x = true.
Proof.
  intros H Hin Hf. rewrite forallb_forall in H. specialize (H _ Hin). cbn [fst snd] in H. rewrite Hf in H. exact H.
Qed.
Lemma declared_in md (m : mval) : (forall e, In e m -> find_field (m_fields md) (fst e) <> None) -> declared md m = true.
Proof.
  intros H. unfold declared. apply forallb_forall. intros e He. specialize (H e He).
  destruct (find_field (m_fields md) (fst e)); [reflexivity|contradiction].
Qed.
Lemma plain_children_declared sc md (m : mval) :
  forallb (fun e => match find_field (m_fields md) (fst e) with
                    | Some f => plain_in sc (f_kind f) (snd e)
                    | None => false end) m = true -> declared md m = true.
Proof.
  intros H. apply declared_in. rewrite forallb_forall in H. intros e He Hn. specialize (H e He).
  rewrite Hn in H. discriminate H.
Qed.
Close Scope Z_scope.
