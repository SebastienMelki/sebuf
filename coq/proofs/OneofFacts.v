(* OneofFacts.v — the discriminated-oneof codec (internal/httpgen/oneof_discriminator.go), C04 round trip.
   MarshalJSON   = protojson output, plus one discriminator per configured oneof with a populated member, and — for a
                   flattened oneof whose member is a message — the member's encoding/json fields inlined and its own key
                   removed;
   UnmarshalJSON = per configured oneof: read the discriminator, (flattened) collect the child's keys, json.Unmarshal
                   them, re-marshal the variant under its own key / (non-flattened) json.Unmarshal the variant as a
                   check; then drop the discriminators and protojson.Unmarshal what is left. *)
From Coq Require Import ZArith List Permutation.
From Sebuf Require Import CodecCases.
From SebufProofs Require Import TextFacts ListFacts CodecTextFacts ProtoJsonFacts CodecBase.
From SebufProofs Require NullableFacts.
From SebufProofs Require Import OneofPj OneofReflect.
Import ListNotations.

Open Scope Z_scope.

Lemma NoDup_flat_map_app {A B} (f g : A -> list B) l :
  NoDup (flat_map f l ++ flat_map g l) -> NoDup (flat_map (fun a => f a ++ g a) l).
Proof.
  apply Permutation_NoDup. induction l as [|a r IH]; [apply Permutation_refl|]. cbn [flat_map]. rewrite <- !app_assoc.
  apply Permutation_app_head. eapply perm_trans; [apply Permutation_app_swap_app|]. apply Permutation_app_head. exact IH.
Qed.

(* a value listed in field order instead of its own order *)
Definition by_fields (md : message) (m : mval) : list (field * fval) :=
  flat_map (fun f => match mget m (f_name f) with Some x => [(f, x)] | None => [] end) (m_fields md).

Lemma by_fields_perm md m :
  NullableFacts.nodup_str (map jn (m_fields md)) = true -> nodup_Z (map f_number (m_fields md)) = true ->
  sorted_Z (map (fun e => num_of md (fst e)) m) = true -> declared md m = true ->
  Permutation (by_fields md m) (tags md m).
Proof.
  intros Hjn Hnum Hs Hd. apply NoDup_Permutation.
  - apply (NoDup_map_inv fst).
    assert (Hm : map fst (by_fields md m) = filter (fun f => match mget m (f_name f) with Some _ => true | None => false end) (m_fields md)).
    { unfold by_fields. clear. induction (m_fields md) as [|f r IH]; [reflexivity|]. cbn [flat_map filter].
      destruct (mget m (f_name f)); cbn [app map fst]; rewrite IH; reflexivity. }
    rewrite Hm. apply NoDup_filter. apply (NoDup_map_inv f_number). apply nodup_Z_NoDup. exact Hnum.
  - apply (NoDup_map_inv (fun fv : field * fval => f_number (fst fv))). rewrite (tags_nums md m Hd). apply sorted_Z_NoDup. exact Hs.
  - intros [f x]. rewrite tags_in. unfold by_fields. rewrite in_flat_map. split.
    + intros [g [Hg Hin]]. destruct (mget m (f_name g)) as [y|] eqn:Eg; [|destruct Hin]. destruct Hin as [Hin|[]]. inversion Hin; subst g y.
      exists (f_name f). split; [exact (mget_pair m _ _ Eg)|exact (find_self _ f (proj1 (NullableFacts.nodup_str_iff _) Hjn) Hg)].
    + intros [name [Hin Hf]]. destruct (find_field_spec _ _ _ Hf) as [Hinf Hn]. exists f. split; [exact Hinf|].
      rewrite Hn, (sorted_mget md m name x Hs Hin). left. reflexivity.
Qed.

Lemma gj_ent_keys E sc cmd cm ckv : Forall2 (gj_ent E sc cmd) cm ckv -> keys ckv = map fst cm.
Proof. induction 1 as [|a b r r' [f [_ [Hk _]]] _ IH]; [reflexivity|]. unfold keys in *. cbn [map]. rewrite Hk, IH. reflexivity. Qed.

Section FlatChild.
Variable E : ExtLib.
Hypothesis EL : ExtLaws E.
Variable sc : schema.
Variable ctn : str.
Variable cmd : message.
Variable cm : mval.
Variable ckv : rawmap.
Hypothesis Hts : str_eqb ctn ts_name = false.
Hypothesis Hwk : is_wkt_other ctn = false.
Hypothesis Hfm : find_message (all_messages sc) ctn = Some cmd.
Hypothesis Hown : owner_of sc cmd = OwnNone.
Hypothesis Hok : msg_ok cmd = true.
Hypothesis Hsorted : sorted_Z (map (fun e => num_of cmd (fst e)) cm) = true.
Hypothesis Hwf : wt_fields sc cmd cm = true.
Hypothesis Hc : flat_child_ok sc cmd cm = true.
Hypothesis HF : Forall2 (gj_ent E sc cmd) cm ckv.

Lemma flat_keys_nodup : NoDup (keys ckv).
Proof. rewrite (gj_ent_keys E sc cmd cm ckv HF). exact (sorted_names_nodup cmd cm Hsorted). Qed.

Lemma flat_keys_sub : incl (keys ckv) (map jn (m_fields cmd)).
Proof.
  intros k Hin. rewrite (gj_ent_keys E sc cmd cm ckv HF) in Hin. apply in_map_iff in Hin. destruct Hin as [[name x] [Hn Hin]]. cbn [fst] in Hn. subst k.
  destruct (flat_child_in sc cmd cm Hwf name x Hc Hin) as [g [_ [Hing [Hgn [Hjn _]]]]].
  apply in_map_iff. exists g. split; [unfold jn; rewrite Hgn; exact Hjn|exact Hing].
Qed.

(* the decoder probes the inlined keys by the child's fields, json.Marshal sorts what it found, json.Unmarshal reads it *)
Lemma flat_probe_un n :
  gj_un E sc (S (S n)) (KMessage ctn)
    (JObj (raw_sort (flat_map (fun cf => match raw_get (jn cf) ckv with Some v => [(jn cf, v)] | None => [] end) (m_fields cmd))))
  = ROk (Some (FM cm)).
Proof.
  pose proof (NullableFacts.msg_ok_nodup_jn cmd Hok) as Hcjn.
  assert (HF2 : Forall2 (fv_ent E sc cmd) (by_fields cmd cm)
                  (flat_map (fun cf => match raw_get (jn cf) ckv with Some v => [(jn cf, v)] | None => [] end) (m_fields cmd))).
  { unfold by_fields. apply Forall2_flat_map. intros cf Hcf. destruct (mget cm (f_name cf)) as [x|] eqn:Egx.
    - pose proof (mget_pair cm _ _ Egx) as Hinx.
      destruct (flat_child_in sc cmd cm Hwf _ x Hc Hinx) as [g [Hgf [Hing [Hgn [Hjn [Hgo [_ Hw]]]]]]].
      assert (g = cf) by (rewrite (find_field_complete cmd cf Hok Hcf) in Hgf; congruence). subst g.
      destruct (Forall2_in_l _ _ _ _ HF Hinx) as [[k j] [Hinj [g [Hg [Hk Hj]]]]]. cbn [fst snd] in Hg, Hk, Hj. subst k.
      assert (g = cf) by congruence. subst g.
      assert (Hjcf : jn cf = f_name cf) by exact Hjn.
      rewrite Hjcf, (raw_get_nodup_in _ j ckv flat_keys_nodup Hinj).
      constructor; [|constructor]. unfold fv_ent. cbn [fst snd]. repeat split; assumption.
    - rewrite raw_get_notin; [constructor|]. rewrite (gj_ent_keys E sc cmd cm ckv HF). intros Hin. apply in_map_iff in Hin.
      destruct Hin as [[name x] [Hn Hin]]. cbn [fst] in Hn.
      destruct (flat_child_in sc cmd cm Hwf name x Hc Hin) as [g [_ [Hing [Hgn [Hjn _]]]]].
      assert (g = cf). { apply (NullableFacts.nodup_jn_inj (m_fields cmd) g cf Hcjn Hing Hcf). unfold jn at 1. rewrite Hgn, Hjn. exact Hn. }
      subst g. rewrite Hgn, (sorted_mget cmd cm name x Hsorted Hin) in Egx. discriminate Egx. }
  pose proof (by_fields_perm cmd cm Hcjn (proj1 (andb_prop _ _ Hok)) Hsorted (wt_fields_declared sc cmd cm Hwf)) as HP.
  (* json.Marshal(variantMap) writes the keys in byte order: the same entries, permuted *)
  destruct (ClashFacts.Forall2_perm_r (fv_ent E sc cmd) _ _ (Permutation_sym (ClashFacts.raw_sort_perm _)) _ HF2) as [fvs' [HPf HF3]].
  exact (flat_gj_un E EL sc ctn cmd cm Hts Hwk Hfm Hown Hok Hsorted Hwf n _ _ HF3 (Permutation_trans (Permutation_sym HPf) HP)).
Qed.
End FlatChild.

Section Steps.
Variable E : ExtLib.
Variable sc : schema.

(* [enc1] and [dec1] are the bodies of the model's two loops over the oneofs, their case trees copied verbatim, so
   that [enc_oneof_fold] and [gj_un_oneof] hold by reflexivity; [enc1_spec] and [dec1_spec] say what they compute *)
Definition enc1 (md : message) (m : mval) (ks : kids_t) (o : oneof) (raw : rawmap) : res rawmap :=
  if oneof_cfg o then
    match find_oneof_member md m o with
    | Some f =>
        let raw1 := raw_set (o_discriminator o) (JStr (disc_value f)) raw in
        if o_flatten o && is_msg_kind (f_kind f) then
          match kid ks (f_name f) with
          | ROk (JObj ckv) => ROk (raw_del (jn f) (fold_left (fun r e => raw_set (fst e) (snd e) r) ckv raw1))
          | RUnm w => RUnm w
          | _ => ROk (raw_del (jn f) raw1)
          end
        else ROk raw1
    | None => ROk raw
    end
  else ROk raw.
Lemma enc_oneof_fold md m ks raw :
  enc_oneof md m ks raw = fold_left (fun acc o => acc >>= enc1 md m ks o) (m_oneofs md) (ROk raw).
Proof. reflexivity. Qed.

Definition dec1 (n : nat) (md : message) (o : oneof) (raw : rawmap) : res rawmap :=
  if oneof_cfg o then
    match raw_get (o_discriminator o) raw with
    | None => ROk raw
    | Some dj =>
        (match dj with
         | JStr d => ROk d
         | JNull => ROk []
         | _ => RErr (s "invalid discriminator")
         end) >>= (fun d =>
        match find (fun f => match f_oneof f with
                             | Some on => str_eqb on (o_name o) && str_eqb (disc_value f) d
                             | None => false end) (m_fields md) with
        | None => ROk raw
        | Some f =>
            if negb (is_msg_kind (f_kind f)) then ROk raw
            else if o_flatten o then
              match lookup_message sc (msg_name (f_kind f)) with
              | None => RUnm (s "unknown message type")
              | Some cmd =>
                  let vmap := flat_map (fun cf => match raw_get (jn cf) raw with
                                                  | Some v => [(jn cf, v)] | None => [] end) (m_fields cmd) in
                  let raw' := fold_left (fun r cf => raw_del (jn cf) r) (m_fields cmd) raw in
                  gj_un E sc n (f_kind f) (JObj (raw_sort vmap)) >>= (fun ov =>
                  let variant := match ov with Some v => v | None => FM [] end in
                  match gj_fval E sc (f_kind f) variant with
                  | ROk vj => ROk (raw_set (jn f) vj raw')
                  | RErr _ => ROk (raw_set (jn f) JNull raw')
                  | RUnm w => RUnm w
                  end)
              end
            else
              match raw_get (jn f) raw with
              | Some vj => gj_un E sc n (f_kind f) vj >>= (fun _ => ROk raw)
              | None => ROk raw
              end
        end)
    end
  else ROk raw.
Definition strip_discs (md : message) (raw : rawmap) : rawmap :=
  fold_left (fun r o => if oneof_cfg o then raw_del (o_discriminator o) r else r) (m_oneofs md) raw.

Lemma gj_un_oneof n tn md raw :
  is_wkt_other tn = false -> lookup_message sc tn = Some md -> owner_of sc md = Own FtOneof ->
  gj_un E sc (S n) (KMessage tn) (JObj raw) =
  fold_left (fun acc o => acc >>= dec1 n md o) (m_oneofs md) (ROk raw) >>= (fun raw1 =>
  pj_un E sc (KMessage tn) (JObj (strip_discs md raw1)) >>= (fun v => ROk (Some v))).
Proof. intros H1 H2 H3. cbn [gj_un]. apply (own_branch _ _ md _ FtOneof _ _ _ _ _ _ H1 H2 H3). reflexivity. Qed.
End Steps.

(* the populated member of a configured flattened oneof, when it is a message *)
Definition flat_member (md : message) (m : mval) (o : oneof) : option field :=
  if oneof_cfg o then
    match find_oneof_member md m o with
    | Some f => if o_flatten o && is_msg_kind (f_kind f) then Some f else None
    | None => None
    end
  else None.
Definition child_jns (sc : schema) (f : field) : list str :=
  match lookup_message sc (msg_name (f_kind f)) with Some cmd => map jn (m_fields cmd) | None => [] end.
(* keys the codec of this oneof writes / looks up beside the fields' own keys: the discriminator and, flattened, the
   JSON names of the member's type *)
Definition probe_keys (sc : schema) (md : message) (m : mval) (o : oneof) : list str :=
  if oneof_cfg o then
    o_discriminator o :: match flat_member md m o with Some f => child_jns sc f | None => [] end
  else [].
Definition set_fields (md : message) (m : mval) : list field :=
  filter (fun f => match mget m (f_name f) with Some _ => true | None => false end) (m_fields md).
(* the keys of the rendered object and the keys the decoder looks up are pairwise distinct *)
Definition oneof_keys_ok (sc : schema) (md : message) (m : mval) : bool :=
  NullableFacts.nodup_str (map jn (set_fields md m) ++ flat_map (probe_keys sc md m) (m_oneofs md)).
(* the discriminator values of a configured oneof are pairwise distinct (else the emitted switch does not compile) *)
Definition variants_of (md : message) (o : oneof) : list field :=
  filter (fun f => match f_oneof f with Some n => str_eqb n (o_name o) | None => false end) (m_fields md).
Definition disc_values_ok (md : message) : bool :=
  forallb (fun o => negb (oneof_cfg o) || NullableFacts.nodup_str (map disc_value (variants_of md o))) (m_oneofs md).

(* the discriminators are dropped at the end *)
Definition discs (os : list oneof) : list str := flat_map (fun o => if oneof_cfg o then [o_discriminator o] else []) os.
Lemma strip_discs_del md raw : strip_discs md raw = del_all (discs (m_oneofs md)) raw.
Proof.
  unfold strip_discs, discs. revert raw. induction (m_oneofs md) as [|o r IH]; intros raw; cbn [fold_left flat_map];
    [symmetry; apply del_all_nil|].
  rewrite IH. destruct (oneof_cfg o); [apply del_all_cons|reflexivity].
Qed.

Section Main.
Variable E : ExtLib.
Hypothesis EL : ExtLaws E.
Variable sc : schema.
Variable tn : str.
Variable md : message.
Variable m : mval.
Hypothesis Hts : str_eqb tn ts_name = false.
Hypothesis Hwk : is_wkt_other tn = false.
Hypothesis Hfm : find_message (all_messages sc) tn = Some md.
Hypothesis Hown : owner_of sc md = Own FtOneof.
Hypothesis Hok1 : msg_ok1 md = true.
Hypothesis Hsorted : sorted_Z (map (fun e => num_of md (fst e)) m) = true.
Hypothesis Hwf : wt_fields sc md m = true.
Hypothesis Hex : NullableFacts.nodup_str (set_oneofs md m) = true.
Hypothesis Hon : NullableFacts.nodup_str (map o_name (m_oneofs md)) = true.
Hypothesis Hkeys : oneof_keys_ok sc md m = true.
Hypothesis Hdv : disc_values_ok md = true.

(* the populated message member of a configured oneof: a type without codec (not Timestamp), value as the classifier
   and the gap conditions demand *)
Definition variant_ok (o : oneof) : Prop :=
  forall f, oneof_cfg o = true -> find_oneof_member md m o = Some f -> is_msg_kind (f_kind f) = true ->
  exists ctn cmd cm, f_kind f = KMessage ctn /\ mget m (f_name f) = Some (FM cm) /\ str_eqb ctn ts_name = false /\
     find_message (all_messages sc) ctn = Some cmd /\ owner_of sc cmd = OwnNone /\
     (if o_flatten o then flat_child_ok sc cmd cm = true else nonflat_child_ok cmd cm = true).
Hypothesis Hvar : forall o, In o (m_oneofs md) -> variant_ok o.

Lemma msg_lookup : lookup_message sc tn = Some md.
Proof. exact (find_lookup sc tn md Hts Hfm). Qed.
Lemma jn_nodup : NullableFacts.nodup_str (map jn (m_fields md)) = true.
Proof. exact (msg_ok1_nodup_jn md Hok1). Qed.
Lemma value_declared : declared md m = true.
Proof. exact (wt_fields_declared sc md m Hwf). Qed.

Lemma member_facts o f : find_oneof_member md m o = Some f ->
  In f (m_fields md) /\ f_oneof f = Some (o_name o) /\ f_card f = Singular /\ find_field (m_fields md) (f_name f) = Some f /\
  exists x, mget m (f_name f) = Some x /\ In (f_name f, x) m /\ wt_entry sc f x = true.
Proof.
  intros Hf. unfold find_oneof_member in Hf. apply find_some in Hf. destruct Hf as [Hin Hp].
  destruct (f_oneof f) as [n|] eqn:Eo; [|discriminate Hp]. apply andb_prop in Hp. destruct Hp as [Hn Hg].
  apply str_eqb_eq in Hn. subst n.
  destruct (mget m (f_name f)) as [x|] eqn:Eg; [|discriminate Hg].
  pose proof (find_self (m_fields md) f (proj1 (NullableFacts.nodup_str_iff _) jn_nodup) Hin) as Hself.
  split; [exact Hin|]. split; [reflexivity|]. split; [exact (msg_ok1_member_singular md f _ Hok1 Hin Eo)|]. split; [exact Hself|].
  exists x. split; [reflexivity|]. pose proof (mget_pair m _ _ Eg) as Hinm. split; [exact Hinm|].
  destruct (wt_fields_in sc md m _ x Hwf Hinm) as [g [Hg' Hw]]. assert (g = f) by congruence. subst g. exact Hw.
Qed.

(* a message-typed member f with its type and value, as the lemmas on children (OneofReflect) ask *)
Record child_of (f : field) (ctn : str) (cmd : message) (cm : mval) : Prop := {
  c_kind : f_kind f = KMessage ctn;
  c_get : mget m (f_name f) = Some (FM cm);
  c_in : In (f_name f, FM cm) m;
  c_ts : str_eqb ctn ts_name = false;
  c_wk : is_wkt_other ctn = false;
  c_fm : find_message (all_messages sc) ctn = Some cmd;
  c_own : owner_of sc cmd = OwnNone;
  c_ok : msg_ok cmd = true;
  c_sorted : sorted_Z (map (fun e => num_of cmd (fst e)) cm) = true;
  c_wf : wt_fields sc cmd cm = true }.

Lemma msg_member o f : In o (m_oneofs md) -> oneof_cfg o = true -> find_oneof_member md m o = Some f ->
  is_msg_kind (f_kind f) = true ->
  exists ctn cmd cm, child_of f ctn cmd cm /\
    (if o_flatten o then flat_child_ok sc cmd cm = true else nonflat_child_ok cmd cm = true).
Proof.
  intros Ho Hcfg Hf Hmsg. destruct (Hvar o Ho f Hcfg Hf Hmsg) as [ctn [cmd [cm [Hk [Hg [Hcts [Hcfm [Hcown Hc]]]]]]]].
  destruct (member_facts o f Hf) as [_ [_ [Hcard [_ [x [Hgx [Hinm Hw]]]]]]].
  assert (x = FM cm) by congruence. subst x.
  unfold wt_entry in Hw. rewrite Hcard, Hk in Hw. rewrite wt_FM, Hcts in Hw.
  apply andb_prop in Hw. destruct Hw as [Hcwk Hw]. apply Bool.negb_true_iff in Hcwk. rewrite Hcfm in Hw.
  apply andb_prop in Hw. destruct Hw as [Hw Hcwf]. apply andb_prop in Hw. destruct Hw as [Hcok Hcs].
  exists ctn, cmd, cm. split; [constructor; assumption|exact Hc].
Qed.

Lemma child_jns_eq f ctn cmd cm : child_of f ctn cmd cm -> child_jns sc f = map jn (m_fields cmd).
Proof. intros [Hk _ _ Hcts _ Hcfm _ _ _ _]. unfold child_jns. rewrite Hk. cbn [msg_name]. rewrite (find_lookup sc ctn cmd Hcts Hcfm). reflexivity. Qed.

Lemma flat_member_inv o f : flat_member md m o = Some f ->
  oneof_cfg o = true /\ find_oneof_member md m o = Some f /\ o_flatten o = true /\ is_msg_kind (f_kind f) = true.
Proof.
  unfold flat_member. destruct (oneof_cfg o); [|discriminate]. destruct (find_oneof_member md m o) as [g|]; [|discriminate].
  destruct (o_flatten o && is_msg_kind (f_kind g)) eqn:Eb; [|discriminate]. intros H. inversion H; subst g.
  apply andb_prop in Eb. destruct Eb. auto.
Qed.

Lemma member_unique o o' f f' : In o (m_oneofs md) -> In o' (m_oneofs md) ->
  find_oneof_member md m o = Some f -> find_oneof_member md m o' = Some f' -> jn f = jn f' -> o = o' /\ f = f'.
Proof.
  intros Ho Ho' Hmem Hmem' Hj.
  destruct (member_facts o f Hmem) as [Hin [Hoo _]]. destruct (member_facts o' f' Hmem') as [Hin' [Hoo' _]].
  assert (f = f') by exact (NullableFacts.nodup_jn_inj (m_fields md) f f' jn_nodup Hin Hin' Hj). subst f'. split; [|reflexivity].
  apply (NoDup_map_inj o_name (m_oneofs md) o o' (proj1 (NullableFacts.nodup_str_iff _) Hon) Ho Ho'). congruence.
Qed.

Lemma find_variant o f : In o (m_oneofs md) -> oneof_cfg o = true -> find_oneof_member md m o = Some f ->
  find (fun g => match f_oneof g with
                 | Some on => str_eqb on (o_name o) && str_eqb (disc_value g) (disc_value f)
                 | None => false end) (m_fields md) = Some f.
Proof.
  intros Ho Hcfg Hmem. destruct (member_facts o f Hmem) as [Hin [Hoo _]].
  unfold disc_values_ok in Hdv. rewrite forallb_forall in Hdv. specialize (Hdv o Ho). rewrite Hcfg in Hdv. cbn [negb orb] in Hdv.
  assert (Hv : forall g, In g (m_fields md) -> f_oneof g = Some (o_name o) -> In g (variants_of md o)).
  { intros g Hg Hgo. unfold variants_of. apply filter_In. split; [exact Hg|]. rewrite Hgo. apply str_eqb_refl. }
  apply find_unique.
  - exact Hin.
  - rewrite Hoo, !str_eqb_refl. reflexivity.
  - intros g Hg Hp. destruct (f_oneof g) as [on|] eqn:Ego; [|discriminate Hp]. apply andb_prop in Hp. destruct Hp as [H1 H2].
    apply str_eqb_eq in H1. apply str_eqb_eq in H2. subst on.
    exact (NoDup_map_inj disc_value (variants_of md o) g f (proj1 (NullableFacts.nodup_str_iff _) Hdv) (Hv g Hg Ego) (Hv f Hin Hoo) H2).
Qed.

Definition mem_val (f : field) : mval := match mget m (f_name f) with Some (FM cm) => cm | _ => [] end.
(* the discriminator entry MarshalJSON adds, the inlined fields of a flattened member, that member put back under
   its own key by UnmarshalJSON *)
Definition kept (o : oneof) : rawmap :=
  if oneof_cfg o then
    match find_oneof_member md m o with Some f => [(o_discriminator o, JStr (disc_value f))] | None => [] end
  else [].
Definition ckv_of (o : oneof) : rawmap :=
  match flat_member md m o with
  | Some f => match gj_fval E sc (f_kind f) (FM (mem_val f)) with ROk (JObj ckv) => ckv | _ => [] end
  | None => []
  end.
Definition adds (o : oneof) : rawmap := kept o ++ ckv_of o.
Definition backs (o : oneof) : rawmap :=
  match flat_member md m o with Some f => [(jn f, JObj (ckv_of o))] | None => [] end.
Definition back_keys (o : oneof) : list str := match flat_member md m o with Some f => [jn f] | None => [] end.
Definition probe (o : oneof) : list str := probe_keys sc md m o.
(* the keys the codec of this oneof reads or writes *)
Definition own_keys (o : oneof) : list str := probe o ++ back_keys o.
(* the keys that are moved: the flattened members' own keys *)
Definition moved_keys : list str := flat_map back_keys (m_oneofs md).

Lemma backs_keys o : keys (backs o) = back_keys o.
Proof. unfold backs, back_keys. destruct (flat_member md m o); reflexivity. Qed.

Lemma flat_member_val o f : In o (m_oneofs md) -> flat_member md m o = Some f ->
  In f (m_fields md) /\ find_field (m_fields md) (f_name f) = Some f /\ In (f_name f, FM (mem_val f)) m.
Proof.
  intros Ho Hf. destruct (flat_member_inv o f Hf) as [Hcfg [Hmem [_ Hmsg]]].
  destruct (member_facts o f Hmem) as [Hin [_ [_ [Hself _]]]].
  destruct (msg_member o f Ho Hcfg Hmem Hmsg) as [ctn [cmd [cm [[_ Hg Hinm _ _ _ _ _ _ _] _]]]].
  unfold mem_val. rewrite Hg. auto.
Qed.

Lemma moved_keys_in k : In k moved_keys <-> exists o f, In o (m_oneofs md) /\ flat_member md m o = Some f /\ k = jn f.
Proof.
  unfold moved_keys. rewrite in_flat_map. split.
  - intros [o [Ho Hk]]. unfold back_keys in Hk. destruct (flat_member md m o) as [f|] eqn:Hf; [|destruct Hk].
    destruct Hk as [Hk|[]]. exists o, f. auto.
  - intros [o [f [Ho [Hf Hk]]]]. exists o. split; [exact Ho|]. unfold back_keys. rewrite Hf. left. symmetry. exact Hk.
Qed.

Lemma moved_keys_nodup : NoDup moved_keys.
Proof.
  unfold moved_keys. assert (Hno : NoDup (m_oneofs md)) by (apply (NoDup_map_inv o_name), NullableFacts.nodup_str_iff, Hon).
  assert (Hinj : forall o o' k, In o (m_oneofs md) -> In o' (m_oneofs md) -> In k (back_keys o) -> In k (back_keys o') -> o = o').
  { intros o o' k Ho Ho' Hk Hk'. unfold back_keys in Hk, Hk'.
    destruct (flat_member md m o) as [f|] eqn:Hf; [|destruct Hk]. destruct (flat_member md m o') as [f'|] eqn:Hf'; [|destruct Hk'].
    destruct Hk as [Hk|[]]. destruct Hk' as [Hk'|[]]. subst k.
    destruct (flat_member_inv o f Hf) as [_ [Hmem _]]. destruct (flat_member_inv o' f' Hf') as [_ [Hmem' _]].
    exact (proj1 (member_unique o o' f f' Ho Ho' Hmem Hmem' (eq_sym Hk'))). }
  revert Hno Hinj. generalize (m_oneofs md). intros os. induction os as [|o r IH]; intros Hno Hinj; [constructor|].
  inversion Hno as [|a l Ha Hl]; subst. cbn [flat_map]. apply NoDup_app.
  - unfold back_keys. destruct (flat_member md m o); [constructor; [intros []|constructor]|constructor].
  - apply IH; [exact Hl|]. intros o1 o2 k H1 H2. apply Hinj; right; assumption.
  - intros k Hk Hin. apply in_flat_map in Hin. destruct Hin as [o' [Ho' Hk']].
    assert (o = o') by (apply (Hinj o o' k); [left; reflexivity|right; exact Ho'|exact Hk|exact Hk']). subst o'. exact (Ha Ho').
Qed.

Lemma probes_nodup : NoDup (flat_map probe (m_oneofs md)).
Proof.
  unfold oneof_keys_ok in Hkeys. apply NullableFacts.nodup_str_iff in Hkeys. apply NoDup_app_inv in Hkeys. apply Hkeys.
Qed.
Lemma probes_fields : disj (flat_map probe (m_oneofs md)) (map jn (set_fields md m)).
Proof.
  unfold oneof_keys_ok in Hkeys. apply NullableFacts.nodup_str_iff in Hkeys. apply NoDup_app_inv in Hkeys.
  destruct Hkeys as [_ [_ Hd]]. intros k H1 H2. exact (Hd k H2 H1).
Qed.

Lemma set_field_jn f : In f (m_fields md) -> (exists x, mget m (f_name f) = Some x) -> In (jn f) (map jn (set_fields md m)).
Proof.
  intros Hin [x Hx]. apply in_map. unfold set_fields. apply filter_In. split; [exact Hin|]. rewrite Hx. reflexivity.
Qed.

Lemma moved_probe : disj moved_keys (flat_map probe (m_oneofs md)).
Proof.
  intros k Hk Hp. apply moved_keys_in in Hk. destruct Hk as [o [f [Ho [Hf Hk]]]]. subst k.
  destruct (flat_member_inv o f Hf) as [_ [Hmem _]]. destruct (member_facts o f Hmem) as [Hin [_ [_ [_ [x [Hx _]]]]]].
  apply (probes_fields (jn f) Hp). apply set_field_jn; [exact Hin|exists x; exact Hx].
Qed.

Lemma own_nodup : NoDup (flat_map own_keys (m_oneofs md)).
Proof. apply NoDup_flat_map_app. apply NoDup_app; [exact probes_nodup|exact moved_keys_nodup|exact (disj_sym _ _ moved_probe)]. Qed.

Lemma own_split k : In k (flat_map own_keys (m_oneofs md)) -> In k (flat_map probe (m_oneofs md)) \/ In k moved_keys.
Proof.
  intros Hk. apply in_flat_map in Hk. destruct Hk as [o [Ho Hk]]. apply in_app_or in Hk.
  destruct Hk as [Hk|Hk]; [left|right]; apply in_flat_map; exists o; split; assumption.
Qed.

Lemma discs_probe os : incl (discs os) (flat_map probe os).
Proof.
  unfold discs. apply incl_flat_map. intros o _. unfold probe, probe_keys. destruct (oneof_cfg o); [|intros k []].
  intros k [Hk|[]]. left. exact Hk.
Qed.
Lemma kept_keys_discs os : incl (keys (flat_map kept os)) (discs os).
Proof.
  rewrite keys_flat_map. unfold discs. apply incl_flat_map. intros o _. unfold kept.
  destruct (oneof_cfg o); [|intros k []]. destruct (find_oneof_member md m o); [|intros k []]. intros k Hk. exact Hk.
Qed.

(* what the decoder step of a NON-flattened message member asks of the entries P before its own: the variant stands
   there under the member's key and json.Unmarshal (run as a check only) accepts it *)
Definition nested_reads (n : nat) (o : oneof) (P : rawmap) : Prop :=
  forall f ctn cmd cm, find_oneof_member md m o = Some f -> o_flatten o = false -> child_of f ctn cmd cm ->
  nonflat_child_ok cmd cm = true -> exists vj r, raw_get (jn f) P = Some vj /\ gj_un E sc n (f_kind f) vj = ROk r.

Lemma nested_reads_mono n o P Y : nested_reads n o P -> nested_reads n o (P ++ Y).
Proof.
  intros H f ctn cmd cm H1 H2 H3 H4. destruct (H f ctn cmd cm H1 H2 H3 H4) as [vj [r [Hg Hu]]]. exists vj, r. split; [|exact Hu].
  exact (raw_get_app_l _ P Y vj Hg).
Qed.

Section Rendered.
Variable es : list (str * json).
Hypothesis Hes : m_msg E sc md m = ROk es.
Variable ks : kids_t.
Hypothesis Hks : kids_loop E sc FtOneof md m = ROk ks.

Definition unmoved : rawmap := del_all moved_keys es.

Lemma names_nodup : NoDup (map fst m).
Proof. exact (sorted_names_nodup md m Hsorted). Qed.

(* the view of a oneof on the value: switched off, no member populated, a scalar member, a nested message member, or
   a flattened message member with its child type cmd, its value cm and the fields ckv json.Marshal wrote for it;
   indexed by what kept, ckv_of and flat_member are in each case *)
Inductive oview (o : oneof) : rawmap -> rawmap -> option field -> Prop :=
| OOff : oneof_cfg o = false -> oview o [] [] None
| ONone : oneof_cfg o = true -> find_oneof_member md m o = None -> oview o [] [] None
| OScalar f : oneof_cfg o = true -> find_oneof_member md m o = Some f -> is_msg_kind (f_kind f) = false ->
    oview o [(o_discriminator o, JStr (disc_value f))] [] None
| ONest f ctn cmd cm : oneof_cfg o = true -> find_oneof_member md m o = Some f -> o_flatten o = false ->
    child_of f ctn cmd cm -> nonflat_child_ok cmd cm = true ->
    oview o [(o_discriminator o, JStr (disc_value f))] [] None
| OFlat f ctn cmd cm ckv : oneof_cfg o = true -> find_oneof_member md m o = Some f -> o_flatten o = true ->
    child_of f ctn cmd cm -> flat_child_ok sc cmd cm = true ->
    kid ks (f_name f) = ROk (JObj ckv) -> gj_fval E sc (KMessage ctn) (FM cm) = ROk (JObj ckv) ->
    Forall2 (gj_ent E sc cmd) cm ckv ->
    oview o [(o_discriminator o, JStr (disc_value f))] ckv (Some f).

Lemma oview_of o : In o (m_oneofs md) -> oview o (kept o) (ckv_of o) (flat_member md m o).
Proof.
  intros Ho. unfold kept, ckv_of, flat_member.
  destruct (oneof_cfg o) eqn:Hcfg; [|exact (OOff o Hcfg)].
  destruct (find_oneof_member md m o) as [f|] eqn:Hmem; [|exact (ONone o Hcfg Hmem)].
  destruct (is_msg_kind (f_kind f)) eqn:Hmsg; [|rewrite Bool.andb_false_r; exact (OScalar o f Hcfg Hmem Hmsg)].
  destruct (msg_member o f Ho Hcfg Hmem Hmsg) as [ctn [cmd [cm [Hc Hchild]]]].
  destruct (o_flatten o) eqn:Hfl; cbn [andb]; [|exact (ONest o f ctn cmd cm Hcfg Hmem Hfl Hc Hchild)].
  (* flattened: the body handed the member to json.Marshal, which wrote an object *)
  destruct (member_facts o f Hmem) as [_ [Hoo [_ [Hself _]]]].
  assert (Hng : needs_gj sc FtOneof md f = true).
  { cbn [needs_gj]. rewrite Hmsg, Hoo. cbn [andb]. apply existsb_exists. exists o. split; [exact Ho|].
    rewrite str_eqb_refl, Hcfg, Hfl. reflexivity. }
  pose proof Hc as [Hk Hg Hinm Hcts Hcwk Hcfm Hcown Hcok Hcs Hcwf].
  destruct (kid_of_kids E sc FtOneof md m ks Hks (f_name f) (FM cm) f (mget_nodup m _ _ names_nodup Hinm) Hself Hng) as [Hkid Hnu].
  assert (Hmv : mem_val f = cm) by (unfold mem_val; rewrite Hg; reflexivity).
  rewrite Hmv, Hk. rewrite Hk in Hkid, Hnu.
  destruct (gj_fval E sc (KMessage ctn) (FM cm)) as [j|e|w] eqn:Eg.
  - destruct (flat_gj_ok E sc ctn cmd cm Hcts Hcwk Hcfm Hcown Hcok Hcwf Hchild j Eg) as [ckv [Hj HF]]. subst j.
    exact (OFlat o f ctn cmd cm ckv Hcfg Hmem Hfl Hc Hchild Hkid Eg HF).
  - exfalso. exact (flat_gj_noerr E sc ctn cmd cm Hcts Hcwk Hcfm Hcown Hcok Hcwf e Hchild Eg).
  - exfalso. exact (Hnu w eq_refl).
Qed.

Lemma adds_keys o : In o (m_oneofs md) -> incl (keys (kept o)) (probe o) /\ incl (keys (ckv_of o)) (probe o).
Proof.
  intros Ho. unfold probe, probe_keys.
  destruct (oview_of o Ho) as [Hcfg|Hcfg Hmem|f Hcfg Hmem Hmsg|f ctn cmd cm Hcfg Hmem Hfl Hc Hchild
                              |f ctn cmd cm ckv Hcfg Hmem Hfl Hc Hchild Hkid Hgj HF]; rewrite Hcfg;
    try (split; [|intros k []]; intros k Hk; (exact Hk || destruct Hk)).
  rewrite (child_jns_eq f ctn cmd cm Hc). destruct Hc as [Hk Hg Hinm Hcts Hcwk Hcfm Hcown Hcok Hcs Hcwf].
  split; [intros k [Hk0|[]]; left; exact Hk0|].
  intros k Hk0. right. exact (flat_keys_sub E sc cmd cm ckv Hcwf Hchild HF k Hk0).
Qed.

Lemma own_incl o : In o (m_oneofs md) ->
  incl (keys (adds o)) (own_keys o) /\ incl (keys (kept o)) (own_keys o) /\ incl (keys (backs o)) (own_keys o).
Proof.
  intros Ho. destruct (adds_keys o Ho) as [H1 H2]. unfold own_keys, adds. rewrite keys_app, backs_keys.
  split; [|split]; [apply incl_appl, incl_app; assumption|apply incl_appl; exact H1|apply incl_appr, incl_refl].
Qed.

Lemma enc1_spec o raw : In o (m_oneofs md) ->
  NoDup (probe o) -> disj (probe o) (keys raw) -> disj (back_keys o) (probe o) ->
  enc1 md m ks o raw = ROk (del_all (back_keys o) raw ++ adds o).
Proof.
  intros Ho. unfold enc1, adds, back_keys, probe, probe_keys.
  destruct (oview_of o Ho) as [Hcfg|Hcfg Hmem|f Hcfg Hmem Hmsg|f ctn cmd cm Hcfg Hmem Hfl Hc Hchild
                              |f ctn cmd cm ckv Hcfg Hmem Hfl Hc Hchild Hkid Hgj HF]; rewrite Hcfg; intros Hnp Hfresh Hbp;
    rewrite ?Hmem; cbv zeta; cbn [app]; rewrite ?del_all_nil.
  - rewrite app_nil_r. reflexivity.
  - rewrite app_nil_r. reflexivity.
  - rewrite Hmsg, Bool.andb_false_r, (raw_set_fresh _ _ raw (Hfresh _ (or_introl eq_refl))). reflexivity.
  - rewrite Hfl, (raw_set_fresh _ _ raw (Hfresh _ (or_introl eq_refl))). reflexivity.
  - rewrite (child_jns_eq f ctn cmd cm Hc) in Hnp, Hfresh, Hbp. destruct Hc as [Hk Hg Hinm Hcts Hcwk Hcfm Hcown Hcok Hcs Hcwf].
    pose proof (flat_keys_sub E sc cmd cm ckv Hcwf Hchild HF) as Hsub. inversion Hnp as [|a l Hdck _]; subst a l.
    rewrite Hfl, Hk. cbn [is_msg_kind andb]. rewrite Hkid, (raw_set_fresh _ _ raw (Hfresh _ (or_introl eq_refl))), fold_raw_set_fresh.
    + rewrite !raw_del_app, <- app_assoc, <- del_all_cons, del_all_nil.
      rewrite (raw_del_fresh (jn f) [_]), (raw_del_fresh (jn f) ckv); [reflexivity| |].
      * intros Hin. exact (Hbp (jn f) (or_introl eq_refl) (or_intror (Hsub _ Hin))).
      * intros [Hin|[]]. exact (Hbp (jn f) (or_introl eq_refl) (or_introl Hin)).
    + exact (flat_keys_nodup E sc cmd cm ckv Hcs HF).
    + rewrite keys_app. apply disj_app_r.
      * intros k Hk0 Hin. exact (Hfresh k (or_intror (Hsub k Hk0)) Hin).
      * intros k Hk0 [<-|[]]. exact (Hdck (Hsub _ Hk0)).
Qed.

Lemma enc_fold : forall os raw, incl os (m_oneofs md) ->
  NoDup (flat_map probe os) -> disj (flat_map probe os) (keys raw) -> disj (flat_map back_keys os) (flat_map probe os) ->
  fold_left (fun acc o => acc >>= enc1 md m ks o) os (ROk raw) = ROk (del_all (flat_map back_keys os) raw ++ flat_map adds os).
Proof.
  induction os as [|o r IH]; intros raw Hsub Hnp Hfresh Hbp.
  - cbn [fold_left flat_map]. rewrite del_all_nil, app_nil_r. reflexivity.
  - cbn [fold_left flat_map rbind] in *. destruct (NoDup_app_inv _ _ Hnp) as [Hnp_o [Hnp_r Hnp_d]].
    pose proof (Hsub o (or_introl eq_refl)) as Ho. destruct (adds_keys o Ho) as [Hk1 Hk2].
    assert (Hadds : incl (keys (adds o)) (probe o)) by (unfold adds; rewrite keys_app; apply incl_app; assumption).
    rewrite (enc1_spec o raw Ho Hnp_o), IH.
    + rewrite del_all_app, del_all_more, (del_all_keep _ (adds o)), <- app_assoc; [reflexivity|].
      exact (disj_incl _ _ _ _ (disj_sym _ _ Hbp) (incl_tran Hadds (incl_appl _ (incl_refl _))) (incl_appr _ (incl_refl _))).
    + intros o' Ho'. apply Hsub. right. exact Ho'.
    + exact Hnp_r.
    + rewrite keys_app. apply disj_app_r.
      * exact (disj_incl _ _ _ _ Hfresh (incl_appr _ (incl_refl _)) (del_all_keys _ raw)).
      * intros k Hk Hin. exact (Hnp_d k (Hadds k Hin) Hk).
    + exact (disj_incl _ _ _ _ Hbp (incl_appr _ (incl_refl _)) (incl_appr _ (incl_refl _))).
    + exact (disj_incl _ _ _ _ Hfresh (incl_appl _ (incl_refl _)) (incl_refl _)).
    + exact (disj_incl _ _ _ _ Hbp (incl_appl _ (incl_refl _)) (incl_appl _ (incl_refl _))).
Qed.

(* one decoder step in its frame: P is what the earlier steps left, Q what the later ones still own.  The step
   turns its own entries [adds o] into [kept o] (the inlined fields go) and appends the flattened member, re-marshalled
   under its own key, at the end ([backs o]).  Every key it looks up, sets or deletes is in [own_keys o], which is
   fresh for P and Q: nothing else is read or lost, and [fold_frame] chains the steps. *)
Lemma dec1_spec n o P Q : In o (m_oneofs md) ->
  NoDup (own_keys o) -> disj (own_keys o) (keys P ++ keys Q) -> nested_reads (S (S n)) o P ->
  dec1 E sc (S (S n)) md o (P ++ adds o ++ Q) = ROk (P ++ kept o ++ Q ++ backs o).
Proof.
  intros Ho. unfold dec1, adds, backs, own_keys, back_keys, probe, probe_keys.
  destruct (oview_of o Ho) as [Hcfg|Hcfg Hmem|f Hcfg Hmem Hmsg|f ctn cmd cm Hcfg Hmem Hfl Hc Hchild
                              |f ctn cmd cm ckv Hcfg Hmem Hfl Hc Hchild Hkid Hgj HF]; rewrite Hcfg; intros Hno Hd Hpre; cbn [app];
    try rewrite app_nil_r.
  - reflexivity.
  - rewrite raw_get_notin; [reflexivity|]. rewrite keys_app. exact (Hd _ (or_introl eq_refl)).
  - rewrite (raw_get_here _ _ P Q (fun H => Hd _ (or_introl eq_refl) (in_or_app _ _ _ (or_introl H)))). cbn [rbind].
    rewrite (find_variant o f Ho Hcfg Hmem), Hmsg. reflexivity.
  - rewrite (raw_get_here _ _ P Q (fun H => Hd _ (or_introl eq_refl) (in_or_app _ _ _ (or_introl H)))). cbn [rbind].
    rewrite (find_variant o f Ho Hcfg Hmem), Hfl. destruct (Hpre f ctn cmd cm Hmem Hfl Hc Hchild) as [vj [r [Hg Hun]]].
    destruct Hc as [Hk _ _ _ _ _ _ _ _ _]. rewrite Hk. cbn [is_msg_kind negb]. rewrite <- Hk.
    rewrite (raw_get_app_l _ P _ vj Hg), Hun. reflexivity.
  - rewrite (child_jns_eq f ctn cmd cm Hc) in Hno, Hd. destruct Hc as [Hk Hg Hinm Hcts Hcwk Hcfm Hcown Hcok Hcs Hcwf].
    set (d := o_discriminator o) in *. set (cj := map jn (m_fields cmd)) in *.
    pose proof (flat_keys_sub E sc cmd cm ckv Hcwf Hchild HF) as Hsub. fold cj in Hsub.
    assert (HoP : forall k, In k (d :: cj) \/ k = jn f -> ~ In k (keys P) /\ ~ In k (keys Q)).
    { intros k Hk0. assert (Hin : In k ((d :: cj) ++ [jn f])).
      { apply in_or_app. destruct Hk0 as [Hk0| ->]; [left; exact Hk0|right; left; reflexivity]. }
      split; intros Hx; apply (Hd k Hin); apply in_or_app; [left|right]; exact Hx. }
    destruct (NoDup_app_inv _ _ Hno) as [Hn1 [_ Hn2]]. inversion Hn1 as [|a l Hdck _]; subst a l.
    rewrite (raw_get_here d _ P _ (proj1 (HoP d (or_introl (or_introl eq_refl))))). cbn [rbind].
    rewrite (find_variant o f Ho Hcfg Hmem), Hfl, Hk. cbn [is_msg_kind negb msg_name].
    rewrite (find_lookup sc ctn cmd Hcts Hcfm). cbv zeta. set (dv := JStr (disc_value f)).
    rewrite (flat_map_ext_in _ (fun cf => match raw_get (jn cf) ckv with Some v => [(jn cf, v)] | None => [] end) (m_fields cmd)).
    2:{ intros cf Hcf. assert (Hjin : In (jn cf) cj) by (apply in_map; exact Hcf).
        destruct (HoP (jn cf) (or_introl (or_intror Hjin))) as [H1 H2].
        change (P ++ (d, dv) :: ckv ++ Q) with (P ++ ((d, dv) :: ckv) ++ Q). rewrite (raw_get_frame _ P _ Q H1 H2), raw_get_tail; [reflexivity|].
        intros Heq. apply Hdck. rewrite <- Heq. exact Hjin. }
    rewrite (flat_probe_un E EL sc ctn cmd cm ckv Hcts Hcwk Hcfm Hcown Hcok Hcs Hcwf Hchild HF n). cbn [rbind].
    rewrite Hgj, fold_raw_del. fold cj.
    change (P ++ (d, dv) :: ckv ++ Q) with (P ++ ([(d, dv)] ++ ckv) ++ Q).
    rewrite del_all_frame, del_all_app, (del_all_keep cj [(d, dv)]), (del_all_sub cj ckv Hsub), raw_set_fresh.
    + rewrite app_nil_r, <- !app_assoc. reflexivity.
    + destruct (HoP (jn f) (or_intror eq_refl)) as [H1 H2]. rewrite !keys_app. intros Hin.
      apply in_app_or in Hin. destruct Hin as [Hin|Hin]; [exact (H1 Hin)|]. apply in_app_or in Hin. destruct Hin as [Hin|Hin]; [|exact (H2 Hin)].
      rewrite app_nil_r in Hin. destruct Hin as [Hin|[]]. exact (Hn2 d (or_introl eq_refl) (or_introl (eq_sym Hin))).
    + intros k [<-|[]] Hin. exact (Hdck Hin).
    + intros k Hk0 Hin. exact (proj1 (HoP k (or_introl (or_intror Hin))) Hk0).
    + intros k Hk0 Hin. exact (proj2 (HoP k (or_introl (or_intror Hin))) Hk0).
Qed.

Lemma es_keys_nodup : NoDup (keys es).
Proof.
  exact (m_msg_keys_NoDup E sc md m es (proj1 (NullableFacts.nodup_str_iff _) jn_nodup) (sorted_names_nodup md m Hsorted) Hes).
Qed.

Lemma es_keys_set : incl (keys es) (map jn (set_fields md m)).
Proof.
  intros k Hk. unfold keys in Hk. rewrite (m_msg_keys E sc md m es Hes) in Hk.
  apply in_map_iff in Hk. destruct Hk as [[name x] [Hn Hin]]. cbn [fst] in Hn. subst k.
  destruct (wt_fields_in sc md m name x Hwf Hin) as [f [Hf _]]. destruct (find_field_spec _ _ _ Hf) as [Hinf Hname].
  assert (Hj : json_name name = jn f) by (unfold jn; rewrite Hname; reflexivity). rewrite Hj.
  apply set_field_jn; [exact Hinf|]. exists x. rewrite Hname. exact (sorted_mget md m name x Hsorted Hin).
Qed.

Lemma unmoved_probe : disj (flat_map probe (m_oneofs md)) (keys unmoved).
Proof. intros k Hp Hk. apply del_all_keys in Hk. apply es_keys_set in Hk. exact (probes_fields k Hp Hk). Qed.

Lemma enc_all : enc_oneof md m ks es = ROk (unmoved ++ flat_map adds (m_oneofs md)).
Proof.
  rewrite enc_oneof_fold. apply (enc_fold (m_oneofs md) es (incl_refl _) probes_nodup); [|exact moved_probe].
  intros k Hk Hin. exact (probes_fields k Hk (es_keys_set k Hin)).
Qed.

Lemma es_entry name x f : In (name, x) m -> find_field (m_fields md) name = Some f ->
  exists j, In (jn f, j) es /\ pj_fval E sc (f_kind f) x = ROk j.
Proof.
  intros Hin Hf. destruct (Forall2_in_l _ _ _ _ (m_msg_Forall2 E sc md m es Hes) Hin) as [[k j] [Hinj [g [Hg [Hk Hj]]]]].
  cbn [fst snd] in Hg, Hk, Hj. assert (g = f) by congruence. subst g k. destruct (find_field_spec _ _ _ Hf) as [_ Hname].
  exists j. split; [unfold jn; rewrite Hname; exact Hinj|exact Hj].
Qed.

(* UnmarshalJSON up to the final protojson.Unmarshal *)
Lemma dec_all n :
  fold_left (fun acc o => acc >>= dec1 E sc (S (S n)) md o) (m_oneofs md) (ROk (unmoved ++ flat_map adds (m_oneofs md))) =
  ROk (unmoved ++ flat_map kept (m_oneofs md) ++ flat_map backs (m_oneofs md)).
Proof.
  rewrite <- (app_nil_r (flat_map adds (m_oneofs md))).
  rewrite (fold_frame (dec1 E sc (S (S n)) md) adds kept backs own_keys (nested_reads (S (S n))) (nested_reads_mono (S (S n))) (m_oneofs md)
             own_incl (fun o P Q Ho => dec1_spec n o P Q Ho) own_nodup unmoved []); [reflexivity| |].
  - cbn [keys map]. rewrite app_nil_r. intros k Hk Hin. destruct (own_split k Hk) as [Hp|HkD]; [exact (unmoved_probe k Hp Hin)|].
    exact (del_all_gone moved_keys es k HkD Hin).
  - intros o Ho f ctn cmd cm Hmem Hfl [Hk Hg Hinm Hcts Hcwk Hcfm Hcown Hcok Hcs Hcwf] Hchild.
    destruct (member_facts o f Hmem) as [_ [_ [_ [Hself _]]]].
    destruct (es_entry (f_name f) (FM cm) f Hinm Hself) as [j [Hinj Hj]].
    rewrite Hk, pj_fval_FM, Hcts, Hcwk, Hcfm in Hj. apply rbind_ok in Hj. destruct Hj as [ces [Hces Hj]]. inversion Hj; subst j.
    destruct (nonflat_gj_un E EL sc ctn cmd cm Hcts Hcwk Hcfm Hcown Hcok Hcs Hcwf n ces Hchild Hces) as [r Hr].
    exists (JObj ces), r. split; [|rewrite Hk; exact Hr].
    apply raw_get_nodup_in; [exact (del_all_nodup moved_keys es es_keys_nodup)|].
    apply In_del_all. split; [exact Hinj|]. cbn [fst]. intros HkD.
    apply moved_keys_in in HkD. destruct HkD as [o' [f' [Ho' [Hf' Hjj]]]]. destruct (flat_member_inv o' f' Hf') as [_ [Hmem' [Hfl' _]]].
    destruct (member_unique o o' f f' Ho Ho' Hmem Hmem' Hjj) as [<- _]. congruence.
Qed.

(* the entries of the value that stay where protojson put them, and the flattened members (field and value) that
   the decoder puts back at the end: together a permutation of the value's entries ([moved_perm]) *)
Definition is_unmoved (e : str * fval) : bool := negb (existsb (str_eqb (json_name (fst e))) moved_keys).

Definition moved_tags (o : oneof) : list (field * fval) :=
  match flat_member md m o with Some f => [(f, FM (mem_val f))] | None => [] end.

Lemma kept_unmoved : Forall2 (ent1 E sc md) (tags md (filter is_unmoved m)) unmoved.
Proof.
  apply (ent_enc_ent1 E EL sc md).
  - unfold unmoved, del_all. apply Forall2_filter; [exact (m_msg_Forall2 E sc md m es Hes)|].
    intros [name x] [k j] [g [_ [Hk _]]]. cbn [fst] in Hk. unfold is_unmoved. cbn [fst]. rewrite Hk. reflexivity.
  - intros name x Hin. apply filter_In in Hin. exact (wt_fields_in sc md m name x Hwf (proj1 Hin)).
Qed.

Lemma backs_ent : Forall2 (ent1 E sc md) (flat_map moved_tags (m_oneofs md)) (flat_map backs (m_oneofs md)).
Proof.
  apply Forall2_flat_map. intros o Ho. unfold moved_tags, backs.
  destruct (oview_of o Ho) as [Hcfg|Hcfg Hmem|f Hcfg Hmem Hmsg|f ctn cmd cm Hcfg Hmem Hfl Hc Hchild
                              |f ctn cmd cm ckv Hcfg Hmem Hfl [Hk Hg Hinm Hcts Hcwk Hcfm Hcown Hcok Hcs Hcwf] Hchild Hkid Hgj HF];
    [constructor|constructor|constructor|constructor|].
  constructor; [|constructor]. destruct (member_facts o f Hmem) as [Hin [_ [Hcard _]]].
  unfold ent1, mem_val. cbn [fst snd]. rewrite Hg. split; [exact Hin|]. split; [reflexivity|]. split; [|split; [reflexivity|discriminate]].
  unfold u_value. rewrite Hcard, Hk, (flat_pj_un E EL sc ctn cmd cm Hcts Hcwk Hcfm Hcok Hcs Hcwf _ Hchild HF). reflexivity.
Qed.

Lemma moved_perm : Permutation (tags md (filter (fun e => negb (is_unmoved e)) m)) (flat_map moved_tags (m_oneofs md)).
Proof.
  assert (Hnt : NoDup (tags md m)).
  { apply (NoDup_map_inv (fun fv : field * fval => f_number (fst fv))). rewrite (tags_nums md m value_declared). apply sorted_Z_NoDup. exact Hsorted. }
  assert (HpmD : forall e, is_unmoved e = false <-> In (json_name (fst e)) moved_keys).
  { intros e. unfold is_unmoved. rewrite Bool.negb_false_iff. apply existsb_str_eqb_In. }
  apply NoDup_Permutation.
  - pose proof (Permutation_NoDup (tags_filter_perm md is_unmoved m) Hnt) as Hn. apply NoDup_app_inv in Hn. apply Hn.
  - apply (NoDup_map_inv (fun fv : field * fval => jn (fst fv))).
    assert (Hm : map (fun fv : field * fval => jn (fst fv)) (flat_map moved_tags (m_oneofs md)) = moved_keys).
    { unfold moved_keys. generalize (m_oneofs md). intros os. induction os as [|o r IH]; [reflexivity|]. cbn [flat_map]. rewrite map_app, IH. f_equal.
      unfold moved_tags, back_keys. destruct (flat_member md m o); reflexivity. }
    rewrite Hm. exact moved_keys_nodup.
  - intros [f x]. rewrite tags_in. split.
    + intros [name [Hin Hf]]. apply filter_In in Hin. destruct Hin as [Hin Hp]. apply Bool.negb_true_iff, HpmD in Hp. cbn [fst] in Hp.
      apply moved_keys_in in Hp. destruct Hp as [o [f' [Ho [Hf' Hj]]]].
      destruct (find_field_spec _ _ _ Hf) as [Hinf Hname]. destruct (flat_member_val o f' Ho Hf') as [Hin' [_ Hinm]].
      assert (f = f'). { apply (NullableFacts.nodup_jn_inj (m_fields md) f f' jn_nodup Hinf Hin'). unfold jn at 1. rewrite Hname. exact Hj. }
      subst f'. apply in_flat_map. exists o. split; [exact Ho|]. unfold moved_tags. rewrite Hf'. left. f_equal.
      rewrite <- Hname in Hin. pose proof (sorted_mget md m _ x Hsorted Hin) as Hx.
      pose proof (sorted_mget md m _ _ Hsorted Hinm) as Hx'. congruence.
    + intros Hin. apply in_flat_map in Hin. destruct Hin as [o [Ho Hin]]. unfold moved_tags in Hin.
      destruct (flat_member md m o) as [f'|] eqn:Hf'; [|destruct Hin]. destruct Hin as [Hin|[]]. inversion Hin; subst f' x.
      destruct (flat_member_val o f Ho Hf') as [_ [Hself Hinm]].
      exists (f_name f). split; [|exact Hself]. apply filter_In. split; [exact Hinm|].
      apply Bool.negb_true_iff, HpmD. cbn [fst]. apply moved_keys_in. exists o, f. auto.
Qed.

Lemma final_pj : pj_un E sc (KMessage tn) (JObj (unmoved ++ flat_map backs (m_oneofs md))) = ROk (FM m).
Proof.
  apply (pj_un_tags E sc tn md m (tags md (filter is_unmoved m) ++ flat_map moved_tags (m_oneofs md)) _ Hts Hwk Hfm Hok1 Hsorted Hwf Hex).
  - apply Forall2_app; [exact kept_unmoved|exact backs_ent].
  - apply Permutation_sym. eapply perm_trans; [apply (tags_filter_perm md is_unmoved m)|]. apply Permutation_app_head. exact moved_perm.
Qed.

Lemma strip_final : strip_discs md (unmoved ++ flat_map kept (m_oneofs md) ++ flat_map backs (m_oneofs md)) = unmoved ++ flat_map backs (m_oneofs md).
Proof.
  rewrite strip_discs_del, !del_all_app.
  rewrite (del_all_keep _ unmoved), (del_all_sub _ (flat_map kept (m_oneofs md))), (del_all_keep _ (flat_map backs (m_oneofs md))); [reflexivity| | |].
  - intros k Hk Hd. rewrite keys_flat_map in Hk.
    assert (HkD : In k moved_keys). { unfold moved_keys. apply in_flat_map in Hk. destruct Hk as [o [Ho Hk]]. rewrite backs_keys in Hk. apply in_flat_map. exists o. auto. }
    exact (moved_probe k HkD (discs_probe _ k Hd)).
  - apply kept_keys_discs.
  - intros k Hk Hd. exact (unmoved_probe k (discs_probe _ k Hd) Hk).
Qed.
End Rendered.

Theorem oneof_roundtrip_core j : encode E sc tn m = ROk j -> decode E sc tn j = ROk m.
Proof.
  intros Henc. destruct (encode_owned_inv E sc tn md FtOneof m j Hwk msg_lookup Hown Henc) as [_ [ks [Hks Hbody]]].
  destruct (pj_marshal_obj E sc tn md m (fun raw => enc_oneof md m ks raw >>= (fun r => ROk (JObj r))) j Hts Hwk Hfm Hbody)
    as [es [Hes Hj]].
  rewrite (enc_all es Hes ks Hks) in Hj. cbn [rbind] in Hj. inversion Hj; subst j.
  unfold decode. rewrite (owner_owns sc tn md FtOneof msg_lookup Hown). cbn [json_size].
  rewrite (gj_un_oneof E sc _ tn md _ Hwk msg_lookup Hown), (dec_all es Hes ks Hks _). cbn [rbind].
  rewrite (strip_final es Hes), (final_pj es Hes ks Hks). reflexivity.
Qed.
End Main.

(* the populated message member of every configured oneof has a type without a codec of its own, and not Timestamp *)
Definition variant_types_plain (sc : schema) (md : message) (m : mval) : bool :=
  forallb (fun o => negb (oneof_cfg o) ||
     match find_oneof_member md m o with
     | Some f => match f_kind f with
                 | KMessage ctn =>
                     negb (str_eqb ctn ts_name) &&
                     match find_message (all_messages sc) ctn with
                     | Some cmd => match owner_of sc cmd with OwnNone => true | _ => false end
                     | None => false
                     end
                 | _ => true
                 end
     | None => true
     end) (m_oneofs md).

(* a value of a NON-flattened member without codec the proof does not follow: a multi-word field whose lowerCamel key
   (protojson) folds onto another field of the Go struct, which json.Unmarshal then fills with a value of the wrong field.
   (The other values of a member without codec that are not given back are defect classes, confirmed on the emitted code:
   flattened — an empty `optional bytes` (D4ReflectedEmptyOptBytes), a bool-keyed map (D4FlatVariantBoolMap);
   non-flattened — NaN / Infinity inside a repeated or map float field (D4OneofVariantReflect), a bool-keyed map
   (D4OneofVariantBoolMap), a folding onto a field that does not read the value (D4OneofVariantFoldClash).  When the other
   field does read it the round trip holds — OneofExamples.oneof_no_gap_remainder — but encoding/json assigns that field
   twice, which the proof leaves out.) *)
Definition nonflat_gap (cmd : message) (cm : mval) : bool :=
  existsb (fun e => match find_field (m_fields cmd) (fst e) with
                    | Some f => multiword (fst e) &&
                                match field_by_fold cmd (json_name (fst e)) with Some _ => true | None => false end
                    | None => false
                    end) cm.
Definition variant_no_gap (sc : schema) (md : message) (m : mval) : bool :=
  forallb (fun o => negb (oneof_cfg o) ||
     match find_oneof_member md m o with
     | Some f => match f_kind f, mget m (f_name f) with
                 | KMessage ctn, Some (FM cm) =>
                     match find_message (all_messages sc) ctn with
                     | Some cmd => o_flatten o || negb (nonflat_gap cmd cm)
                     | None => true
                     end
                 | _, _ => true
                 end
     | None => true
     end) (m_oneofs md).

Section Classifier.
Variable sc : schema.

(* the children part of gj_defects *)
Definition kids_defects (md : message) (via : field -> bool) : list (str * fval) -> list c04_defect :=
  fix go (m : list (str * fval)) : list c04_defect :=
    match m with
    | [] => []
    | (name, x) :: r =>
        match find_field (m_fields md) name with
        | Some f => (if via f then gj_defects sc (f_kind f) x else []) ++ go r
        | None => go r
        end
    end.
Lemma kids_defects_nil md via m : kids_defects md via m = [] ->
  forall name x f, In (name, x) m -> find_field (m_fields md) name = Some f -> via f = true -> gj_defects sc (f_kind f) x = [].
Proof.
  induction m as [|[n0 x0] r IH]; intros H name x f Hin Hf Hv; [destruct Hin|]. cbn [kids_defects] in H.
  destruct Hin as [Hin|Hin].
  - inversion Hin; subst n0 x0. rewrite Hf, Hv in H. apply app_eq_nil in H. apply H.
  - destruct (find_field (m_fields md) n0); [apply app_eq_nil in H; destruct H as [_ H]|]; exact (IH H name x f Hin Hf Hv).
Qed.

Lemma gj_defects_own tn md ft m : lookup_message sc tn = Some md -> owner_of sc md = Own ft ->
  gj_defects sc (KMessage tn) (FM m) =
  local_defects sc md m ++
  (if existsb (fun e => match find_field (m_fields md) (fst e) with
                        | Some f => needs_gj sc ft md f && enum_codec_unknown sc (f_kind f) (snd e)
                        | None => false end) m then [D4EnumCodecUnknown] else []) ++
  kids_defects md (needs_gj sc ft md) m.
Proof. intros H1 H2. cbn [gj_defects]. rewrite H1, H2. reflexivity. Qed.

Lemma gj_defects_none tn md m : lookup_message sc tn = Some md -> owner_of sc md = OwnNone ->
  gj_defects sc (KMessage tn) (FM m) =
  ((if existsb (fun e => match find_field (m_fields md) (fst e) with
                         | Some f => negb (is_msg_kind (f_kind f)) && nonfinite_in (f_kind f) (snd e)
                         | None => false end) m then [D4UnwrapSiblingNonFinite] else []) ++
   (if existsb (fun e => match find_field (m_fields md) (fst e), snd e with
                         | Some f, FS (VBytes []) => match f_card f with Optional => true | _ => false end
                         | _, _ => false end) m then [D4ReflectedEmptyOptBytes] else [])) ++
  (if existsb (fun e => match find_field (m_fields md) (fst e) with
                        | Some f => true && enum_codec_unknown sc (f_kind f) (snd e)
                        | None => false end) m then [D4EnumCodecUnknown] else []) ++
  kids_defects md (fun _ => true) m.
Proof. intros H1 H2. cbn [gj_defects]. rewrite H1, H2. reflexivity. Qed.

(* flattened member without codec: the classifier's conditions are those of the reflection lemmas *)
Lemma flat_child_ok_of cmd cm :
  msg_ok cmd = true -> sorted_Z (map (fun e => num_of cmd (fst e)) cm) = true ->
  wt_fields sc cmd cm = true -> reflect_child_breaks sc cmd cm = false ->
  existsb (fun e => match find_field (m_fields cmd) (fst e) with
                    | Some f => negb (is_msg_kind (f_kind f)) && nonfinite_in (f_kind f) (snd e)
                    | None => false end) cm = false ->
  existsb (fun e => match find_field (m_fields cmd) (fst e), snd e with
                    | Some f, FS (VBytes []) => match f_card f with Optional => true | _ => false end
                    | _, _ => false end) cm = false ->
  existsb (fun g => match f_card g, mget cm (f_name g) with
                    | MapOf KBool, Some (FMap (_ :: _)) => true
                    | _, _ => false end) (m_fields cmd) = false ->
  flat_child_ok sc cmd cm = true.
Proof.
  intros Hok Hsorted Hwf Hr Hn Hob Hbmap. unfold flat_child_ok. apply forallb_forall. intros [name x] Hin. cbn [fst snd].
  destruct (wt_fields_in sc cmd cm name x Hwf Hin) as [f [Hf Hwe]]. rewrite Hf.
  destruct (find_field_spec _ _ _ Hf) as [Hinf Hname].
  pose proof (proj1 (existsb_false _ _) Hr _ Hin) as H1. pose proof (proj1 (existsb_false _ _) Hn _ Hin) as H2.
  pose proof (proj1 (existsb_false _ _) Hob _ Hin) as H3. cbn [fst snd] in H1, H2, H3. rewrite Hf in H1, H2, H3.
  pose proof (proj1 (existsb_false _ _) Hbmap _ Hinf) as H4. cbv beta in H4.
  rewrite Hname, (sorted_mget cmd cm name x Hsorted Hin) in H4.
  apply Bool.orb_false_iff in H1. destruct H1 as [H1 Hone].
  apply Bool.orb_false_iff in H1. destruct H1 as [H1 Hmsgts].
  apply Bool.orb_false_iff in H1. destruct H1 as [H1 Hfsp].
  apply Bool.orb_false_iff in H1. destruct H1 as [H1 Henc].
  apply Bool.orb_false_iff in H1. destruct H1 as [Hmw Htsk].
  assert (Hmk : is_msg_kind (f_kind f) = false).
  { destruct (is_msg_kind (f_kind f)); [|reflexivity]. rewrite Htsk in Hmsgts. discriminate Hmsgts. }
  rewrite Hmk in H2. cbn [negb andb] in H2.
  (* a present-but-empty byte string can only sit in an `optional` field, and that is the class D4ReflectedEmptyOptBytes *)
  assert (Heb : empty_bytes x = false).
  { destruct x as [[z|b|y|[|c y]|b|z]|cm0|l|kv]; try reflexivity. exfalso.
    unfold wt_entry in Hwe. pose proof (msg_ok_no_oneof cmd f Hok Hinf) as Hoo.
    destruct (f_card f) eqn:Hc; try discriminate Hwe; [|discriminate H3].
    apply andb_prop in Hwe. destruct Hwe as [Hwt Hpop]. unfold populated, implicit_scalar in Hpop. rewrite Hc, Hoo in Hpop.
    destruct (f_kind f); try discriminate Hwt; discriminate Hpop. }
  (* a populated map is non-empty, so a bool-keyed one is the class D4FlatVariantBoolMap *)
  assert (Hbm : match f_card f with MapOf KBool => true | _ => false end = false).
  { destruct (f_card f) as [| | |kk] eqn:Hc; try reflexivity. destruct kk; try reflexivity. exfalso.
    unfold wt_entry in Hwe. rewrite Hc in Hwe. destruct x as [v|cm0|l|[|e0 kv]]; try discriminate Hwe. discriminate H4. }
  rewrite Hmw, Heb. cbn [negb andb]. rewrite Bool.andb_true_r.
  unfold gj_entry_ok, gj_kind_ok. rewrite <- is_msg_kind_msgk, Hmk, H2, Hbm, Henc. reflexivity.
Qed.

Lemma nonflat_child_ok_of cmd cm :
  wt_fields sc cmd cm = true -> pj_form_breaks_reflect cmd cm = false -> pj_form_bool_map cmd cm = false ->
  nonflat_gap cmd cm = false ->
  nonflat_child_ok cmd cm = true.
Proof.
  intros Hwf Hr Hb Hg. unfold nonflat_child_ok. apply forallb_forall. intros [name x] Hin. cbn [fst snd].
  destruct (wt_fields_in sc cmd cm name x Hwf Hin) as [f [Hf Hwe]]. rewrite Hf.
  pose proof (proj1 (existsb_false _ _) Hr _ Hin) as H1. pose proof (proj1 (existsb_false _ _) Hg _ Hin) as H3.
  pose proof (proj1 (existsb_false _ _) Hb _ Hin) as H2.
  cbn [fst snd] in H1, H2, H3. rewrite Hf in H1, H2, H3.
  destruct (multiword name).
  - cbn [andb] in H3. destruct (field_by_fold cmd (json_name name)); [discriminate H3|reflexivity].
  - cbn [negb andb] in H1, H2.
    apply Bool.orb_false_iff in H1. destruct H1 as [H1 Hmsgts].
    apply Bool.orb_false_iff in H1. destruct H1 as [H1 Henum].
    apply Bool.orb_false_iff in H1. destruct H1 as [H1 Hnf].
    apply Bool.orb_false_iff in H1. destruct H1 as [Hi64 Htsk].
    rewrite Hnf. cbn [negb]. rewrite Bool.andb_true_r.
    assert (Hbm : match f_card f with MapOf KBool => true | _ => false end = false).
    { destruct (f_card f) as [| | |kk] eqn:Hc; try reflexivity. destruct kk; try reflexivity. exfalso.
      unfold wt_entry in Hwe. rewrite Hc in Hwe. destruct x as [v|cm0|l|[|e0 kv]]; try discriminate Hwe. discriminate H2. }
    rewrite Hbm. cbn [negb]. rewrite Bool.andb_true_r.
    destruct (f_kind f); try reflexivity; try discriminate Hi64; try discriminate Henum.
    rewrite Htsk in Hmsgts. discriminate Hmsgts.
Qed.
End Classifier.

(* the populated message member of every configured oneof is as the round trip asks.  defects_C04 = [] is taken apart
   along gj_defects_own: the oneof's own segment of local_defects (flattened: reflect_child_breaks; nested:
   pj_form_breaks_reflect, pj_form_bool_map), the bool-keyed-map segment, and, for a flattened member, the child's
   own classes through kids_defects (non-finite floats, empty optional bytes).  With variant_types_plain for the
   child's type and variant_no_gap for the folding keys these are the premises of flat_child_ok_of /
   nonflat_child_ok_of. *)
Lemma variant_ok_of sc tn md m :
  lookup_message sc tn = Some md -> owner_of sc md = Own FtOneof -> msg_ok1 md = true -> wt_fields sc md m = true ->
  defects_C04 sc tn m = [] -> variant_types_plain sc md m = true -> variant_no_gap sc md m = true ->
  forall o, In o (m_oneofs md) -> variant_ok sc md m o.
Proof.
  intros Hlk Hown Hok1 Hwf Hdef Htp Hng o Ho f Hcfg Hmem Hmsg.
  unfold defects_C04 in Hdef. rewrite (owner_owns sc tn md FtOneof Hlk Hown) in Hdef. apply dedup4_nil in Hdef.
  rewrite (gj_defects_own sc tn md FtOneof m Hlk Hown) in Hdef.
  apply app_eq_nil in Hdef. destruct Hdef as [Hloc Hdef]. apply app_eq_nil in Hdef. destruct Hdef as [_ Hkids].
  unfold local_defects in Hloc. rewrite Hown in Hloc.
  apply app_eq_nil in Hloc. destruct Hloc as [Hloc Hloc3]. apply app_eq_nil in Hloc3. destruct Hloc3 as [_ Hloc3].
  apply app_eq_nil in Hloc3. destruct Hloc3 as [_ Hlbm].
  pose proof (proj1 (flat_map_nil _ _) Hloc o Ho) as Hlo. cbv beta in Hlo. rewrite Hcfg, Hmem in Hlo.
  unfold variant_types_plain in Htp. rewrite forallb_forall in Htp. specialize (Htp o Ho). rewrite Hcfg, Hmem in Htp. cbn [negb orb] in Htp.
  unfold variant_no_gap in Hng. rewrite forallb_forall in Hng. specialize (Hng o Ho). rewrite Hcfg, Hmem in Hng. cbn [negb orb] in Hng.
  destruct (member_facts sc md m Hok1 Hwf o f Hmem) as [Hinf [Hoo [Hcard [Hgf [x [Hg [Hinm Hw]]]]]]]. rewrite Hg in Hng, Hlo.
  destruct (is_msg_kind_inv _ Hmsg) as [ctn Hk]. rewrite Hk in Htp, Hng, Hlo.
  apply andb_prop in Htp. destruct Htp as [Hcts Htp]. apply Bool.negb_true_iff in Hcts.
  destruct (find_message (all_messages sc) ctn) as [cmd|] eqn:Hcfm; [|discriminate Htp].
  destruct (owner_of sc cmd) as [| |] eqn:Hcown; try discriminate Htp.
  unfold wt_entry in Hw. rewrite Hcard, Hk in Hw.
  destruct x as [v|cm|l|kv]; try discriminate Hw.
  rewrite wt_FM, Hcts, Hcfm in Hw. apply andb_prop in Hw. destruct Hw as [Hcwk Hw]. apply Bool.negb_true_iff in Hcwk.
  apply andb_prop in Hw. destruct Hw as [Hw Hcwf]. apply andb_prop in Hw. destruct Hw as [Hcok Hcs].
  assert (Hclk : lookup_message sc ctn = Some cmd) by (unfold lookup_message; rewrite Hcts; exact Hcfm).
  cbn [msg_name] in Hlo. rewrite Hclk, Hcown in Hlo.
  exists ctn, cmd, cm. repeat split; try assumption; try reflexivity.
  destruct (o_flatten o) eqn:Hfl.
  - destruct (reflect_child_breaks sc cmd cm) eqn:Hrb; [discriminate Hlo|].
    assert (Hneeds : needs_gj sc FtOneof md f = true).
    { cbn [needs_gj]. rewrite Hk, Hoo. cbn [is_msg_kind andb]. apply existsb_exists. exists o. split; [exact Ho|].
      rewrite Hcfg, Hfl, str_eqb_refl. reflexivity. }
    pose proof (kids_defects_nil sc md _ m Hkids (f_name f) (FM cm) f Hinm Hgf Hneeds) as Hcd.
    rewrite Hk, (gj_defects_none sc ctn cmd cm Hclk Hcown) in Hcd. apply app_eq_nil in Hcd. destruct Hcd as [Hcd _].
    apply app_eq_nil in Hcd. destruct Hcd as [Hcd Hcob].
    destruct (existsb _ cm) eqn:Hnf in Hcd; [discriminate Hcd|].
    destruct (existsb _ cm) eqn:Hob in Hcob; [discriminate Hcob|].
    assert (Hbmap : existsb (fun g => match f_card g, mget cm (f_name g) with
                                      | MapOf KBool, Some (FMap (_ :: _)) => true
                                      | _, _ => false end) (m_fields cmd) = false).
    { destruct (existsb _ (m_oneofs md)) eqn:Hexo in Hlbm; [discriminate Hlbm|].
      pose proof (proj1 (existsb_false _ _) Hexo _ Ho) as Hb. cbv beta in Hb.
      rewrite Hcfg, Hfl, Hmem, Hg in Hb. cbn [andb] in Hb. rewrite Hk in Hb.
      cbn [msg_name] in Hb. rewrite Hclk in Hb. exact Hb. }
    exact (flat_child_ok_of sc cmd cm Hcok Hcs Hcwf Hrb Hnf Hob Hbmap).
  - apply app_eq_nil in Hlo. destruct Hlo as [Hlo1 Hlo2]. apply app_eq_nil in Hlo2. destruct Hlo2 as [Hlo2 _].
    destruct (pj_form_breaks_reflect cmd cm) eqn:Hrb; [discriminate Hlo1|].
    destruct (pj_form_bool_map cmd cm) eqn:Hpb; [discriminate Hlo2|].
    cbn [orb] in Hng. apply Bool.negb_true_iff in Hng. exact (nonflat_child_ok_of sc cmd cm Hcwf Hrb Hpb Hng).
Qed.

Theorem oneof_roundtrip : forall E, ExtLaws E -> forall sc tn md m j,
  find_message (all_messages sc) tn = Some md -> owner_of sc md = Own FtOneof ->
  wt1 sc tn m = true ->
  defects_C04 sc tn m = [] ->
  NullableFacts.nodup_str (map o_name (m_oneofs md)) = true ->
  oneof_keys_ok sc md m = true -> disc_values_ok md = true ->
  variant_types_plain sc md m = true -> variant_no_gap sc md m = true ->
  encode E sc tn m = ROk j -> decode E sc tn j = ROk (norm sc tn m).
Proof.
  intros E EL sc tn md m j Hfm Hown Hwt Hdef Hon Hkeys Hdv Htp Hng Henc.
  destruct (wt1_inv sc tn m Hwt) as [Hts [Hwk [md' [Hfm' [Hlk [Hok1 [Hsorted [Hwf Hex]]]]]]]].
  assert (md' = md) by congruence. subst md'.
  assert (Hnorm : norm sc tn m = m) by (unfold norm; rewrite Hlk, Hown; reflexivity). rewrite Hnorm.
  exact (oneof_roundtrip_core E EL sc tn md m Hts Hwk Hfm Hown Hok1 Hsorted Hwf Hex Hon Hkeys Hdv
           (variant_ok_of sc tn md m Hlk Hown Hok1 Hwf Hdef Htp Hng) j Henc).
Qed.
Close Scope Z_scope.
