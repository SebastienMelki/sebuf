(* JsonSchemaFacts.v — the validator's decimals on integers, [vall] over appended and mapped lists, and
   show_N / show_Z are injective (a decimal numeral determines its number). *)
From Sebuf Require Import JsonSchema.
From SebufProofs Require Export TextFacts.
From Coq Require Import DecimalString DecimalN.

Lemma dec_compare_int a b : dec_compare (mkdec a 0) (mkdec b 0) = Z.compare a b.
Proof. unfold dec_compare, dec_scale; cbn. now rewrite !Z.mul_1_r. Qed.

Lemma dec_eqb_int a b : dec_eqb (mkdec a 0) (mkdec b 0) = (a =? b)%Z.
Proof.
  unfold dec_eqb. rewrite dec_compare_int. destruct (Z.compare_spec a b) as [H|H|H].
  - subst. now rewrite Z.eqb_refl.
  - symmetry. apply Z.eqb_neq. lia.
  - symmetry. apply Z.eqb_neq. lia.
Qed.

Lemma dec_record_eq a b : (de a =? de b)%Z && (dm a =? dm b)%Z = true -> a = b.
Proof.
  destruct a as [ma ea], b as [mb eb]; cbn. intros H. apply andb_prop in H as [H1 H2].
  apply Z.eqb_eq in H1, H2. now subst.
Qed.

Lemma dec_is_int_e0 m : dec_is_int (mkdec m 0) = true.
Proof. reflexivity. Qed.

Lemma nat_of_jv_N n : nat_of_jv (JVNum (dec_of_N n)) = Some n.
Proof.
  unfold nat_of_jv, dec_of_N, dec_to_Z; cbn [de dm]. rewrite dec_is_int_e0. cbn.
  rewrite Z.mul_1_r. replace (0 <=? Z.of_N n)%Z with true by (symmetry; apply Z.leb_le, N2Z.is_nonneg).
  now rewrite N2Z.id.
Qed.

Lemma vall_app l1 l2 : vall (l1 ++ l2) = match vall l1 with VOk a => match vall l2 with VOk b => VOk (a && b) | e => e end | e => e end.
Proof.
  unfold vall. induction l1 as [|r l1 IH].
  - cbn [app fold_right]. destruct (fold_right vand (VOk true) l2); reflexivity.
  - cbn [app fold_right]. rewrite IH. clear IH.
    destruct r as [x| | |]; cbn [vand]; try reflexivity.
    destruct (fold_right vand (VOk true) l1) as [a| | |]; cbn [vand]; try reflexivity.
    destruct (fold_right vand (VOk true) l2) as [b| | |]; cbn [vand]; try reflexivity.
    now rewrite andb_assoc.
Qed.

Lemma vall_ok_app l1 l2 a b : vall l1 = VOk a -> vall l2 = VOk b -> vall (l1 ++ l2) = VOk (a && b).
Proof. intros H1 H2. now rewrite vall_app, H1, H2. Qed.

Lemma vall_all_ok {A} (f : A -> vres) (p : A -> bool) (l : list A) :
  (forall a, In a l -> f a = VOk (p a)) -> vall (map f l) = VOk (forallb p l).
Proof.
  unfold vall. induction l as [|a l IH]; intros H; [reflexivity|].
  cbn [map fold_right forallb]. rewrite IH by (intros; apply H; now right). rewrite (H a) by now left. reflexivity.
Qed.

Lemma vall_all_true {A} (f : A -> vres) (l : list A) :
  (forall a, In a l -> f a = VOk true) -> vall (map f l) = VOk true.
Proof.
  intros H. rewrite (vall_all_ok f (fun _ => true) l H). f_equal. apply forallb_forall. reflexivity.
Qed.

Lemma vall_cons_true r l : r = VOk true -> vall l = VOk true -> vall (r :: l) = VOk true.
Proof. intros -> H. unfold vall in *. cbn [fold_right]. now rewrite H. Qed.

Lemma vall_cons_inv r l : vall (r :: l) = VOk true -> r = VOk true /\ vall l = VOk true.
Proof.
  unfold vall. cbn [fold_right]. fold (vall l).
  destruct r as [[|]| | |]; cbn [vand]; try discriminate; destruct (vall l) as [[|]| | |]; try discriminate; auto.
Qed.

Lemma show_N_inj a b : show_N a = show_N b -> a = b.
Proof.
  unfold show_N. intros H.
  apply (f_equal string_of_list_ascii) in H. rewrite !string_of_list_ascii_of_string in H.
  apply (f_equal NilEmpty.uint_of_string) in H. rewrite !NilEmpty.usu in H.
  injection H as H. apply (f_equal N.of_uint) in H. now rewrite !DecimalN.Unsigned.of_to in H.
Qed.

Lemma string_of_uint_head d c r : list_ascii_of_string (NilEmpty.string_of_uint d) = c :: r -> is_digit c = true.
Proof. destruct d; cbn; intros H; try discriminate; injection H as <- _; reflexivity. Qed.

Lemma show_N_not_minus n r : show_N n <> "-"%char :: r.
Proof. unfold show_N. intros H. apply string_of_uint_head in H. discriminate. Qed.

Lemma show_N_pos_not_zero p : show_N (Npos p) <> s "0".
Proof. intros H. change (s "0") with (show_N 0) in H. apply show_N_inj in H. discriminate. Qed.

Lemma show_Z_inj a b : show_Z a = show_Z b -> a = b.
Proof.
  destruct a as [|p|p], b as [|q|q]; unfold show_Z; intros H; try reflexivity.
  - symmetry in H. now apply show_N_pos_not_zero in H.
  - discriminate.
  - now apply show_N_pos_not_zero in H.
  - apply show_N_inj in H. now injection H as ->.
  - now apply show_N_not_minus in H.
  - discriminate.
  - symmetry in H. now apply show_N_not_minus in H.
  - injection H as H. apply show_N_inj in H. now injection H as ->.
Qed.

Lemma str_eqb_show_Z a b : str_eqb (show_Z a) (show_Z b) = (a =? b)%Z.
Proof.
  destruct (a =? b)%Z eqn:E.
  - apply Z.eqb_eq in E. subst. apply str_eqb_refl.
  - destruct (str_eqb (show_Z a) (show_Z b)) eqn:E'; [|reflexivity].
    apply str_eqb_eq, show_Z_inj in E'. subst. now rewrite Z.eqb_refl in E.
Qed.
