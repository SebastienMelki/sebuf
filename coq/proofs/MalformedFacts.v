(* MalformedFacts.v — C11: on a malformed body the emitted Go server decides as the strict reading of the
   format does (outside the defect classes), and the Go client turns every response, however framed, into
   exactly one of its outcomes. *)
From Sebuf Require Import Malformed.

(* without a defect tag the emitted server decides exactly as the strict reading demands *)
Lemma no_partial b : defects_C11 b = [] -> go_bind_body b = strict_bind_body b.
Proof.
  unfold defects_C11, go_bind_body, strict_bind_body.
  destruct b as [fmt rd emp syn convs rest]; cbn.
  destruct fmt, rd, emp, syn, rest; cbn; try reflexivity; try discriminate;
    destruct (forallb (fun c : bool => c) convs); cbn; try reflexivity; discriminate.
Qed.

(* a dispatched body is always one the strict reading accepts, unless a defect tag applies; and a
   defect tag applies only to dispatches *)
Lemma dispatch_sound b : defects_C11 b = [] -> forall f, go_bind_body b = BDispatch f ->
  f = true /\ strict_bind_body b = BDispatch true.
Proof.
  intros Hd f Hg. pose proof (no_partial b Hd) as E. rewrite Hg in E.
  unfold defects_C11 in Hd. rewrite Hg in Hd. destruct f.
  - split; [reflexivity|now symmetry].
  - destruct (bc_fmt b); [discriminate|]. destruct (bc_empty b); discriminate.
Qed.

Lemma reject_complete b : strict_bind_body b = BReject -> defects_C11 b = [] -> go_bind_body b = BReject.
Proof. intros Hs Hd. now rewrite (no_partial b Hd). Qed.

Lemma client_total r :
  exists c, go_client_parse r = c /\
    ((rc_status r < 400)%N -> c = CResp \/ c = CErrDecode) /\
    ((400 <= rc_status r)%N -> c = CErrValidation \/ c = CErrSebuf \/ c = CErrOther).
Proof.
  exists (go_client_parse r). split; [reflexivity|]. unfold go_client_parse.
  destruct (400 <=? rc_status r)%N eqn:E.
  - apply N.leb_le in E. split; [lia|]. intros _.
    destruct ((rc_status r =? 400)%N && (rc_empty r || rc_as_validation r)); [auto|].
    destruct (rc_empty r || rc_as_error r); auto.
  - apply N.leb_gt in E. split; [|lia]. intros _.
    destruct (rc_empty r || rc_as_result r); auto.
Qed.

(* only a 400 can become a ValidationError *)
Lemma client_validation_only_400 r : go_client_parse r = CErrValidation -> rc_status r = 400%N.
Proof.
  unfold go_client_parse. destruct (400 <=? rc_status r)%N; [|destruct (rc_empty r || rc_as_result r); discriminate].
  destruct (rc_status r =? 400)%N eqn:E; cbn.
  - intros _. now apply N.eqb_eq.
  - destruct (rc_empty r || rc_as_error r); discriminate.
Qed.

(* behind any framing the client ends in exactly one of its result classes *)
Lemma client_framed_total f r :
  go_client_framed f r = FRTransport \/ go_client_framed f r = FRRead \/
  exists c, go_client_framed f r = FRParsed c /\ f = FrComplete /\
    ((rc_status r < 400)%N -> c = CResp \/ c = CErrDecode) /\
    ((400 <= rc_status r)%N -> c = CErrValidation \/ c = CErrSebuf \/ c = CErrOther).
Proof.
  destruct f; cbn; auto. right. right.
  destruct (client_total r) as [c [E [H1 H2]]].
  exists c. rewrite E. repeat split; assumption.
Qed.
