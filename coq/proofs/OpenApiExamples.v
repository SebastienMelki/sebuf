(* OpenApiExamples.v — concrete schemas: one with nested and recursive types outside the defect classes of
   C18, and one input per defect class (refuted in props/C18.v). *)
From Sebuf Require Import JsonSchema Yaml Rules Route OpenApi OasCheck.
From SebufProofs Require Import ListFacts JsonSchemaFacts OpenApiFacts.
Local Open Scope string_scope.
Local Open Scope list_scope.

Definition fld (name : string) (num : Z) (k : kind) (c : card) : field := plain_field (s name) num k c.
Definition qfld (name : string) (num : Z) (k : kind) (q : string) : field :=
  {| f_name := s name; f_number := num; f_kind := k; f_card := Singular; f_oneof := None;
     f_query := Some {| q_name := s q; q_required := false |}; f_unwrap := false;
     f_int64 := None; f_enumenc := None; f_nullable := None; f_empty := None; f_tsfmt := None; f_bytesenc := None;
     f_oneof_value := None; f_flatten := None; f_flatten_prefix := None |}.
Definition msg (fq : string) (path : list string) (fs : list field) : message :=
  {| m_name := s fq; m_path := map s path; m_fields := fs; m_oneofs := [] |}.
Definition rpc (name inp out path : string) (v : nat) : method :=
  {| md_name := s name; md_in := s inp; md_out := s out; md_has_cfg := true; md_path := s path; md_verb := Some v; md_headers := [] |}.
Definition svc (name base : string) (hs : list header) (ms : list method) : service :=
  {| sv_name := s name; sv_base := s base; sv_headers := hs; sv_methods := ms |}.
Definition file1 (ms : list message) (ss : list service) : schema :=
  [{| fl_path := s "a.proto"; fl_package := s "a"; fl_gopkg := s "a"; fl_generate := true;
      fl_messages := ms; fl_enums := []; fl_services := ss |}].
Definition hdr (name : string) (req : bool) : header := {| h_name := s name; h_type := s "string"; h_required := req; h_format := [] |}.

(* a well-formed example: nested and recursive types, a map, a path variable, a query
   parameter, headers on service and method, two RPCs *)
Definition good_messages : list message :=
  [ msg "a.Tree" ["Tree"] [fld "label" 1 KString Singular; fld "kids" 2 (KMessage (s "a.Tree")) Repeated;
                           fld "leaf" 3 (KMessage (s "a.Tree.Leaf")) Singular; fld "attrs" 4 KString (MapOf KString)];
    msg "a.Tree.Leaf" ["Tree"; "Leaf"] [fld "weight" 1 KDouble Singular];
    msg "a.GetReq" ["GetReq"] [fld "id" 1 KString Singular; qfld "depth" 2 KInt32 "depth"];
    msg "a.PutReq" ["PutReq"] [fld "id" 1 KString Singular; fld "tree" 2 (KMessage (s "a.Tree")) Singular] ].
Definition good_service : service :=
  svc "Forest" "/v1" [hdr "X-Tenant" true]
      [ rpc "GetTree" "a.GetReq" "a.Tree" "/trees/{id}" 1;
        {| md_name := s "PutTree"; md_in := s "a.PutReq"; md_out := s "a.Tree"; md_has_cfg := true; md_path := s "/trees/{id}";
           md_verb := Some 3; md_headers := [hdr "X-Trace" false] |} ].
Definition good_schema : schema := file1 good_messages [good_service].

Example good_is_good :
  defects_C18 good_schema no_side good_service = [] /\
  (exists st, collect_service good_schema no_side good_service = Some st /\
              map fst (components_of_sets (cs_sets st))
              = [s "Error"; s "FieldViolation"; s "ValidationError"; s "GetReq"; s "Tree"; s "AttrsEntry"; s "Leaf"; s "PutReq"]) /\
  map (fun e => md_name (snd e)) (doc_ops good_service) = [s "GetTree"; s "PutTree"] /\
  map param_key (op_parameters good_schema good_service (nth 1 (sv_methods good_service) (rpc "" "" "" "" 0)))
  = [(s "header", s "x-tenant"); (s "header", s "x-trace"); (s "path", s "id")].
Proof.
  split; [vm_compute; reflexivity|]. split; [|split; vm_compute; reflexivity].
  apply (option_map_some (fun st => map fst (components_of_sets (cs_sets st)))). vm_compute. reflexivity.
Qed.

Lemma first_repeats_not_NoDup {A} (x : A) l : In x l -> ~ NoDup (x :: l).
Proof. intros Hin H. inversion H. contradiction. Qed.

(* two messages called Item *)
Definition collide_schema : schema :=
  file1 [ msg "a.Outer" ["Outer"] [fld "item" 1 (KMessage (s "a.Outer.Item")) Singular];
          msg "a.Outer.Item" ["Outer"; "Item"] [fld "a" 1 KString Singular];
          msg "a.Other" ["Other"] [fld "item" 1 (KMessage (s "a.Other.Item")) Singular];
          msg "a.Other.Item" ["Other"; "Item"] [fld "b" 1 KInt32 Singular];
          msg "a.Req" ["Req"] [fld "x" 1 (KMessage (s "a.Outer")) Singular; fld "z" 2 (KMessage (s "a.Other")) Singular] ]
        [svc "S" "/s" [] [rpc "Do" "a.Req" "a.Req" "/do" 2]].
Definition collide_service : service := svc "S" "/s" [] [rpc "Do" "a.Req" "a.Req" "/do" 2].

(* a user message called Error *)
Definition builtin_schema : schema :=
  file1 [ msg "a.Error" ["Error"] [fld "code" 1 KInt32 Singular]; msg "a.Req" ["Req"] [fld "e" 1 (KMessage (s "a.Error")) Singular] ]
        [svc "S" "/s" [] [rpc "Do" "a.Req" "a.Req" "/do" 2]].

(* X-Api-Key and x-api-key *)
Definition plain_req_schema (ss : list service) : schema := file1 [ msg "a.Req" ["Req"] [fld "id" 1 KString Singular; qfld "p" 2 KString "q"; qfld "r" 3 KString "q"] ] ss.
Definition hdr_service : service := svc "S" "/s" [hdr "X-Api-Key" true; hdr "x-api-key" false] [rpc "Do" "a.Req" "a.Req" "/do" 2].
Definition no_query_schema (ss : list service) : schema := file1 [ msg "a.Req" ["Req"] [fld "id" 1 KString Singular] ] ss.

(* two RPCs on POST /s/same *)
Definition shared_service : service := svc "S" "/s" [] [rpc "First" "a.Req" "a.Req" "/same" 2; rpc "Second" "a.Req" "a.Req" "/same" 2].

(* /a/{id}/b/{id} *)
Definition twice_service : service := svc "S" "/s" [] [rpc "Do" "a.Req" "a.Req" "/a/{id}/b/{id}" 1].

(* base_path /orgs/{org} *)
Definition basevar_service : service := svc "S" "/orgs/{org}" [] [rpc "Do" "a.Req" "a.Req" "/items/{id}" 1].

(* two fields with query name q *)
Definition query_service : service := svc "S" "/s" [] [rpc "Do" "a.Req" "a.Req" "/do" 1].

(* a field called n: the .json rendering has the property "false" *)
Definition yaml11_schema : schema := file1 [ msg "a.Req" ["Req"] [fld "n" 1 KInt32 Singular] ] [query_service].

(* service Same in two generated files *)
Definition two_files : schema :=
  [{| fl_path := s "a.proto"; fl_package := s "a"; fl_gopkg := s "a"; fl_generate := true; fl_messages := []; fl_enums := [];
      fl_services := [svc "Same" "/one" [] []] |};
   {| fl_path := s "b.proto"; fl_package := s "b"; fl_gopkg := s "b"; fl_generate := true; fl_messages := []; fl_enums := [];
      fl_services := [svc "Same" "/two" [] []] |}].
