(* UrlFacts.v — percent-escaping round trips for every escaper of the shape net/url and the JS built-ins
   share, split/join, query strings (Values.Encode / ParseQuery), sorted pairs. *)
From Sebuf Require Import Text Url.
From SebufProofs Require Import TextFacts ListFacts.

Local Open Scope N_scope.

Lemma in_chars_In c l : in_chars c l = true <-> In c l.
Proof.
  unfold in_chars. rewrite existsb_exists. split.
  - intros [d [Hin E]]. apply Ascii.eqb_eq in E. now subst.
  - intros Hin. exists c. split; [exact Hin|apply Ascii.eqb_refl].
Qed.

Lemma in_chars_false c l : in_chars c l = false <-> ~ In c l.
Proof.
  split.
  - intros H Hin. apply in_chars_In in Hin. congruence.
  - intros H. destruct (in_chars c l) eqn:E; [|reflexivity]. apply in_chars_In in E. contradiction.
Qed.

(* every byte an escaper can write that is not a byte it keeps *)
Definition esc_chars : str := s "%+0123456789ABCDEF".

(* the two digits of %XX are upper-case hex digits and decode to the byte *)
Definition pct_ok (c : ascii) : bool :=
  let h := upper_hex (code c / 16) in
  let l := upper_hex (code c mod 16) in
  match unhex h, unhex l with
  | Some a, Some b => Ascii.eqb (ch (a * 16 + b)) c
  | _, _ => false
  end && in_chars h esc_chars && in_chars l esc_chars.

Lemma pct_table : all_byte pct_ok = true.
Proof. vm_compute. reflexivity. Qed.

Lemma pct_hex c : exists a b,
  unhex (upper_hex (code c / 16)) = Some a /\ unhex (upper_hex (code c mod 16)) = Some b /\
  ch (a * 16 + b) = c.
Proof.
  pose proof (all_byte_spec _ pct_table c) as H. unfold pct_ok in H. cbv zeta in H.
  apply andb_true_iff in H as [H _]. apply andb_true_iff in H as [H _].
  destruct (unhex (upper_hex (code c / 16))) as [a|]; [|discriminate].
  destruct (unhex (upper_hex (code c mod 16))) as [b|]; [|discriminate].
  apply Ascii.eqb_eq in H. now exists a, b.
Qed.

Lemma pct_chars c d : In d (pct c) -> In d esc_chars.
Proof.
  pose proof (all_byte_spec _ pct_table c) as H. unfold pct_ok in H. cbv zeta in H.
  apply andb_true_iff in H as [H Hl]. apply andb_true_iff in H as [_ Hh].
  apply in_chars_In in Hh, Hl.
  intros [<-|[<-|[<-|[]]]]; [now left|exact Hh|exact Hl].
Qed.

Lemma unescape_pct b c t : unescape b (pct c ++ t) = option_map (cons c) (unescape b t).
Proof.
  destruct (pct_hex c) as [x [y [Hx [Hy Hc]]]].
  unfold pct. cbn [app unescape]. rewrite Ascii.eqb_refl, Hx, Hy, Hc. now destruct (unescape b t).
Qed.

Lemma unescape_plain b c t : Ascii.eqb c "%"%char = false ->
  unescape b (c :: t) =
  option_map (cons (if b && Ascii.eqb c "+"%char then " "%char else c)) (unescape b t).
Proof. intros H. cbn [unescape]. rewrite H. now destruct (unescape b t). Qed.

(* PathEscape, QueryEscape, encodeURIComponent and the form serializer all keep the bytes of some
   alphabet, write the others as %XX, and differ only in the alphabet and in whether a space becomes '+'. *)

Definition esc1 (plus : bool) (safe : ascii -> bool) (c : ascii) : str :=
  if plus && Ascii.eqb c " "%char then ["+"%char] else if safe c then [c] else pct c.
Definition escape (plus : bool) (safe : ascii -> bool) (x : str) : str := flat_map (esc1 plus safe) x.

Lemma path_escape_escape x : path_escape x = escape false path_seg_safe x.
Proof. reflexivity. Qed.
Lemma query_escape_escape x : query_escape x = escape true query_safe x.
Proof. reflexivity. Qed.

Section Escape.
Variables (plus : bool) (safe : ascii -> bool).

Lemma escape_cons c x : escape plus safe (c :: x) = esc1 plus safe c ++ escape plus safe x.
Proof. reflexivity. Qed.

Lemma esc1_nonempty c : esc1 plus safe c <> [].
Proof. unfold esc1, pct. destruct (plus && Ascii.eqb c " "%char), (safe c); discriminate. Qed.

Lemma escape_nil_iff x : escape plus safe x = [] <-> x = [].
Proof.
  split; [|intros ->; reflexivity].
  destruct x as [|c x]; [reflexivity|]. rewrite escape_cons. intros H.
  apply app_eq_nil in H as [H _]. now apply esc1_nonempty in H.
Qed.

Lemma esc1_chars c d : In d (esc1 plus safe c) -> safe d = true \/ In d esc_chars.
Proof.
  unfold esc1. destruct (plus && Ascii.eqb c " "%char).
  - intros [<-|[]]. right. right. now left.
  - destruct (safe c) eqn:Es.
    + intros [<-|[]]. now left.
    + intros H. right. exact (pct_chars c d H).
Qed.

Lemma escape_avoids d x : safe d || in_chars d esc_chars = false -> ~ In d (escape plus safe x).
Proof.
  intros H Hin. apply orb_false_iff in H as [H1 H2]. apply in_chars_false in H2.
  apply in_flat_map in Hin as [c [_ Hc]]. apply esc1_chars in Hc as [Hc|Hc]; [congruence|contradiction].
Qed.

(* '%' is never kept, and '+' is not kept where it stands for a space *)
Hypothesis safe_pct : safe "%"%char = false.
Hypothesis safe_plus : plus && safe "+"%char = false.

Lemma safe_not_pct c : safe c = true -> Ascii.eqb c "%"%char = false.
Proof. intros H. apply Ascii.eqb_neq. intros ->. congruence. Qed.

Lemma safe_not_plus c : safe c = true -> plus && Ascii.eqb c "+"%char = false.
Proof.
  intros H. destruct plus; [|reflexivity]. apply Ascii.eqb_neq. intros ->. cbn [andb] in safe_plus. congruence.
Qed.

Lemma unescape_esc1 c t : unescape plus (esc1 plus safe c ++ t) = option_map (cons c) (unescape plus t).
Proof.
  unfold esc1. destruct (plus && Ascii.eqb c " "%char) eqn:Esp.
  - apply andb_true_iff in Esp as [-> Esp]. apply Ascii.eqb_eq in Esp. subst c. reflexivity.
  - destruct (safe c) eqn:Es; [|apply unescape_pct].
    cbn [app]. now rewrite (unescape_plain plus c t (safe_not_pct c Es)), (safe_not_plus c Es).
Qed.

Lemma unescape_escape x : unescape plus (escape plus safe x) = Some x.
Proof.
  induction x as [|c x IH]; [reflexivity|]. now rewrite escape_cons, unescape_esc1, IH.
Qed.

End Escape.

Lemma path_unescape_escape : forall x, path_unescape (path_escape x) = Some x.
Proof. exact (unescape_escape false path_seg_safe eq_refl eq_refl). Qed.

Lemma query_unescape_escape : forall x, query_unescape (query_escape x) = Some x.
Proof. exact (unescape_escape true query_safe eq_refl eq_refl). Qed.

Lemma path_escape_no_slash : forall x, In slash (path_escape x) -> False.
Proof. intros x. apply (escape_avoids false path_seg_safe). reflexivity. Qed.

(* what the routers need of the function that writes a path value into a URL segment *)

Record seg_codec (E : str -> str) : Prop := {
  codec_unescape : forall x, path_unescape (E x) = Some x;
  codec_no_slash : forall x, ~ In slash (E x)
}.

Lemma escape_codec safe : safe "%"%char = false -> safe slash = false -> seg_codec (escape false safe).
Proof.
  intros Hp Hs. split.
  - exact (unescape_escape false safe Hp eq_refl).
  - intros x. apply escape_avoids. now rewrite Hs.
Qed.

Lemma path_escape_codec : seg_codec path_escape.
Proof. exact (escape_codec path_seg_safe eq_refl eq_refl). Qed.

Lemma codec_nil E : seg_codec E -> forall x, E x = [] -> x = [].
Proof. intros C x H. pose proof (codec_unescape E C x) as Hx. rewrite H in Hx. now inversion Hx. Qed.

Lemma query_escape_clean : forall x c, In c (query_escape x) ->
  c <> amp /\ c <> eqc /\ c <> ";"%char.
Proof.
  intros x c H. repeat split; intros ->; revert H; apply (escape_avoids true query_safe); reflexivity.
Qed.

Lemma cut_at_app sep x y : ~ In sep x -> cut_at sep (x ++ sep :: y) = (x, Some y).
Proof.
  induction x as [|d x IH]; intros Hni; cbn [app cut_at].
  - now rewrite Ascii.eqb_refl.
  - assert (E : Ascii.eqb d sep = false).
    { apply Ascii.eqb_neq. intros ->. apply Hni. now left. }
    rewrite E, IH by (intros Hin; apply Hni; now right). reflexivity.
Qed.

(* key=value as Values.Encode and URLSearchParams write it, for an escaper whose output holds none of
   the bytes that structure a query string *)
Definition pair_enc (esc : str -> str) (p : str * str) : str := esc (fst p) ++ [eqc] ++ esc (snd p).

Section Pairs.
Variable esc : str -> str.
Hypothesis esc_clean : forall x c, In c (esc x) -> c <> amp /\ c <> eqc /\ c <> ";"%char.

Lemma pair_enc_clean p c : In c (pair_enc esc p) -> c <> amp /\ c <> ";"%char.
Proof.
  unfold pair_enc. intros H. apply in_app_or in H as [H|[<-|H]].
  - apply esc_clean in H. tauto.
  - split; discriminate.
  - apply esc_clean in H. tauto.
Qed.

Lemma pair_enc_nonempty p : pair_enc esc p <> [].
Proof. unfold pair_enc. intros H. apply app_eq_nil in H as [_ H]. discriminate. Qed.

Lemma cut_at_pair_enc p : cut_at eqc (pair_enc esc p) = (esc (fst p), Some (esc (snd p))).
Proof. apply cut_at_app. intros H. apply esc_clean in H. tauto. Qed.

Lemma flat_map_split_pairs {B} (F : str -> list B) l : F [] = [] ->
  flat_map F (split_on amp (join_with [amp] (map (pair_enc esc) l))) = flat_map F (map (pair_enc esc) l).
Proof.
  intros HF. destruct l as [|p l]; [cbn; now rewrite HF|].
  rewrite split_on_join; [reflexivity|discriminate|].
  intros x Hin Hamp. apply in_map_iff in Hin as [q [<- _]]. now apply pair_enc_clean in Hamp as [Hamp _].
Qed.

Hypothesis esc_unescape : forall x, query_unescape (esc x) = Some x.

Lemma parse_pair_enc p : parse_pair (pair_enc esc p) = Some p.
Proof.
  unfold parse_pair.
  assert (Hs : in_chars ";"%char (pair_enc esc p) = false).
  { apply in_chars_false. intros H. now apply pair_enc_clean in H as [_ H]. }
  rewrite Hs, cut_at_pair_enc, !esc_unescape. now destruct p.
Qed.

Lemma parse_query_pairs l : parse_query (join_with [amp] (map (pair_enc esc) l)) = l.
Proof.
  unfold parse_query. rewrite flat_map_split_pairs by reflexivity.
  induction l as [|q l IH]; [reflexivity|]. cbn [map flat_map]. rewrite IH, parse_pair_enc.
  destruct (pair_enc esc q) eqn:E; [now apply pair_enc_nonempty in E|reflexivity].
Qed.
End Pairs.

(* No side condition is needed: a pair always contains '=', so it is never the empty string. *)
Lemma parse_query_encode_all : forall kv, parse_query (encode_query kv) = sort_kv kv.
Proof.
  intros kv. exact (parse_query_pairs query_escape query_escape_clean query_unescape_escape (sort_kv kv)).
Qed.

Lemma parse_query_encode : forall kv, (forall p, In p kv -> fst p <> []) ->
  parse_query (encode_query kv) = sort_kv kv.
Proof. intros kv _. apply parse_query_encode_all. Qed.

Lemma in_insert_kv x y l : In y (insert_kv x l) -> y = x \/ In y l.
Proof.
  induction l as [|h t IH]; cbn [insert_kv]; intros H.
  - destruct H as [<-|[]]. now left.
  - destruct (str_leb (fst x) (fst h)).
    + destruct H as [<-|H]; [now left|now right].
    + destruct H as [<-|H]; [right; now left|].
      apply IH in H as [->|H]; [now left|right; now right].
Qed.

Lemma in_sort_kv y l : In y (sort_kv l) -> In y l.
Proof.
  induction l as [|x l IH]; cbn [sort_kv fold_right]; intros H; [contradiction|].
  apply in_insert_kv in H as [->|H]; [now left|right; now apply IH].
Qed.

Lemma insert_kv_nodup x : forall t, NoDup (map fst t) -> ~ In (fst x) (map fst t) ->
  NoDup (map fst (insert_kv x t)).
Proof.
  induction t as [|h t IH]; intros Hnd Hni; cbn [insert_kv map].
  - constructor; [intros []|constructor].
  - destruct (str_leb (fst x) (fst h)); cbn [map]; [now constructor|].
    cbn [map] in Hnd, Hni. inversion Hnd as [|? ? Hh Ht]; subst. constructor.
    + intros Hin. apply in_map_iff in Hin as [y [Ey Hy]]. apply in_insert_kv in Hy as [->|Hy].
      * apply Hni. now left.
      * apply Hh. rewrite <- Ey. now apply in_map.
    + apply IH; [exact Ht|]. intros Hin. apply Hni. now right.
Qed.

Lemma sort_kv_nodup : forall l, NoDup (map fst l) -> NoDup (map fst (sort_kv l)).
Proof.
  induction l as [|x l IH]; intros H; [constructor|].
  cbn [map] in H. inversion H as [|? ? Hni Hnd]; subst.
  cbn [sort_kv fold_right]. fold (sort_kv l). apply insert_kv_nodup; [now apply IH|].
  intros Hin. apply Hni. apply in_map_iff in Hin as [y [Ey Hy]]. rewrite <- Ey. apply in_map. now apply in_sort_kv.
Qed.

Lemma filter_insert_other (P : str * str -> bool) x l : P x = false ->
  filter P (insert_kv x l) = filter P l.
Proof.
  intros Hx. induction l as [|h t IH]; cbn [insert_kv filter]; [now rewrite Hx|].
  destruct (str_leb (fst x) (fst h)); cbn [filter]; [now rewrite Hx|]. now rewrite IH.
Qed.

Lemma filter_insert_none (P : str * str -> bool) x l : filter P l = [] ->
  filter P (insert_kv x l) = filter P [x].
Proof.
  induction l as [|h t IH]; cbn [insert_kv filter]; intros H; [reflexivity|].
  destruct (P h) eqn:Eh; [discriminate|].
  destruct (str_leb (fst x) (fst h)); cbn [filter]; rewrite Eh.
  - rewrite H. reflexivity.
  - now apply IH.
Qed.

Lemma query_values_sort_kv l k : NoDup (map fst l) ->
  query_values (sort_kv l) k = query_values l k.
Proof.
  unfold query_values. intros Hnd. f_equal.
  induction l as [|x l IH]; [reflexivity|].
  cbn [map] in Hnd. inversion Hnd as [|? ? Hni Hnd']; subst.
  cbn [sort_kv fold_right filter]. fold (sort_kv l).
  destruct (str_eqb (fst x) k) eqn:E.
  - apply str_eqb_eq in E.
    assert (Hnone : forall y, In y l -> str_eqb (fst y) k = false).
    { intros y Hy. apply str_eqb_neq. intros Ey. apply Hni. rewrite E, <- Ey. now apply in_map. }
    rewrite filter_insert_none.
    + cbn [filter]. apply str_eqb_eq in E. rewrite E.
      rewrite (proj2 (filter_nil _ l) Hnone). reflexivity.
    + apply filter_nil. intros y Hy. apply Hnone. now apply in_sort_kv.
  - rewrite filter_insert_other by exact E. now apply IH.
Qed.
