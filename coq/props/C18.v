(* C18 — each OpenAPI document is well-formed, complete and format-independent.
   Model: OpenApi.document_y (the YAML node tree protoc-gen-openapiv3 hands to the emitter for one
   service), Yaml.reader12 / reader11 (the .yaml file under a YAML 1.2 reader; the .json file, which
   the plugin obtains by re-reading that text with a YAML 1.1 resolver), OpenApi.emitted_files.
   defects_C18 classifies the INPUT (schema + service); every theorem concludes about the DOCUMENT. *)
From Sebuf Require Import JsonSchema Yaml Rules Route OpenApi OasCheck.
From SebufProofs Require Import OpenApiFacts OpenApiExamples.

(* In all theorems: st = the result of the message collection for the service, d = its document,
   and the input lies outside the defect classes. *)

(* every message reachable from the RPCs through message-typed fields has a component schema under
   its short name (this clause needs no defect hypothesis) *)
Theorem C18_reachable_have_schemas : forall sc sd sv st, collect_service sc sd sv = Some st ->
  forall fq m, reachable sc (method_roots sv) fq -> lookup_message sc fq = Some m ->
  In (short_name fq) (map fst (components_of_sets (cs_sets st))).
Proof. exact reachable_have_schemas. Qed.

(* ... and distinct collected messages have distinct component names *)
Theorem C18_components_distinct : forall sc sd sv st d,
  collect_service sc sd sv = Some st -> document_y sc sd sv = Some d -> defects_C18 sc sd sv = [] ->
  NoDup (map short_name (collected_messages sc st)).
Proof. intros sc sd sv st d Hc Hd Hg. apply has_dup_NoDup. exact (c18_names _ _ _ _ (defects_C18_nil _ _ _ _ _ Hc Hd Hg)). Qed.

(* the references of every operation (request body, 200, 400, default) resolve *)
Theorem C18_refs_resolve_partial : forall sc sd sv st, collect_service sc sd sv = Some st ->
  forall md, In md (sv_methods sv) ->
  lookup_message sc (md_in md) <> None -> lookup_message sc (md_out md) <> None ->
  forall t, In t (refs_of (operation_node sc sv md)) -> ref_resolves (components_of_sets (cs_sets st)) t = true.
Proof. exact refs_resolve_operations. Qed.

(* the variables of the path template are exactly the declared path parameters, each declared
   once and required *)
Theorem C18_path_vars_iff_params : forall sc sd sv st d,
  collect_service sc sd sv = Some st -> document_y sc sd sv = Some d -> defects_C18 sc sd sv = [] ->
  forall md, In md (sv_methods sv) ->
  has_lbrace (sv_name sv) = false -> has_lbrace (md_name md) = false ->
  template_vars sv md = declared_vars sv md /\ NoDup (declared_vars sv md) /\
  (forall n l r sch, In (n, l, r, sch) (op_parameters sc sv md) -> l = s "path" -> r = true).
Proof.
  intros sc sd sv st d Hc Hd Hg md Hmd Hs Hm.
  destruct (defects_C18_nil_method _ _ _ _ _ md Hc Hd Hg Hmd) as [Hh [Hv Hq]].
  split; [|split].
  - apply path_vars_iff_params; [|exact Hs|exact Hm].
    exact (c18_base _ _ _ _ (defects_C18_nil _ _ _ _ _ Hc Hd Hg)).
  - now apply has_dup_NoDup.
  - now apply (param_names_unique sc sv md).
Qed.

(* parameter names are unique per location (header names compared without case) *)
Theorem C18_param_names_unique : forall sc sd sv st d,
  collect_service sc sd sv = Some st -> document_y sc sd sv = Some d -> defects_C18 sc sd sv = [] ->
  forall md, In md (sv_methods sv) -> NoDup (map param_key (op_parameters sc sv md)).
Proof.
  intros sc sd sv st d Hc Hd Hg md Hmd.
  destruct (defects_C18_nil_method _ _ _ _ _ md Hc Hd Hg Hmd) as [Hh [Hv Hq]].
  now apply (param_names_unique sc sv md).
Qed.

(* every RPC is an operation of the document, in order *)
Theorem C18_every_rpc_has_operation : forall sc sd sv st d,
  collect_service sc sd sv = Some st -> document_y sc sd sv = Some d -> defects_C18 sc sd sv = [] ->
  map snd (doc_ops sv) = sv_methods sv.
Proof.
  intros sc sd sv st d Hc Hd Hg. apply every_rpc_has_operation.
  exact (c18_routes _ _ _ _ (defects_C18_nil _ _ _ _ _ Hc Hd Hg)).
Qed.

(* the .json rendering denotes the same document as the .yaml rendering *)
Theorem C18_json_eq_yaml : forall sc sd sv st d,
  collect_service sc sd sv = Some st -> document_y sc sd sv = Some d -> defects_C18 sc sd sv = [] ->
  denote reader11 d = denote reader12 d.
Proof.
  intros sc sd sv st d Hc Hd Hg. apply json_eq_yaml.
  apply ListFacts.existsb_false. exact (c18_yaml11 _ _ _ _ (defects_C18_nil _ _ _ _ _ Hc Hd Hg)).
Qed.

Print Assumptions C18_reachable_have_schemas.
Print Assumptions C18_components_distinct.
Print Assumptions C18_refs_resolve_partial.
Print Assumptions C18_path_vars_iff_params.
Print Assumptions C18_param_names_unique.
Print Assumptions C18_every_rpc_has_operation.
Print Assumptions C18_json_eq_yaml.

(* The full statement: EVERY reference of the document resolves, those inside component schemas and
   discriminator mappings included.  Proved above for the operations; for the components see
   C18_refs_resolve below (two side conditions) and C18_refs_resolve_full_refuted (as written here it is
   false in the model).  The run evaluates it on every emitted document (oracle) and those documents
   are compared with the model's. *)
Definition C18_refs_resolve_full : Prop :=
  forall sc sd sv st d, collect_service sc sd sv = Some st -> document_y sc sd sv = Some d ->
  cs_unknown st = [] -> defects_C18 sc sd sv = [] ->
  forall t, In t (refs_of d) -> ref_resolves (components_of_sets (cs_sets st)) t = true.

(* operationIds are unique whenever the RPC names are (protoc guarantees that) *)
Theorem C18_operation_ids_unique : forall sv,
  NoDup (map md_name (sv_methods sv)) -> NoDup (map (fun e => md_name (snd e)) (doc_ops sv)).
Proof.
  intros sv H. unfold doc_ops. apply (fold_assign_nodup md_name); [assumption|constructor|]. intros x _ [].
Qed.
Print Assumptions C18_operation_ids_unique.

(* one file per service of the files to generate, named <Service>.openapi.<yaml|json> by the format
   option; the names are distinct when the service names are *)
Theorem C18_one_doc_per_service : forall p sc,
  List.length (emitted_files p sc) = List.length (generated_services sc) /\
  (forall i sv, nth_error (generated_services sc) i = Some sv ->
     nth_error (emitted_files p sc) i = Some (sv_name sv ++ s ".openapi." ++ (if format_is_json p then s "json" else s "yaml"))) /\
  (NoDup (map sv_name (generated_services sc)) -> NoDup (emitted_files p sc)).
Proof. exact one_doc_per_service. Qed.
Print Assumptions C18_one_doc_per_service.

(* format option: json exactly for format=json (last pair wins, blanks trimmed); yaml, yml, anything
   else and no option give YAML *)
Example C18_format_parameter :
  map (fun p => format_is_json (s p)) [""; "format=yaml"; "format=yml"; "format=json"; "format= json"; "x=1,format=yaml,format=json"; "format=xml"; "format"]%string
  = [false; false; false; true; true; true; false; false].
Proof. vm_compute. reflexivity. Qed.

(* refutations: an input in exactly one defect class and the clause that fails *)
Theorem C18_refuted_short_name_collision :
  defects_C18 collide_schema no_side collide_service = [ShortNameCollision] /\
  exists st, collect_service collide_schema no_side collide_service = Some st /\
    In (s "a.Outer.Item") (cs_visited st) /\ In (s "a.Other.Item") (cs_visited st) /\
    List.length (filter (fun e => str_eqb (fst e) (s "Item")) (components_of_sets (cs_sets st))) = 1.
Proof.
  split; [vm_compute; reflexivity|].
  destruct (ListFacts.option_map_some
              (fun st => (mem_str (s "a.Outer.Item") (cs_visited st), mem_str (s "a.Other.Item") (cs_visited st),
                          List.length (filter (fun e => str_eqb (fst e) (s "Item")) (components_of_sets (cs_sets st)))))
              (collect_service collide_schema no_side collide_service) (true, true, 1))
    as [st [Hst [= H1 H2 Hn]]]; [vm_compute; reflexivity|].
  exists st. split; [exact Hst|]. split; [now apply mem_str_In|]. split; [now apply mem_str_In|exact Hn].
Qed.
Theorem C18_refuted_builtin_name :
  defects_C18 builtin_schema no_side collide_service = [BuiltinNameCollision] /\
  exists st, collect_service builtin_schema no_side collide_service = Some st /\
    exists n, find (fun e => str_eqb (fst e) (s "Error")) (components_of_sets (cs_sets st)) = Some (s "Error", n) /\
              find (fun e => str_eqb (fst e) (s "Error")) builtin_sets <> Some (s "Error", n).
Proof.
  split; [vm_compute; reflexivity|].
  (* the component called Error is the schema of the user's message, not the built-in one *)
  pose (N := plain_object_schema builtin_schema no_side (msg "a.Error" ["Error"%string] [fld "code" 1 KInt32 Singular])).
  destruct (ListFacts.option_map_some (fun st => find (fun e => str_eqb (fst e) (s "Error")) (components_of_sets (cs_sets st)))
              (collect_service builtin_schema no_side collide_service) (Some (s "Error", N))) as [st [Hst Hf]]; [vm_compute; reflexivity|].
  exists st. split; [exact Hst|]. exists N. split; [exact Hf|]. vm_compute. discriminate.
Qed.
Theorem C18_refuted_header_case_duplicate :
  defects_C18 (no_query_schema [hdr_service]) no_side hdr_service = [HeaderCaseDuplicate] /\
  ~ NoDup (map param_key (op_parameters (no_query_schema [hdr_service]) hdr_service (rpc "Do" "a.Req" "a.Req" "/do" 2))).
Proof. split; [vm_compute; reflexivity|]. vm_compute. apply first_repeats_not_NoDup. now left. Qed.
Theorem C18_refuted_shared_route :
  defects_C18 (no_query_schema [shared_service]) no_side shared_service = [SharedRoute] /\
  map (fun e => md_name (snd e)) (doc_ops shared_service) = [s "Second"].
Proof. split; vm_compute; reflexivity. Qed.
Theorem C18_refuted_duplicate_path_variable :
  defects_C18 (no_query_schema [twice_service]) no_side twice_service = [DuplicatePathVariable] /\
  ~ NoDup (map param_key (op_parameters (no_query_schema [twice_service]) twice_service (rpc "Do" "a.Req" "a.Req" "/a/{id}/b/{id}" 1))).
Proof. split; [vm_compute; reflexivity|]. vm_compute. apply first_repeats_not_NoDup. now left. Qed.
Theorem C18_refuted_base_path_variable :
  defects_C18 (no_query_schema [basevar_service]) no_side basevar_service = [BasePathVariable] /\
  template_vars basevar_service (rpc "Do" "a.Req" "a.Req" "/items/{id}" 1) = [s "org"; s "id"] /\
  declared_vars basevar_service (rpc "Do" "a.Req" "a.Req" "/items/{id}" 1) = [s "id"].
Proof. split; [vm_compute; reflexivity|]. split; vm_compute; reflexivity. Qed.
Theorem C18_refuted_duplicate_query_name :
  defects_C18 (plain_req_schema [query_service]) no_side query_service = [DuplicateQueryName] /\
  ~ NoDup (map param_key (op_parameters (plain_req_schema [query_service]) query_service (rpc "Do" "a.Req" "a.Req" "/do" 1))).
Proof. split; [vm_compute; reflexivity|]. vm_compute. apply first_repeats_not_NoDup. now left. Qed.
Theorem C18_refuted_yaml11_bool_word :
  defects_C18 yaml11_schema no_side query_service = [Yaml11BoolWord] /\
  exists d, document_y yaml11_schema no_side query_service = Some d /\ ynode_unknowns d = [] /\
            jv_eqb (dedupe_jv (denote reader11 d)) (dedupe_jv (denote reader12 d)) = false.
Proof.
  split; [vm_compute; reflexivity|].
  destruct (ListFacts.option_map_some (fun d => (ynode_unknowns d, jv_eqb (dedupe_jv (denote reader11 d)) (dedupe_jv (denote reader12 d))))
              (document_y yaml11_schema no_side query_service) ([], false)) as [d [Hd [= Hu Hj]]]; [vm_compute; reflexivity|].
  now exists d.
Qed.
Theorem C18_refuted_service_name_collision :
  has_dup (map sv_name (generated_services two_files)) = true /\ ~ NoDup (emitted_files (s "format=json") two_files) /\
  emitted_files (s "format=json") two_files = [s "Same.openapi.json"; s "Same.openapi.json"].
Proof. split; [vm_compute; reflexivity|]. split; [|vm_compute; reflexivity]. vm_compute. apply first_repeats_not_NoDup. now left. Qed.

(* the hypotheses are satisfiable by a schema with nested and recursive types, a map field, path and
   query parameters, service and method headers and two RPCs *)
Example C18_nonvacuous :
  defects_C18 good_schema no_side good_service = [] /\
  (exists st, collect_service good_schema no_side good_service = Some st /\
              map fst (components_of_sets (cs_sets st))
              = [s "Error"; s "FieldViolation"; s "ValidationError"; s "GetReq"; s "Tree"; s "AttrsEntry"; s "Leaf"; s "PutReq"]) /\
  map (fun e => md_name (snd e)) (doc_ops good_service) = [s "GetTree"; s "PutTree"] /\
  map param_key (op_parameters good_schema good_service (nth 1 (sv_methods good_service) (rpc "" "" "" "" 0)))
  = [(s "header", s "x-tenant"); (s "header", s "x-trace"); (s "path", s "id")].
Proof. exact good_is_good. Qed.

From SebufProofs Require Import OpenApiRefsFacts.

(* EVERY `$ref` and every discriminator mapping target of the document (operations, component schemas
   of the five object-schema shapes, map entries, discriminator tables) names a component of the same
   document.  Two side conditions say what protoc guarantees about a request and the Schema.v AST does
   not enforce: message full names are unique, and no map key is a message.  The defect hypothesis of
   C18_refs_resolve_full is not needed for this clause. *)
Theorem C18_refs_resolve : forall sc sd sv st d,
  unique_message_names sc = true -> scalar_map_keys sc = true ->
  collect_service sc sd sv = Some st -> document_y sc sd sv = Some d -> cs_unknown st = [] ->
  forall t, In t (refs_of d) -> ref_resolves (components_of_sets (cs_sets st)) t = true.
Proof. exact refs_resolve_full. Qed.
Print Assumptions C18_refs_resolve.

(* the same under exactly the hypotheses of C18_refs_resolve_full *)
Theorem C18_refs_resolve_good : forall sc sd sv st d,
  unique_message_names sc = true -> scalar_map_keys sc = true ->
  collect_service sc sd sv = Some st -> document_y sc sd sv = Some d ->
  cs_unknown st = [] -> defects_C18 sc sd sv = [] ->
  forall t, In t (refs_of d) -> ref_resolves (components_of_sets (cs_sets st)) t = true.
Proof. intros sc sd sv st d Hu Hk Hc Hd Hn _. exact (refs_resolve_full sc sd sv st d Hu Hk Hc Hd Hn). Qed.
Print Assumptions C18_refs_resolve_good.

(* C18_refs_resolve_full itself, without the two side conditions, is false in the model *)
Theorem C18_refs_resolve_full_refuted : ~ C18_refs_resolve_full.
Proof. exact refs_resolve_unconditional_refuted. Qed.
Print Assumptions C18_refs_resolve_full_refuted.

(* a full name declared twice: the second declaration's schema is registered, its field types are not collected *)
Example C18_refs_resolve_needs_unique_names :
  unique_message_names dup_schema = false /\ scalar_map_keys dup_schema = true /\
  defects_C18 dup_schema no_side dup_service = [] /\
  exists st d, collect_service dup_schema no_side dup_service = Some st /\
    document_y dup_schema no_side dup_service = Some d /\ cs_unknown st = [] /\
    In (ref_prefix ++ s "Z") (refs_of d) /\
    ref_resolves (components_of_sets (cs_sets st)) (ref_prefix ++ s "Z") = false.
Proof. exact refs_resolve_needs_unique_names. Qed.

(* a message as map key: the entry schema refers to it, the collection follows the value field only *)
Example C18_refs_resolve_needs_scalar_map_keys :
  unique_message_names mapkey_schema = true /\ scalar_map_keys mapkey_schema = false /\
  defects_C18 mapkey_schema no_side dup_service = [] /\
  exists st d, collect_service mapkey_schema no_side dup_service = Some st /\
    document_y mapkey_schema no_side dup_service = Some d /\ cs_unknown st = [] /\
    In (ref_prefix ++ s "K") (refs_of d) /\
    ref_resolves (components_of_sets (cs_sets st)) (ref_prefix ++ s "K") = false.
Proof. exact refs_resolve_needs_scalar_map_keys. Qed.

(* the hypotheses hold on a schema with a recursive message with a nested declaration, a map of
   messages and a Timestamp, a nested and a flattened discriminated oneof, a flatten field with prefix
   and a root unwrap that is also a map value; its 30 references include variant components and
   discriminator mapping targets *)
Example C18_refs_resolve_nonvacuous :
  unique_message_names refs_schema = true /\ scalar_map_keys refs_schema = true /\
  defects_C18 refs_schema no_side refs_service = [] /\
  exists st d, collect_service refs_schema no_side refs_service = Some st /\
    document_y refs_schema no_side refs_service = Some d /\ cs_unknown st = [] /\
    map fst (components_of_sets (cs_sets st))
    = map s ["Error"; "FieldViolation"; "ValidationError"; "Req"; "GroupsEntry"; "Tree"; "AttrsEntry"; "Leaf"; "Timestamp";
             "Event"; "Click"; "Scroll"; "Shape_circle"; "Shape_square"; "Shape"; "Circle"; "Point"; "Square";
             "Wrapper"; "Meta"; "Owner"; "ItemList"; "Item"; "Resp"]%string /\
    refs_of d
    = map (fun n => ref_prefix ++ s n)
          ["Req"; "Resp"; "ValidationError"; "Error"; "FieldViolation"; "Tree"; "Event"; "Shape"; "Wrapper"; "Item"; "ItemList";
           "Tree"; "Leaf"; "Leaf"; "Leaf"; "Click"; "Scroll"; "Click"; "Scroll"; "Tree"; "Point";
           "Shape_circle"; "Shape_square"; "Shape_circle"; "Shape_square"; "Point"; "Owner"; "Owner"; "Item"; "ItemList"]%string.
Proof. exact refs_nonvacuous. Qed.
