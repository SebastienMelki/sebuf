(* C16 — every plugin terminates with an answer: the traversal logic. *)
From Sebuf Require Import Text Traverse.
From SebufProofs Require Import TraverseFacts.

(* The visited-set guarded walks (TS type collection, OpenAPI schema collection) finish on every
   finite message graph, cyclic or not, within depth |g|+1. *)
Theorem C16_visited_terminates : forall g n, wf_graph g -> n < List.length g ->
  collect (S (List.length g)) g [] n <> None.
Proof. exact guarded_walk_terminates. Qed.
Print Assumptions C16_visited_terminates.

(* The mock emitter's walk (generate_mock=true), which stops at message types already on the path
   being filled, finishes on every finite graph, cyclic or not, within depth |g|+1. *)
Theorem C16_mock_terminates : forall g n, wf_graph g -> n < List.length g ->
  mock_path (S (List.length g)) g [] n <> None.
Proof. exact mock_path_terminates. Qed.
Print Assumptions C16_mock_terminates.

(* until 7d8903f the walk had no path set; that walk never terminates on a cycle of followed edges *)
Theorem C16_unguarded_mock_diverged : forall g (C : list nat),
  (forall n, In n C -> exists m, In m C /\ In (m, true) (edges_of g n)) ->
  forall fuel n, In n C -> mock_assign fuel g n = None.
Proof. exact mock_cycle_diverges. Qed.
Print Assumptions C16_unguarded_mock_diverged.

(* message Node { Node next = 1; repeated Node kids = 2; } and a response wrapping it *)
Definition ex_graph : graph := [ {| mn_edges := [(1, true)] |}; {| mn_edges := [(1, true); (1, false)] |} ].
Example C16_nonvacuous :
  wf_graph ex_graph /\ collect 3 ex_graph [] 0 = Some [1; 0] /\ mock_path 3 ex_graph [] 0 = Some 3 /\
  mock_assign 50 ex_graph 0 = None.
Proof.
  split; [|repeat split; vm_compute; reflexivity].
  intros n t b. destruct n as [|[|n]]; cbn; intros H.
  - destruct H as [H|[]]. inversion H. cbn. lia.
  - destruct H as [H|[H|[]]]; inversion H; cbn; lia.
  - destruct n; cbn in H; contradiction.
Qed.

From Sebuf Require Import Json.
(* Known finding mock-acyclic-path-blowup.  The path set makes the mock walk terminate (C16_mock_terminates) but not cheap: a message type
   reached through two fields is filled twice, with everything below it.  On the acyclic layered
   graph of width 2 and depth d (d+1 message types; theories/Traverse.v dag2) the walk — which
   terminates, within the fuel of C16_mock_terminates — emits exactly 2^(d+1) - 2 message-field
   assignments: "bounded" only by a bound exponential in the size of the request. *)
Theorem C16_mock_acyclic_exponential : forall d, exists k,
  mock_path (S (List.length (dag2 d))) (dag2 d) [] 0 = Some k /\ k + 2 = 2 ^ (S d).
Proof. exact mock_path_dag2. Qed.
Print Assumptions C16_mock_acyclic_exponential.

Theorem C16_mock_acyclic_at_least_2_pow_depth : forall d k, 1 <= d ->
  mock_path (S (List.length (dag2 d))) (dag2 d) [] 0 = Some k -> 2 ^ d <= k.
Proof. exact mock_path_dag2_exponential. Qed.
Print Assumptions C16_mock_acyclic_at_least_2_pow_depth.

(* ... whereas the visited-set walk of the other plugins touches each of the d+1 messages once *)
Example C16_guarded_linear_on_dag : collect 42 (dag2 40) [] 0 = Some (rev (seq 0 41)).
Proof. vm_compute. reflexivity. Qed.

(* the step-budgeted evaluation used by the correspondence check agrees with the walk below the
   budget and reports an overrun above it *)
Theorem C16_mock_cost_spec : forall lim g fuel path n k acc,
  mock_path fuel g path n = Some k ->
  ((acc + N.of_nat k <= lim)%N -> mock_cost fuel lim g path n acc = (acc + N.of_nat k)%N) /\
  ((lim < acc + N.of_nat k)%N -> (lim < mock_cost fuel lim g path n acc)%N).
Proof. exact mock_cost_spec. Qed.
Print Assumptions C16_mock_cost_spec.

(* refutation of "bounded time" for the tag: 25 message types, acyclic, and the walk is over the
   budget of 2^15 assignments (it would emit 2^25 - 2); depth 10 is within it *)
Example C16_refuted_mock_acyclic_path_blowup :
  wf_graph (dag2 24) /\ mock_over_budget (dag2 24) 0 = true /\ mock_over_budget (dag2 10) 0 = false /\
  predict_C16b (dag2 24, [0], true) =
    JObj [(s "tags", JArr [JStr (s "mock-acyclic-path-blowup")]); (s "mock_failure", JStr (s "budget"));
          (s "mock_walk_terminates", JBool false)].
Proof.
  unfold predict_C16b. cbn [existsb]. rewrite !mock_over_budget_dag2.
  split; [exact (dag2_wf 24)|]. repeat split; reflexivity.
Qed.
