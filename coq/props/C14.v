(* C14 — go-http and go-client emit interchangeable codec files.
   Model: Files.v (which files, and which types get a MarshalJSON/UnmarshalJSON pair from which emitter).
   The byte identity of same-named files is checked directly on the plugins' output on every run
   (family same-name-identical); the theorems below are about the file/method sets. *)
From Sebuf Require Import Text Schema Validate Files.
From SebufProofs Require Import FilesFacts.

(* Whenever the client plugin emits a codec file, the server plugin's file of that name (if it emits one) defines
   methods for the same types, in the same order: no defect hypothesis. *)
Theorem C14_same_name_same_codec : forall sc f c,
  client_contexts sc f c <> [] -> client_contexts sc f c = http_contexts sc f c.
Proof. exact C14_same_name_same_contexts_lemma. Qed.
Print Assumptions C14_same_name_same_codec.

(* Outside the two defect classes a package generated with the client plugin alone has a codec pair for exactly the
   (type, emitter) pairs the server package has one for. *)
Theorem C14_client_only_equiv : forall sc, defects_C14 sc = [] ->
  forall tn c, client_has sc tn c = server_has sc tn c.
Proof. exact C14_client_only_equiv_lemma. Qed.
Print Assumptions C14_client_only_equiv.

(* Generating both into one directory: the codec file found under each name lists the same types whichever plugin ran last. *)
Theorem C14_order_independent : forall sc, NoDup (map fl_path (gen_files sc)) ->
  forall n, dir_lookup n (directory [GoHttp; GoClient] sc) = dir_lookup n (directory [GoClient; GoHttp] sc).
Proof. exact C14_order_independent_lemma. Qed.
Print Assumptions C14_order_independent.

Theorem C14_refuted_client_no_unwrap : exists sc tn, go_http_accepts sc = None /\ go_client_accepts sc = None /\
  defects_C14 sc = [ClientNoUnwrap] /\ server_has sc tn CUnwrap = true /\ client_has sc tn CUnwrap = false /\
  emitted_go_http false sc = [(s "a.proto", SUnwrap); (s "a.proto", SHttp); (s "a.proto", SHttpBinding); (s "a.proto", SHttpConfig)] /\
  emitted_go_client sc = [(s "a.proto", SClient)].
Proof. exists w_unwrap, (s "p.AddrList"). vm_compute. repeat split; reflexivity. Qed.

Theorem C14_refuted_client_serviceless_no_int64_enum : exists sc, go_http_accepts sc = None /\ go_client_accepts sc = None /\
  defects_C14 sc = [ClientServicelessNoInt64Enum] /\
  server_has sc (s "p.Nums") CInt64 = true /\ client_has sc (s "p.Nums") CInt64 = false /\
  server_has sc (s "p.Status") CEnum = true /\ client_has sc (s "p.Status") CEnum = false.
Proof. exists w_serviceless. vm_compute. repeat split; reflexivity. Qed.

Example C14_nonvacuous :
  defects_C14 nv14 = [] /\ go_http_accepts nv14 = None /\
  emitted_go_client nv14 = [(s "a.proto", SNullable); (s "a.proto", STimestampFormat); (s "a.proto", SFlatten); (s "a.proto", SOneofDiscriminator);
                            (s "a.proto", SClient); (s "a.proto", SEncoding); (s "a.proto", SEnumEncoding)] /\
  emitted_go_http false nv14 = [(s "a.proto", SEncoding); (s "a.proto", SEnumEncoding); (s "a.proto", SNullable); (s "a.proto", STimestampFormat);
                                (s "a.proto", SFlatten); (s "a.proto", SOneofDiscriminator); (s "a.proto", SHttp); (s "a.proto", SHttpBinding); (s "a.proto", SHttpConfig)] /\
  client_has nv14 (s "p.Nums") CInt64 = true /\ client_has nv14 (s "p.Person.Inner") CNullable = true.
Proof. vm_compute. repeat split; reflexivity. Qed.

(* nested declarations: every collector walks the messages declared inside an annotated message too
   (the flat pre-order message list of a file holds them), on both sides, in the same order *)
Example C14_nested_declarations :
  forall f, In f (gen_files w_nested) ->
    client_contexts w_nested f CTimestamp = [s "p.Event"; s "p.Event.Occurrence"; s "p.Event.Occurrence.Detail"; s "p.Audit.Entry"] /\
    http_contexts w_nested f CTimestamp = client_contexts w_nested f CTimestamp /\
    context_types false w_nested f CTimestamp = [s "Event"; s "Event_Occurrence"; s "Event_Occurrence_Detail"; s "Audit_Entry"] /\
    context_types true w_nested f CTimestamp = context_types false w_nested f CTimestamp /\
    defects_C14 w_nested = [].
Proof. intros f [<-|[]]. vm_compute. repeat split; reflexivity. Qed.
