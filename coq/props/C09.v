(* C09 — requests are dispatched only when every required header is present and valid.
   Model: theories/Headers.v (Go gate, TS validation, published contract); lemmas: proofs/HeadersFacts.v.
   The Go side of the model is tied to the compiled server by harness/lib/c09.go on every run. *)
From Sebuf Require Import Text Num Schema Json Headers.
From SebufProofs Require Import HeadersFacts.

(* the handler runs only if every effective required header (Go merge) is present with a non-empty
   value the emitted validator accepts *)
Theorem C09_gate : forall svc mth rq body_verb body_ok,
  o_handler (go_serve svc mth rq body_verb body_ok) = true ->
  forall h, In h (go_effective svc mth) ->
    nonempty (go_value_of rq (h_name h)) = true /\
    go_value_ok (h_type h) (h_format h) (go_value_of rq (h_name h)) = true.
Proof. exact gate_go. Qed.
Print Assumptions C09_gate.

(* ... and, outside the accept-side defect classes, each such header is well-formed for its declared
   type and format (RFC 4122 / RFC 3339 / decimal literals; see Headers.wf_value) *)
Theorem C09_gate_wellformed : forall svc mth rq body_verb body_ok,
  o_handler (go_serve svc mth rq body_verb body_ok) = true -> accept_defects_C09 svc mth rq = [] ->
  forall h, In h (go_effective svc mth) ->
    exists v, hdr_get rq (h_name h) = Some v /\ nonempty v = true /\ wf_value (h_type h) (h_format h) v = true.
Proof. exact gate_wellformed. Qed.
Print Assumptions C09_gate_wellformed.

(* otherwise: 400, the violations are the offending effective headers (pairwise different names, so
   exactly one violation per offending header), the handler does not run, the body is not read *)
Theorem C09_400 : forall svc mth rq body_verb body_ok,
  go_offending svc mth rq <> [] ->
  let o := go_serve svc mth rq body_verb body_ok in
  o_status o = 400%Z /\ o_violations o = map h_name (go_offending svc mth rq) /\
  o_handler o = false /\ o_body_read o = false /\ distinct (go_offending svc mth rq) /\
  (forall h, In h (go_offending svc mth rq) <->
             In h (go_effective svc mth) /\
             (nonempty (go_value_of rq (h_name h)) = false \/
              go_value_ok (h_type h) (h_format h) (go_value_of rq (h_name h)) = false)).
Proof. exact reject_400. Qed.
Print Assumptions C09_400.

(* merge: per case-insensitive name the entry is the last required method-level declaration, else the
   last required service-level one; every effective entry is a required declaration *)
Theorem C09_override : forall n svc mth m,
  last_required n mth = Some m -> eff_find n (go_effective svc mth) = Some m.
Proof. intros n svc mth m H. now rewrite eff_find_effective, H. Qed.
Print Assumptions C09_override.
Theorem C09_service_kept : forall n svc mth,
  last_required n mth = None -> eff_find n (go_effective svc mth) = last_required n svc.
Proof. intros n svc mth H. now rewrite eff_find_effective, H. Qed.
Print Assumptions C09_service_kept.
Theorem C09_effective_required : forall h svc mth,
  In h (go_effective svc mth) -> In h (svc ++ mth) /\ h_required h = true.
Proof. exact in_effective. Qed.
Print Assumptions C09_effective_required.

(* a request that satisfies the published parameter list is not rejected for its headers by the Go
   server, outside the reject-side defect classes ... *)
Theorem C09_published_never_rejected : forall svc mth rq,
  forallb (fun h => nonempty (h_name h)) (svc ++ mth) = true ->
  reject_defects_C09 svc mth rq = [] -> published_request_ok svc mth rq = true ->
  go_offending svc mth rq = [].
Proof. exact published_passes_go. Qed.
Print Assumptions C09_published_never_rejected.
(* ... nor by the TS server, outside the TS classes *)
Theorem C09_published_never_rejected_ts : forall svc mth rq,
  defects_C09_ts svc mth rq = [] -> published_request_ok svc mth rq = true -> ts_violations svc mth rq = [].
Proof. exact published_passes_ts. Qed.
Print Assumptions C09_published_never_rejected_ts.
(* value level: the published grammars are inside the Go acceptors up to the reject classes, and the Go
   acceptors inside well-formedness up to the accept classes *)
Theorem C09_value_published_accepted : forall ty fmt v,
  published_ok ty fmt v = true -> value_reject_defects ty fmt v = [] ->
  nonempty v = true /\ go_value_ok ty fmt v = true.
Proof. exact reject_sound. Qed.
Print Assumptions C09_value_published_accepted.
Theorem C09_value_accepted_wellformed : forall ty fmt v,
  go_value_ok ty fmt v = true -> value_accept_defects ty fmt v = [] -> wf_value ty fmt v = true.
Proof. exact accept_sound. Qed.
Print Assumptions C09_value_accepted_wellformed.

Definition H (n t f : string) (r : bool) : header := {| h_name := s n; h_type := s t; h_required := r; h_format := s f |}.
Definition ex_svc := [H "X-Tenant" "string" "uuid" true; H "X-Opt" "integer" "" false; H "X-Both" "integer" "" true].
Definition ex_rq : hreq := [(s "x-tenant", s "123e4567-e89b-12d3-a456-426614174000"); (s "X-BOTH", s " 2024-02-29 ")].

(* hypotheses and conclusions of the theorems are inhabited by a non-trivial case: a method-level date
   replaces the service-level integer; the request satisfies the published list and is dispatched *)
Example C09_nonvacuous :
  let mth := [H "x-both" "string" "date" true] in
  c09_unmodelled ex_svc mth ex_rq = None /\ defects_C09 ex_svc mth ex_rq = [] /\ ts_violations ex_svc mth ex_rq = [s "X-Both"] /\
  published_request_ok ex_svc [H "X-Both" "string" "date" true] ex_rq = true /\
  o_handler (go_serve ex_svc mth ex_rq true true) = true /\
  map h_name (go_effective ex_svc mth) = [s "X-Tenant"; s "x-both"] /\
  o_violations (go_serve ex_svc mth [(s "X-Both", s "12")] true true) = [s "X-Tenant"; s "x-both"] /\
  o_body_read (go_serve ex_svc mth [(s "X-Both", s "12")] true true) = false.
Proof. vm_compute. repeat apply conj; reflexivity. Qed.

(* refutations: published-conforming requests the Go server answers with 400 *)
Definition refutes_reject (tag : c09_defect) (svc mth : list header) (rq : hreq) : Prop :=
  c09_unmodelled svc mth rq = None /\ reject_defects_C09 svc mth rq = [tag] /\
  published_request_ok svc mth rq = true /\ o_status (go_serve svc mth rq true true) = 400%Z.
Example C09_refuted_time_offset :
  refutes_reject DTimeOffset [] [H "X-At" "string" "time" true] [(s "X-At", s "12:00:00Z")].
Proof. vm_compute. repeat split; reflexivity. Qed.
Example C09_refuted_datetime_lowercase :
  refutes_reject DDatetimeLowerTZ [] [H "X-At" "" "date-time" true] [(s "X-At", s "2024-02-29t10:20:30z")].
Proof. vm_compute. repeat split; reflexivity. Qed.
Example C09_refuted_leap_second :
  refutes_reject DLeapSecond [] [H "X-At" "string" "date-time" true] [(s "X-At", s "2016-12-31T23:59:60Z")].
Proof. vm_compute. repeat split; reflexivity. Qed.
Example C09_refuted_integer_beyond_int64 :
  refutes_reject DIntegerBeyondInt64 [H "X-N" "integer" "" true] [] [(s "X-N", s "9223372036854775808")].
Proof. vm_compute. repeat split; reflexivity. Qed.
(* 10^400 >= 8^400 = 2^1200 >= 2^1024 > the threshold: no need to write the number out *)
Lemma pow10_400_overflows : (f64_overflow_threshold <=? 1 * 10 ^ 400)%Z = true.
Proof.
  apply Z.leb_le. rewrite Z.mul_1_l. apply Z.le_trans with (2 ^ 1024)%Z.
  - unfold f64_overflow_threshold. change 1024%Z with (54 + 970)%Z. rewrite Z.pow_add_r by discriminate.
    apply Z.mul_le_mono_nonneg_r; [apply Z.pow_nonneg; discriminate|]. apply Z.le_pred_l.
  - apply Z.le_trans with (8 ^ 400)%Z; [|apply Z.pow_le_mono_l; split; discriminate].
    change 8%Z with (2 ^ 3)%Z. rewrite <- Z.pow_mul_r by discriminate. apply Z.pow_le_mono_r; [reflexivity|discriminate].
Qed.
Example C09_refuted_number_overflow :
  refutes_reject DNumberOverflow [H "X-N" "number" "" true] [] [(s "X-N", s "1e400")].
Proof.
  unfold refutes_reject. lazy -[Z.leb Z.pow Z.mul f64_overflow_threshold]. rewrite pow10_400_overflows.
  lazy. repeat split; reflexivity.
Qed.
Example C09_refuted_empty_value :
  refutes_reject DEmptyValue [H "X-K" "string" "" true] [] [(s "X-K", [])].
Proof. vm_compute. repeat split; reflexivity. Qed.
Example C09_refuted_array_blank :
  refutes_reject DArrayBlank [H "X-L" "array" "" true] [] [(s "X-L", [ch 194; ch 160])].
Proof. vm_compute. repeat split; reflexivity. Qed.
Example C09_refuted_optional_override :
  refutes_reject DOptionalOverride ex_svc [H "X-Both" "string" "" false]
    [(s "X-Tenant", s "123e4567-e89b-12d3-a456-426614174000")].
Proof. vm_compute. repeat split; reflexivity. Qed.

(* refutations: malformed values with which the handler is reached *)
Definition refutes_accept (tag : c09_defect) (h : header) (v : str) : Prop :=
  c09_unmodelled [h] [] [(h_name h, v)] = None /\ accept_defects_C09 [h] [] [(h_name h, v)] = [tag] /\
  o_handler (go_serve [h] [] [(h_name h, v)] true true) = true /\ wf_value (h_type h) (h_format h) v = false.
Example C09_refuted_uuid_non_hex :
  refutes_accept GUuidNonHex (H "X-Id" "string" "uuid" true) (s "zzzzzzzz-zzzz-zzzz-zzzz-zzzzzzzzzzzz").
Proof. vm_compute. repeat split; reflexivity. Qed.
Example C09_refuted_datetime_lenient :
  refutes_accept GDatetimeLenient (H "X-At" "string" "date-time" true) (s "2024-02-29T1:20:30,5+24:60").
Proof. vm_compute. repeat split; reflexivity. Qed.
Example C09_refuted_time_lenient :
  refutes_accept GTimeLenient (H "X-At" "string" "time" true) (s "1:20:30,5").
Proof. vm_compute. repeat split; reflexivity. Qed.
Example C09_refuted_number_go_literal :
  refutes_accept GNumberGoLiteral (H "X-N" "number" "" true) (s "-Infinity").
Proof. vm_compute. repeat split; reflexivity. Qed.

(* refutations on the TS side (model of the emitted validators) *)
Definition refutes_ts (tag : c09_ts_defect) (svc mth : list header) (rq : hreq) : Prop :=
  defects_C09_ts svc mth rq = [tag] /\ published_request_ok svc mth rq = true /\ ts_violations svc mth rq <> [].
Example C09_refuted_ts_time_offset :
  refutes_ts TSTimeOffset [] [H "X-At" "string" "time" true] [(s "X-At", s "12:00:00Z")].
Proof. vm_compute. repeat split; try reflexivity; let E := fresh in intros E; discriminate E. Qed.
Example C09_refuted_ts_datetime_lowercase :
  refutes_ts TSDatetimeLowerTZ [] [H "X-At" "string" "date-time" true] [(s "X-At", s "2024-02-29t10:20:30Z")].
Proof. vm_compute. repeat split; try reflexivity; let E := fresh in intros E; discriminate E. Qed.
Example C09_refuted_ts_email_needs_dot :
  refutes_ts TSEmailNeedsDot [] [H "X-Mail" "string" "email" true] [(s "X-Mail", s "user@localhost")].
Proof. vm_compute. repeat split; try reflexivity; let E := fresh in intros E; discriminate E. Qed.
Example C09_refuted_ts_format_on_non_string :
  refutes_ts TSFormatOnNonString [] [H "X-N" "integer" "date" true] [(s "X-N", s "5")].
Proof. vm_compute. repeat split; try reflexivity; let E := fresh in intros E; discriminate E. Qed.
Example C09_refuted_ts_no_override :
  refutes_ts TSNoOverride [H "X-Both" "integer" "" true] [H "X-Both" "string" "date" true] [(s "X-Both", s "2024-02-29")].
Proof. vm_compute. repeat split; try reflexivity; let E := fresh in intros E; discriminate E. Qed.
