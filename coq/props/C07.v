(* C07 — Wire JSON and handler inputs inhabit the generated TypeScript types.
   Statements, each derived in a line from proofs/TsTypesFacts.v or proofs/TsTypesCodecs.v, Print Assumptions,
   and examples checked by computation.
   Model: theories/TsTypes.v (declarations both TS plugins emit, inhabitation, proto3-JSON of the plain fragment). *)
From Sebuf Require Import Text Json Schema Value Num TsTypes.
From SebufProofs Require Import TsTypesFacts.

(* the proto3-JSON form of every well-typed value in which each implicit-presence field of each reachable
   message is populated ([wt]) is a value of the TS type of its position, at any depth *)
Theorem C07_value_inhabits : forall sc e, env_ok sc e -> forall f k v j,
  wt f sc k v = true -> pj_val f sc k v = Ok j -> inhabits (S (S f)) e (vty k v) j = true.
Proof. exact val_inhabits. Qed.
Print Assumptions C07_value_inhabits.

(* responses and contract-form requests: a message value against the interface named after its message *)
Theorem C07_response_inhabits : forall sc e tn m j,
  env_ok sc e -> wt pj_fuel sc (KMessage tn) (FM m) = true -> pj_of_mval sc tn m = Ok j ->
  inhabits (S (S pj_fuel)) e (YRef (last_seg tn)) j = true.
Proof. intros sc e tn m j He. exact (val_inhabits sc e He pj_fuel (KMessage tn) (FM m) j). Qed.
Print Assumptions C07_response_inhabits.

(* [env_ok] is met by declaring every message and enum under its short name, as the generators do,
   whenever the short names are pairwise distinct (otherwise: C07_refuted_short_name_merge) *)
Theorem C07_declared_env_ok : forall sc,
  nodup_str (map fst (declared_env sc)) = true -> env_ok sc (declared_env sc).
Proof. exact declared_env_ok. Qed.
Print Assumptions C07_declared_env_ok.

(* in the plain fragment a field's declared type depends on its kind and cardinality only *)
Theorem C07_field_type_plain : forall sc f v,
  no_annot f = true -> is_timestamp (f_kind f) = false -> card_fits (f_card f) v = true ->
  match f_kind f with KMessage tn => find_unwrap_list sc tn = None | _ => True end ->
  field_ty sc f = vty (f_kind f) v.
Proof. exact field_ty_plain. Qed.
Print Assumptions C07_field_type_plain.

(* ts-client and ts-server print the declarations through the same functions (checked textually on the
   emitted modules by every run of the correspondence check) *)
Theorem C07_same_decls : forall sc fl, ts_client_decls sc fl = ts_server_decls sc fl.
Proof. reflexivity. Qed.
Print Assumptions C07_same_decls.

Definition mkf (n : str) (num : Z) (k : kind) (c : card) (o : option str) : field :=
  {| f_name := n; f_number := num; f_kind := k; f_card := c; f_oneof := o; f_query := None;
     f_unwrap := false; f_int64 := None; f_enumenc := None; f_nullable := None; f_empty := None;
     f_tsfmt := None; f_bytesenc := None; f_oneof_value := None; f_flatten := None; f_flatten_prefix := None |}.
Definition mkmsg (n : str) (path : list str) (fs : list field) (os : list oneof) : message :=
  {| m_name := n; m_path := path; m_fields := fs; m_oneofs := os |}.
Definition color : enum :=
  {| e_name := s "p.Color"; e_values := [ {| ev_name := s "COLOR_UNSPECIFIED"; ev_number := 0; ev_custom := None |};
                                          {| ev_name := s "COLOR_RED"; ev_number := 1; ev_custom := None |} ] |}.
Definition node_msg := mkmsg (s "p.Node") [s "Node"]
  [mkf (s "label") 1 KString Singular None; mkf (s "big_num") 2 KInt64 Singular None;
   mkf (s "kids") 3 (KMessage (s "p.Node")) Repeated None; mkf (s "parent") 4 (KMessage (s "p.Node")) Singular None] [].
Definition doc_msg := mkmsg (s "p.Doc") [s "Doc"]
  [mkf (s "id") 1 KString Singular None; mkf (s "count") 2 KInt32 Singular None; mkf (s "ok") 3 KBool Singular None;
   mkf (s "raw") 4 KBytes Singular None; mkf (s "color") 5 (KEnum (s "p.Color")) Singular None;
   mkf (s "root") 6 (KMessage (s "p.Node")) Singular None; mkf (s "tags") 7 KString Repeated None;
   mkf (s "by_key") 8 (KMessage (s "p.Node")) (MapOf KString) None; mkf (s "counts") 9 KInt64 (MapOf KInt32) None;
   mkf (s "opt_n") 10 KInt32 Optional None; mkf (s "colors") 11 (KEnum (s "p.Color")) Repeated None] [].
Definition echo_md : method :=
  {| md_name := s "EchoDoc"; md_in := s "p.Doc"; md_out := s "p.Doc"; md_has_cfg := true; md_path := s "/doc";
     md_verb := Some 2%nat; md_headers := [] |}.
Definition fl1 : file :=
  {| fl_path := s "a.proto"; fl_package := s "p"; fl_gopkg := s "p"; fl_generate := true;
     fl_messages := [doc_msg; node_msg]; fl_enums := [color];
     fl_services := [ {| sv_name := s "Docs"; sv_base := s "/api"; sv_headers := []; sv_methods := [echo_md] |} ] |}.
Definition sc1 : schema := [fl1].

Definition leaf (l : str) : fval := FM [(s "label", FS (VStr l)); (s "big_num", FS (VInt 9007199254740993)); (s "kids", FL [])].
Definition doc_val : mval :=
  [(s "id", FS (VStr (s "d1"))); (s "count", FS (VInt (-3))); (s "ok", FS (VBool true)); (s "raw", FS (VBytes [ch 251; ch 255]));
   (s "color", FS (VEnum 1));
   (s "root", FM [(s "label", FS (VStr (s "r"))); (s "big_num", FS (VInt 1)); (s "kids", FL [leaf (s "a"); leaf (s "b")]); (s "parent", leaf (s "p"))]);
   (s "tags", FL [FS (VStr (s "x")); FS (VStr [])]);
   (s "by_key", FMap [(VStr (s "k"), leaf (s "m"))]); (s "counts", FMap [(VInt 7, FS (VInt (-1)))]);
   (s "colors", FL [FS (VEnum 0)])].

(* the environment the theorem needs IS the one the modelled generators produce for this file *)
Example C07_nonvacuous :
  (exists ds, ts_decls sc1 fl1 = Ok ds /\ env_of ds = declared_env sc1) /\
  nodup_str (map fst (declared_env sc1)) = true /\
  wt pj_fuel sc1 (KMessage (s "p.Doc")) (FM doc_val) = true /\
  (exists j, pj_of_mval sc1 (s "p.Doc") doc_val = Ok j /\
             inhabits (S (S pj_fuel)) (declared_env sc1) (YRef (s "Doc")) j = true /\
             field_or_null (s "raw") j = JStr (s "+/8=") /\
             field_or_null (s "counts") j = JObj [(s "7", JStr (s "-1"))]).
Proof.
  split; [eexists; split; vm_compute; reflexivity|].
  split; [vm_compute; reflexivity|]. split; [vm_compute; reflexivity|].
  eexists. split; [vm_compute; reflexivity|]. split; [vm_compute; reflexivity|]. split; vm_compute; reflexivity.
Qed.

Definition inh (sc : schema) (fl : file) (t : tsty) (j : json) : bool :=
  match ts_decls sc fl with Ok ds => inhabits inhabit_fuel (env_of ds) t j | Unmodelled _ => false end.
Definition pj (sc : schema) (tn : str) (m : mval) : json :=
  match pj_of_mval sc tn m with Ok j => j | Unmodelled _ => JNull end.
Definition resp := s "inh-response".

(* {} is what the Go server writes for the default message; the interface demands every scalar property *)
Example C07_refuted_implicit_presence :
  defects_C07 sc1 fl1 resp (s "p.Doc") [] [] = [C07ImplicitPresenceOmitted] /\
  pj sc1 (s "p.Doc") [] = JObj [] /\ inh sc1 fl1 (YRef (s "Doc")) (JObj []) = false /\
  (* one omitted default is enough *)
  inh sc1 fl1 (YRef (s "Node")) (pj sc1 (s "p.Node") [(s "label", FS (VStr (s "x"))); (s "kids", FL [])]) = false.
Proof. vm_compute. repeat split; reflexivity. Qed.

(* an enum number without a name *)
Example C07_refuted_open_enum :
  defects_C07 sc1 fl1 resp (s "p.Doc") []
    (map (fun e => if str_eqb (fst e) (s "colors") then (s "colors", FL [FS (VEnum 99)]) else e) doc_val) = [C07OpenEnumNumber] /\
  inh sc1 fl1 (YRef (s "Color")) (JNum 99) = false /\ inh sc1 fl1 (YRef (s "Color")) (JStr (s "COLOR_RED")) = true.
Proof. vm_compute. repeat split; reflexivity. Qed.

(* NaN is written as the string "NaN" into a property typed number *)
Example C07_refuted_non_finite :
  inhabits 8 [] YNumber (JStr (s "NaN")) = false /\ nonfinite KDouble 9221120237041090560 = true.
Proof. vm_compute. split; reflexivity. Qed.

(* plain oneof: scalar members are required properties, at most one is on the wire *)
Definition pick_msg := mkmsg (s "p.Pick") [s "Pick"]
  [mkf (s "id") 1 KString Singular None; mkf (s "a_text") 2 KString Singular (Some (s "pick"));
   mkf (s "a_num") 3 KInt64 Singular (Some (s "pick")); mkf (s "a_node") 4 (KMessage (s "p.Node")) Singular (Some (s "pick"))]
  [ {| o_name := s "pick"; o_has_cfg := false; o_discriminator := []; o_flatten := false |} ].
Definition mk_echo (m : message) (extra : list message) (es : list enum) : file :=
  {| fl_path := s "a.proto"; fl_package := s "p"; fl_gopkg := s "p"; fl_generate := true;
     fl_messages := m :: extra; fl_enums := es;
     fl_services := [ {| sv_name := s "Svc"; sv_base := s "/api"; sv_headers := [];
                         sv_methods := [ {| md_name := s "Echo"; md_in := m_name m; md_out := m_name m; md_has_cfg := true;
                                            md_path := s "/e"; md_verb := Some 2%nat; md_headers := [] |} ] |} ] |}.
Definition fl_pick := mk_echo pick_msg [node_msg] [].
Definition pick_val : mval := [(s "id", FS (VStr (s "i"))); (s "a_text", FS (VStr (s "t")))].
Example C07_refuted_plain_oneof :
  defects_C07 [fl_pick] fl_pick resp (s "p.Pick") [] pick_val = [C07PlainOneofMemberRequired] /\
  inh [fl_pick] fl_pick (YRef (s "Pick")) (pj [fl_pick] (s "p.Pick") pick_val) = false /\
  (* the message member is optional: had the scalar members been optional too the value would inhabit *)
  inh [fl_pick] fl_pick (YRef (s "Pick")) (JObj [(s "id", JStr (s "i")); (s "aText", JStr (s "t")); (s "aNum", JStr (s "0"))]) = true.
Proof. vm_compute. repeat split; reflexivity. Qed.

(* non-flattened discriminated oneof: {id, type, text} on the wire, {id, payload?: {type, text?}} declared *)
Definition ev_msg := mkmsg (s "p.Event") [s "Event"]
  [mkf (s "id") 1 KString Singular None; mkf (s "text") 2 (KMessage (s "p.TextP")) Singular (Some (s "payload"));
   mkf (s "note") 3 KString Singular (Some (s "payload"))]
  [ {| o_name := s "payload"; o_has_cfg := true; o_discriminator := s "type"; o_flatten := false |} ].
Definition textp := mkmsg (s "p.TextP") [s "TextP"] [mkf (s "body") 1 KString Singular None] [].
Definition fl_ev := mk_echo ev_msg [textp] [].
Definition ev_val : mval := [(s "id", FS (VStr (s "i"))); (s "text", FM [(s "body", FS (VStr (s "b")))])].
Definition ev_wire := JObj [(s "id", JStr (s "i")); (s "type", JStr (s "text")); (s "text", JObj [(s "body", JStr (s "b"))])].
Example C07_refuted_disc_oneof_shape :
  defects_C07 [fl_ev] fl_ev resp (s "p.Event") [] ev_val = [C07DiscOneofShape] /\
  inh [fl_ev] fl_ev (YRef (s "Event")) ev_wire = false /\
  inh [fl_ev] fl_ev (YRef (s "Event"))
      (JObj [(s "id", JStr (s "i")); (s "payload", JObj [(s "type", JStr (s "text")); (s "text", JObj [(s "body", JStr (s "b"))])])]) = true.
Proof. vm_compute. repeat split; reflexivity. Qed.

(* flattened discriminated oneof with no member set: Base & (A | B) demands a discriminator *)
Definition fev_msg := mkmsg (s "p.FlatEvent") [s "FlatEvent"]
  [mkf (s "id") 1 KString Singular None; mkf (s "text") 2 (KMessage (s "p.TextP")) Singular (Some (s "payload"))]
  [ {| o_name := s "payload"; o_has_cfg := true; o_discriminator := s "kind"; o_flatten := true |} ].
Definition fl_fev := mk_echo fev_msg [textp] [].
Example C07_refuted_flat_oneof_unset :
  defects_C07 [fl_fev] fl_fev resp (s "p.FlatEvent") [] [(s "id", FS (VStr (s "i")))] = [C07FlatOneofUnset] /\
  inh [fl_fev] fl_fev (YRef (s "FlatEvent")) (JObj [(s "id", JStr (s "i"))]) = false /\
  inh [fl_fev] fl_fev (YRef (s "FlatEvent")) (JObj [(s "id", JStr (s "i")); (s "kind", JStr (s "text")); (s "body", JStr (s "b"))]) = true.
Proof. vm_compute. repeat split; reflexivity. Qed.

(* Outer.Item and Other.Item: two interfaces named Item merge *)
Definition outer := mkmsg (s "p.Outer") [s "Outer"]
  [mkf (s "item") 1 (KMessage (s "p.Outer.Item")) Singular None; mkf (s "other") 2 (KMessage (s "p.Other.Item")) Singular None] [].
Definition item1 := mkmsg (s "p.Outer.Item") [s "Outer"; s "Item"] [mkf (s "a") 1 KString Singular None] [].
Definition item2 := mkmsg (s "p.Other.Item") [s "Other"; s "Item"] [mkf (s "b") 1 KInt32 Singular None] [].
Definition fl_nest := mk_echo outer [item1; item2] [].
Definition outer_val : mval := [(s "item", FM [(s "a", FS (VStr (s "x")))]); (s "other", FM [(s "b", FS (VInt 7))])].
Example C07_refuted_short_name_merge :
  defects_C07 [fl_nest] fl_nest resp (s "p.Outer") [] outer_val = [C07ShortNameMerge] /\
  inh [fl_nest] fl_nest (YRef (s "Outer")) (pj [fl_nest] (s "p.Outer") outer_val) = false /\
  (exists ds, ts_decls [fl_nest] fl_nest = Ok ds /\
     lookup (env_of ds) (s "Item") = Some (YObject [(s "a", (false, YString)); (s "b", (false, YNumber))])).
Proof. vm_compute. repeat split; try reflexivity. eexists. split; reflexivity. Qed.

(* enum_encoding = NUMBER and enum_value: the Go server writes the proto names *)
Definition lvl : enum :=
  {| e_name := s "p.Lvl"; e_values := [ {| ev_name := s "LVL_UNSPECIFIED"; ev_number := 0; ev_custom := None |};
                                        {| ev_name := s "LVL_HI"; ev_number := 1; ev_custom := Some (s "hi") |} ] |}.
Definition with_enum := mkmsg (s "p.WithEnum") [s "WithEnum"]
  [ {| f_name := s "level"; f_number := 1; f_kind := KEnum (s "p.Lvl"); f_card := Singular; f_oneof := None; f_query := None;
       f_unwrap := false; f_int64 := None; f_enumenc := Some EENumber; f_nullable := None; f_empty := None; f_tsfmt := None;
       f_bytesenc := None; f_oneof_value := None; f_flatten := None; f_flatten_prefix := None |};
    mkf (s "plain_level") 2 (KEnum (s "p.Lvl")) Singular None ] [].
Definition fl_enum := mk_echo with_enum [] [lvl].
Definition enum_val : mval := [(s "level", FS (VEnum 1)); (s "plain_level", FS (VEnum 1))].
Example C07_refuted_enum_number :
  In C07EnumNumberNotApplied (defects_C07 [fl_enum] fl_enum resp (s "p.WithEnum") [] enum_val) /\
  inh [fl_enum] fl_enum (YRef (s "WithEnum")) (JObj [(s "level", JStr (s "LVL_HI")); (s "plainLevel", JStr (s "hi"))]) = false /\
  inh [fl_enum] fl_enum (YRef (s "WithEnum")) (JObj [(s "level", JNum 1); (s "plainLevel", JStr (s "hi"))]) = true.
Proof. vm_compute. repeat split; try reflexivity; auto. Qed.
Example C07_refuted_enum_custom :
  In C07EnumCustomNotApplied (defects_C07 [fl_enum] fl_enum resp (s "p.WithEnum") [] enum_val) /\
  inh [fl_enum] fl_enum (YRef (s "WithEnum")) (JObj [(s "level", JNum 1); (s "plainLevel", JStr (s "LVL_HI"))]) = false.
Proof. vm_compute. repeat split; try reflexivity; auto. Qed.

(* int64 NUMBER below another message: typed number, written as a string by the parent's protojson *)
Definition nums := mkmsg (s "p.Nums") [s "Nums"]
  [ {| f_name := s "a"; f_number := 1; f_kind := KInt64; f_card := Singular; f_oneof := None; f_query := None;
       f_unwrap := false; f_int64 := Some I64Number; f_enumenc := None; f_nullable := None; f_empty := None; f_tsfmt := None;
       f_bytesenc := None; f_oneof_value := None; f_flatten := None; f_flatten_prefix := None |} ] [].
Definition holder := mkmsg (s "p.Holder") [s "Holder"] [mkf (s "nums") 1 (KMessage (s "p.Nums")) Singular None] [].
Definition fl_hold := mk_echo holder [nums] [].
Example C07_refuted_nested_codec :
  defects_C07 [fl_hold] fl_hold resp (s "p.Holder") [] [(s "nums", FM [(s "a", FS (VInt 5))])] = [C07NestedCodecNotApplied] /\
  inh [fl_hold] fl_hold (YRef (s "Holder")) (JObj [(s "nums", JObj [(s "a", JStr (s "5"))])]) = false /\
  inh [fl_hold] fl_hold (YRef (s "Holder")) (JObj [(s "nums", JObj [(s "a", JNum 5)])]) = true.
Proof. vm_compute. repeat split; reflexivity. Qed.

(* root unwrap: the request interface is an object, the accepted body the bare array; an empty response is null *)
Definition bar := mkmsg (s "p.Bar") [s "Bar"] [mkf (s "sym") 1 KString Singular None] [].
Definition rootlist := mkmsg (s "p.RootList") [s "RootList"]
  [ {| f_name := s "items"; f_number := 1; f_kind := KMessage (s "p.Bar"); f_card := Repeated; f_oneof := None; f_query := None;
       f_unwrap := true; f_int64 := None; f_enumenc := None; f_nullable := None; f_empty := None; f_tsfmt := None;
       f_bytesenc := None; f_oneof_value := None; f_flatten := None; f_flatten_prefix := None |} ] [].
Definition fl_root := mk_echo rootlist [bar] [].
Definition res_ty (sc : schema) (tn : str) : tsty := match result_ty sc tn with Ok t => t | Unmodelled _ => YNull end.
Example C07_refuted_root_unwrap_request :
  defects_C07 [fl_root] fl_root (s "inh-request") (s "p.RootList") [] [(s "items", FL [FM [(s "sym", FS (VStr (s "x")))]])]
    = [C07RootUnwrapRequest] /\
  res_ty [fl_root] (s "p.RootList") = YArray (YRef (s "Bar")) /\
  inh [fl_root] fl_root (YRef (s "RootList")) (JArr [JObj [(s "sym", JStr (s "x"))]]) = false /\
  inh [fl_root] fl_root (res_ty [fl_root] (s "p.RootList")) (JArr [JObj [(s "sym", JStr (s "x"))]]) = true.
Proof. vm_compute. repeat split; reflexivity. Qed.
(* only a SCALAR root list / map without elements is written as null; a message list gives [] *)
Definition rootstrs := mkmsg (s "p.RootStrs") [s "RootStrs"]
  [ {| f_name := s "items"; f_number := 1; f_kind := KString; f_card := Repeated; f_oneof := None; f_query := None;
       f_unwrap := true; f_int64 := None; f_enumenc := None; f_nullable := None; f_empty := None; f_tsfmt := None;
       f_bytesenc := None; f_oneof_value := None; f_flatten := None; f_flatten_prefix := None |} ] [].
Definition fl_rootstrs := mk_echo rootstrs [] [].
Example C07_refuted_root_unwrap_null :
  defects_C07 [fl_rootstrs] fl_rootstrs resp (s "p.RootStrs") [] [] = [C07RootUnwrapNull] /\
  inh [fl_rootstrs] fl_rootstrs (res_ty [fl_rootstrs] (s "p.RootStrs")) JNull = false /\
  defects_C07 [fl_root] fl_root resp (s "p.RootList") [] [] = [] /\
  inh [fl_root] fl_root (res_ty [fl_root] (s "p.RootList")) (JArr []) = true.
Proof. vm_compute. repeat split; reflexivity. Qed.

(* a 64-bit sibling of an unwrap map is written as a JSON number *)
Definition barlist := mkmsg (s "p.BarList") [s "BarList"]
  [ {| f_name := s "bars"; f_number := 1; f_kind := KMessage (s "p.Bar"); f_card := Repeated; f_oneof := None; f_query := None;
       f_unwrap := true; f_int64 := None; f_enumenc := None; f_nullable := None; f_empty := None; f_tsfmt := None;
       f_bytesenc := None; f_oneof_value := None; f_flatten := None; f_flatten_prefix := None |} ] [].
Definition mapvalue := mkmsg (s "p.MapValue") [s "MapValue"]
  [mkf (s "series") 1 (KMessage (s "p.BarList")) (MapOf KString) None; mkf (s "total_count") 2 KInt64 Singular None] [].
Definition fl_mv := mk_echo mapvalue [barlist; bar] [].
Example C07_refuted_unwrap_sibling :
  defects_C07 [fl_mv] fl_mv resp (s "p.MapValue") [] [(s "series", FMap []); (s "total_count", FS (VInt 5))] = [C07UnwrapSiblingInt64] /\
  inh [fl_mv] fl_mv (YRef (s "MapValue")) (JObj [(s "series", JObj [(s "k", JArr [])]); (s "totalCount", JNum 5)]) = false /\
  inh [fl_mv] fl_mv (YRef (s "MapValue")) (JObj [(s "series", JObj [(s "k", JArr [])]); (s "totalCount", JStr (s "5"))]) = true.
Proof. vm_compute. repeat split; reflexivity. Qed.

(* flatten: the child's properties are required although the child may be unset; when set, the Go encoder
   writes it with encoding/json (snake_case keys, numbers) *)
Definition detail := mkmsg (s "p.Detail") [s "Detail"] [mkf (s "body_text") 1 KString Singular None; mkf (s "big_count") 2 KInt64 Singular None] [].
Definition post := mkmsg (s "p.Post") [s "Post"]
  [mkf (s "id") 1 KString Singular None;
   {| f_name := s "detail"; f_number := 2; f_kind := KMessage (s "p.Detail"); f_card := Singular; f_oneof := None; f_query := None;
      f_unwrap := false; f_int64 := None; f_enumenc := None; f_nullable := None; f_empty := None; f_tsfmt := None;
      f_bytesenc := None; f_oneof_value := None; f_flatten := Some true; f_flatten_prefix := None |} ] [].
Definition fl_post := mk_echo post [detail] [].
Example C07_refuted_flatten_child_absent :
  defects_C07 [fl_post] fl_post resp (s "p.Post") [] [(s "id", FS (VStr (s "i")))] = [C07FlattenChildAbsent] /\
  inh [fl_post] fl_post (YRef (s "Post")) (JObj [(s "id", JStr (s "i"))]) = false.
Proof. vm_compute. split; reflexivity. Qed.
Example C07_refuted_flatten_go_json :
  defects_C07 [fl_post] fl_post resp (s "p.Post") []
     [(s "id", FS (VStr (s "i"))); (s "detail", FM [(s "body_text", FS (VStr (s "t"))); (s "big_count", FS (VInt 5))])]
    = [C07FlattenChildGoJson] /\
  inh [fl_post] fl_post (YRef (s "Post")) (JObj [(s "id", JStr (s "i")); (s "body_text", JStr (s "t")); (s "big_count", JNum 5)]) = false /\
  inh [fl_post] fl_post (YRef (s "Post")) (JObj [(s "id", JStr (s "i")); (s "bodyText", JStr (s "t")); (s "bigCount", JStr (s "5"))]) = true.
Proof. vm_compute. repeat split; reflexivity. Qed.

(* empty_behavior = NULL writes null into `nul?: Meta` *)
Definition meta := mkmsg (s "p.Meta") [s "Meta"] [mkf (s "k") 1 KString Singular None] [].
Definition emp := mkmsg (s "p.Emp") [s "Emp"]
  [ {| f_name := s "nul"; f_number := 1; f_kind := KMessage (s "p.Meta"); f_card := Singular; f_oneof := None; f_query := None;
       f_unwrap := false; f_int64 := None; f_enumenc := None; f_nullable := None; f_empty := Some EBNull; f_tsfmt := None;
       f_bytesenc := None; f_oneof_value := None; f_flatten := None; f_flatten_prefix := None |} ] [].
Definition fl_emp := mk_echo emp [meta] [].
Example C07_refuted_empty_null :
  defects_C07 [fl_emp] fl_emp resp (s "p.Emp") [] [(s "nul", FM [])] = [C07EmptyBehaviorNull; C07ImplicitPresenceOmitted] /\
  inh [fl_emp] fl_emp (YRef (s "Emp")) (JObj [(s "nul", JNull)]) = false /\
  inh [fl_emp] fl_emp (YRef (s "Emp")) (JObj []) = true.
Proof. vm_compute. repeat split; reflexivity. Qed.

(* the TS server hands "12" to a handler whose request type says `num: number` *)
Definition numreq := mkmsg (s "p.NumReq") [s "NumReq"] [mkf (s "num") 1 KInt32 Singular None] [].
Definition fl_num := mk_echo numreq [] [].
Example C07_refuted_path_param_string :
  defects_C07 [fl_num] fl_num (s "inh-handler-arg") (s "p.NumReq") [s "num"] [(s "num", FS (VInt 12))] = [C07PathParamString] /\
  inh [fl_num] fl_num (YRef (s "NumReq")) (JObj [(s "num", JStr (s "12"))]) = false /\
  inh [fl_num] fl_num (YRef (s "NumReq")) (JObj [(s "num", JNum 12)]) = true.
Proof. vm_compute. repeat split; reflexivity. Qed.
From SebufProofs Require TsTypesCodecs.

(* ANNOTATED top-level messages: the JSON the Go server sends (Codec.encode) for a message whose MarshalJSON
   is one of the field codecs inhabits the declared interface, for every well-typed value outside defects_C07.
     e                  : the declarations (TsTypesCodecs.env_okp: every message with a standard interface and every
                          enum declared as the generators declare it; implied by env_ok; = env_of (ts_decls ..) in
                          TsTypesCodecs.tsx_env_real)
     top_field_ok       : no field of the message is an unwrap field or carries enum_encoding = NUMBER
     ProtoJsonFacts.wt  : the value is well-typed in the sense of C04 / C05
     top_entry_ok c     : every field value is a singular Timestamp, or a value of the plain fragment of C07_value_inhabits
                          (TsTypesFacts.wt with fuel c: fully populated, un-annotated children)
     c, d               : fuel of the children's typing, fuel to spare; inhabit_fuel = 64 = 4 + c + d *)
Theorem C07_response_inhabits_field_codec : forall E sc fl e tn md ft m j c d,
  TsTypesCodecs.env_okp sc e ->
  ProtoJson.lookup_message sc tn = Some md -> Codec.owner_of sc md = Codec.Own ft -> CodecCompose.field_codec_ft ft = true ->
  forallb TsTypesCodecs.top_field_ok (m_fields md) = true ->
  ProtoJsonFacts.wt sc (KMessage tn) (FM m) = true ->
  forallb (fun en => match find_field (m_fields md) (fst en) with
                     | Some f => TsTypesCodecs.top_entry_ok c sc f (snd en)
                     | None => false end) m = true ->
  defects_C07 sc fl (s "inh-response") tn [] m = [] ->
  Codec.encode E sc tn m = CodecText.ROk j ->
  inhabits (S (S (S (S (c + d))))) e (YRef (last_seg tn)) j = true.
Proof. exact TsTypesCodecs.field_codec_response_inhabits. Qed.
Print Assumptions C07_response_inhabits_field_codec.

Theorem C07_response_inhabits_nullable : forall E sc fl e tn md m j c d,
  TsTypesCodecs.env_okp sc e ->
  ProtoJson.lookup_message sc tn = Some md -> Codec.owner_of sc md = Codec.Own Codec.FtNullable ->
  forallb TsTypesCodecs.top_field_ok (m_fields md) = true ->
  ProtoJsonFacts.wt sc (KMessage tn) (FM m) = true ->
  forallb (fun en => match find_field (m_fields md) (fst en) with
                     | Some f => TsTypesCodecs.top_entry_ok c sc f (snd en)
                     | None => false end) m = true ->
  defects_C07 sc fl (s "inh-response") tn [] m = [] ->
  Codec.encode E sc tn m = CodecText.ROk j ->
  inhabits (S (S (S (S (c + d))))) e (YRef (last_seg tn)) j = true.
Proof. intros. eapply C07_response_inhabits_field_codec; eauto. Qed.
Print Assumptions C07_response_inhabits_nullable.

Theorem C07_response_inhabits_int64 : forall E sc fl e tn md m j c d,
  TsTypesCodecs.env_okp sc e ->
  ProtoJson.lookup_message sc tn = Some md -> Codec.owner_of sc md = Codec.Own Codec.FtInt64 ->
  forallb TsTypesCodecs.top_field_ok (m_fields md) = true ->
  ProtoJsonFacts.wt sc (KMessage tn) (FM m) = true ->
  forallb (fun en => match find_field (m_fields md) (fst en) with
                     | Some f => TsTypesCodecs.top_entry_ok c sc f (snd en)
                     | None => false end) m = true ->
  defects_C07 sc fl (s "inh-response") tn [] m = [] ->
  Codec.encode E sc tn m = CodecText.ROk j ->
  inhabits (S (S (S (S (c + d))))) e (YRef (last_seg tn)) j = true.
Proof. intros. eapply C07_response_inhabits_field_codec; eauto. Qed.
Print Assumptions C07_response_inhabits_int64.

Theorem C07_response_inhabits_bytes : forall E sc fl e tn md m j c d,
  TsTypesCodecs.env_okp sc e ->
  ProtoJson.lookup_message sc tn = Some md -> Codec.owner_of sc md = Codec.Own Codec.FtBytes ->
  forallb TsTypesCodecs.top_field_ok (m_fields md) = true ->
  ProtoJsonFacts.wt sc (KMessage tn) (FM m) = true ->
  forallb (fun en => match find_field (m_fields md) (fst en) with
                     | Some f => TsTypesCodecs.top_entry_ok c sc f (snd en)
                     | None => false end) m = true ->
  defects_C07 sc fl (s "inh-response") tn [] m = [] ->
  Codec.encode E sc tn m = CodecText.ROk j ->
  inhabits (S (S (S (S (c + d))))) e (YRef (last_seg tn)) j = true.
Proof. intros. eapply C07_response_inhabits_field_codec; eauto. Qed.
Print Assumptions C07_response_inhabits_bytes.

Theorem C07_response_inhabits_timestamp : forall E sc fl e tn md m j c d,
  TsTypesCodecs.env_okp sc e ->
  ProtoJson.lookup_message sc tn = Some md -> Codec.owner_of sc md = Codec.Own Codec.FtTs ->
  forallb TsTypesCodecs.top_field_ok (m_fields md) = true ->
  ProtoJsonFacts.wt sc (KMessage tn) (FM m) = true ->
  forallb (fun en => match find_field (m_fields md) (fst en) with
                     | Some f => TsTypesCodecs.top_entry_ok c sc f (snd en)
                     | None => false end) m = true ->
  defects_C07 sc fl (s "inh-response") tn [] m = [] ->
  Codec.encode E sc tn m = CodecText.ROk j ->
  inhabits (S (S (S (S (c + d))))) e (YRef (last_seg tn)) j = true.
Proof. intros. eapply C07_response_inhabits_field_codec; eauto. Qed.
Print Assumptions C07_response_inhabits_timestamp.

Theorem C07_response_inhabits_empty : forall E sc fl e tn md m j c d,
  TsTypesCodecs.env_okp sc e ->
  ProtoJson.lookup_message sc tn = Some md -> Codec.owner_of sc md = Codec.Own Codec.FtEmpty ->
  forallb TsTypesCodecs.top_field_ok (m_fields md) = true ->
  ProtoJsonFacts.wt sc (KMessage tn) (FM m) = true ->
  forallb (fun en => match find_field (m_fields md) (fst en) with
                     | Some f => TsTypesCodecs.top_entry_ok c sc f (snd en)
                     | None => false end) m = true ->
  defects_C07 sc fl (s "inh-response") tn [] m = [] ->
  Codec.encode E sc tn m = CodecText.ROk j ->
  inhabits (S (S (S (S (c + d))))) e (YRef (last_seg tn)) j = true.
Proof. intros. eapply C07_response_inhabits_field_codec; eauto. Qed.
Print Assumptions C07_response_inhabits_empty.

(* the protojson form of a child (what the parent's encoder writes), with fuel to spare *)
Theorem C07_protojson_value_inhabits : forall E sc e, TsTypesCodecs.env_okp sc e -> forall f d k v j,
  wt f sc k v = true -> ProtoJson.pj_fval E sc k v = CodecText.ROk j -> inhabits (S (S (f + d))) e (vty k v) j = true.
Proof. exact TsTypesCodecs.pj_fval_inhabits. Qed.
Print Assumptions C07_protojson_value_inhabits.

Theorem C07_env_ok_okp : forall sc e, env_ok sc e -> TsTypesCodecs.env_okp sc e.
Proof. exact TsTypesCodecs.env_ok_okp. Qed.
Print Assumptions C07_env_ok_okp.
