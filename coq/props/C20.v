(* C20 — the optional mock server builds and answers with examples (theories/Mock.v).
   [rpc_walks sc ex ft = Some ws]: the model followed every response type (no well-known type other
   than Timestamp; recursive types are fine since 7d8903f: the walk carries the set of message types
   being filled and leaves a field of such a type unset); ws pairs each RPC with the assignments the generator prints for it,
   their build obligations, and per response leaf the SET of values the random selectors can return. *)
From Sebuf Require Import Text Json Schema Num Emit Mock.
From SebufProofs Require Import EmitFacts MockFacts.

(* Outside the defect classes the mock file type-checks together with the rest of the package
   (go-http + go-client output): every printed assignment `v.F = <selector>` has the type of F. *)
Theorem C20_builds : forall sc ex ft ws,
  accepted sc = true -> rpc_walks sc ex ft = Some ws -> defects_C20 sc ws = [] -> mock_builds sc ws = true.
Proof. exact mock_builds_lemma. Qed.
Print Assumptions C20_builds.

(* ... and a response field that declares examples can only take one of them, parsed to its type
   (strconv.ParseInt / ParseBool as modelled in Num.v; ParseFloat through the table [ft]); the set
   of values it can take is never empty. *)
Theorem C20_examples_used : forall sc ex ft ws,
  rpc_walks sc ex ft = Some ws -> mock_tags ws = [] ->
  forall rpc w l, In (rpc, w) ws -> In l (w_leaves w) -> lf_decl l <> [] ->
  lf_values l <> [] /\ forall v, In v (lf_values l) -> exists e, In e (lf_decl l) /\ parse_as ft (lf_kind l) e = Some v.
Proof. exact examples_used_lemma. Qed.
Print Assumptions C20_examples_used.

(* The guarded walk (7d8903f) finishes on EVERY closed schema, recursive or not, within depth
   |messages|+1: the path of message types being filled is duplicate-free and drawn from the schema. *)
Theorem C20_guarded_walk_terminates : forall sc fl ex ft, closed sc ->
  forall fuel path m p, In m (all_messages sc) -> NoDup path -> incl path (msg_names sc) -> ~ In (m_name m) path ->
    List.length (msg_names sc) < fuel + List.length path ->
    mock_walk fuel sc fl ex ft path m p <> None.
Proof. exact mock_walk_terminates. Qed.
Print Assumptions C20_guarded_walk_terminates.
Theorem C20_rpc_walk_terminates : forall sc ex ft fl md m,
  closed sc -> output_msg sc md = Some m -> rpc_walk sc ex ft fl md <> None.
Proof. exact rpc_walk_terminates. Qed.
Print Assumptions C20_rpc_walk_terminates.

(* recursive responses: the mock builds, fills the scalar fields and leaves every field whose type is
   being filled unset (singular, optional, repeated) or its map empty *)
Example C20_self_recursive_response :
  case_defects self_recursive_case = Some [] /\ case_builds self_recursive_case = Some true /\
  case_present self_recursive_case = Some [] /\
  case_leaf self_recursive_case "v" = Some [s "a"; s "b"] /\ case_leaf self_recursive_case "n" = Some [s "42"] /\
  case_leaf self_recursive_case "next.v" = None /\ case_leaf self_recursive_case "by[sample_key].v" = None.
Proof. vm_compute. repeat split; reflexivity. Qed.
Example C20_mutually_recursive_response :
  case_defects mutual_case = Some [] /\ case_builds mutual_case = Some true /\
  case_present mutual_case = Some [s "b"; s "b.c"] /\
  case_leaf mutual_case "b.n" = Some [s "42"] /\ case_leaf mutual_case "b.c.ok" = Some [s "true"] /\
  case_leaf mutual_case "b.a.title" = None.
Proof. vm_compute. repeat split; reflexivity. Qed.

(* What the mock prints for an RPC depends on the file and the response type only: RPCs of one service
   or of several services of the file that answer with the same message get the same assignments,
   obligations, value sets and defect tags. *)
Theorem C20_same_response_same_walk : forall sc ex ft fl md1 md2,
  md_out md1 = md_out md2 -> rpc_walk sc ex ft fl md1 = rpc_walk sc ex ft fl md2.
Proof. intros sc ex ft fl md1 md2. unfold rpc_walk, output_msg. intros ->. reflexivity. Qed.
Print Assumptions C20_same_response_same_walk.
(* three services in one file sharing response messages (User: four RPCs in three services): the mock
   builds with the rest of the package and every RPC answers with the declared examples *)
Example C20_services_sharing_a_response :
  let '(sc, _, _) := shared_response_case in accepted sc = true /\
  case_defects shared_response_case = Some [] /\ case_builds shared_response_case = Some true /\
  option_map (@List.length _) (case_walks shared_response_case) = Some 8 /\
  case_rpc_leaf shared_response_case "UserService.GetUser" "name" = Some [s "Ann"; s "Bob"] /\
  case_rpc_leaf shared_response_case "UserService.FindUser" "name" = Some [s "Ann"; s "Bob"] /\
  case_rpc_leaf shared_response_case "AdminService.LookupUser" "name" = Some [s "Ann"; s "Bob"] /\
  case_rpc_leaf shared_response_case "AuditService.LastUser" "age" = Some [s "42"] /\
  case_rpc_leaf shared_response_case "AdminService.Stat" "user.name" = Some [s "Ann"; s "Bob"] /\
  case_rpc_leaf shared_response_case "AuditService.Audit" "by[sample_key].name" = Some [s "Ann"; s "Bob"].
Proof. vm_compute. repeat split; reflexivity. Qed.

Example C20_nonvacuous :
  let '(sc, _, _) := good_mock in accepted sc = true /\
  case_defects good_mock = Some [] /\ case_builds good_mock = Some true /\
  case_leaf good_mock "title" = Some [s "first"; s "second"] /\
  case_leaf good_mock "count" = Some [s "-3"; s "7"] /\
  case_leaf good_mock "ok" = Some [s "false"; s "true"] /\
  case_leaf good_mock "ratio" = Some [s "1.5"] /\
  case_leaf good_mock "inner.label" = Some [s "alpha"] /\
  case_leaf good_mock "by_key[sample_key].hits" = Some [s "42"] /\
  case_leaf good_mock "counts[1]" = Some [s "42"].
Proof. vm_compute. repeat split; reflexivity. Qed.

(* refutations: the mock does not build ... *)
Theorem C20_refuted_mock_narrow_number : exists c, build_refuted c "mock-narrow-number".
Proof. eexists. exact w_mock_narrow_int32. Qed.
Theorem C20_refuted_mock_narrow_number_float : exists c, build_refuted c "mock-narrow-number".
Proof. eexists. exact w_mock_narrow_float. Qed.
Theorem C20_refuted_mock_timestamp_nanos : exists c, build_refuted c "mock-timestamp-nanos".
Proof. eexists. exact w_mock_timestamp. Qed.
Theorem C20_refuted_mock_optional_scalar : exists c, build_refuted c "mock-optional-scalar".
Proof. eexists. exact w_mock_optional. Qed.
Theorem C20_refuted_mock_repeated_scalar : exists c, build_refuted c "mock-repeated-scalar".
Proof. eexists. exact w_mock_repeated. Qed.
Theorem C20_refuted_mock_oneof_member : exists c, build_refuted c "mock-oneof-member".
Proof. eexists. exact w_mock_oneof. Qed.
Theorem C20_refuted_mock_map_value_kind : exists c, build_refuted c "mock-map-value-kind".
Proof. eexists. exact w_mock_map_enum. Qed.
(* ... or builds and answers with something else than the declared examples *)
Theorem C20_refuted_mock_examples_not_found :
  case_defects nested_case = Some [s "mock-examples-not-found"] /\ case_builds nested_case = Some true /\
  case_leaf nested_case "inner.label" = Some [s "example string"].
Proof. vm_compute. repeat split; reflexivity. Qed.
Theorem C20_refuted_mock_examples_of_homonym :
  case_defects homonym_case = Some [s "mock-examples-of-homonym"] /\ case_builds homonym_case = Some true /\
  case_leaf homonym_case "inner.label" = Some [s "top1"; s "top2"].
Proof. vm_compute. repeat split; reflexivity. Qed.
Theorem C20_refuted_mock_unparsable_example :
  case_defects unparsable_case = Some [s "mock-unparsable-example"] /\ case_builds unparsable_case = Some true /\
  case_leaf unparsable_case "count" = Some [s "12"; s "42"].
Proof. vm_compute. repeat split; reflexivity. Qed.
Theorem C20_refuted_mock_examples_ignored_kind :
  case_defects ignored_case = Some [s "mock-examples-ignored-kind"] /\ case_builds ignored_case = Some true /\
  case_leaf ignored_case "u" = None.
Proof. vm_compute. repeat split; reflexivity. Qed.
