(* C08 — Generated TypeScript clients and servers interoperate with the Go ones.
   Statements and Print Assumptions; the proofs are in proofs/TsRtFacts.v and proofs/TsRtBodiless.v (a two-line
   one stands here); examples checked by computation.
   Model: theories/TsRt.v (TS client, TS server, JS built-ins) over theories/GoRt.v (Go client, Go server). *)
From Sebuf Require Import Text Json Route Schema Value Num Url GoRt TsRt.
From SebufProofs Require Import TextFacts UrlFacts GoRtFacts TsRtFacts.

(* The four escapers / unescapers that meet in a cross-language call. *)

(* decodeURIComponent (TS server) undoes encodeURIComponent (TS client) on every well-formed UTF-8 string *)
Theorem C08_decode_encode_uri : forall x, utf8_valid x = true ->
  decode_uri_component (encode_uri_component x) = Some x.
Proof. exact decode_encode_uri. Qed.
Print Assumptions C08_decode_encode_uri.

(* ... and throws (never invents a value) on the others *)
Theorem C08_decode_encode_uri_invalid : forall x, utf8_valid x = false ->
  decode_uri_component (encode_uri_component x) = None.
Proof. intros x H. now rewrite (decode_codec _ encode_uri_codec), H. Qed.
Print Assumptions C08_decode_encode_uri_invalid.

(* decodeURIComponent (TS server) undoes Go's url.PathEscape (Go client) *)
Theorem C08_decode_path_escape : forall x, utf8_valid x = true ->
  decode_uri_component (path_escape x) = Some x.
Proof. exact decode_path_escape. Qed.
Print Assumptions C08_decode_path_escape.

(* Go's path unescaping (Go server) undoes encodeURIComponent (TS client), for every byte string *)
Theorem C08_path_unescape_encode_uri : forall x, path_unescape (encode_uri_component x) = Some x.
Proof. exact (codec_unescape _ encode_uri_codec). Qed.
Print Assumptions C08_path_unescape_encode_uri.

Theorem C08_encode_uri_no_slash : forall x, In slash (encode_uri_component x) -> False.
Proof. exact encode_uri_no_slash. Qed.
Print Assumptions C08_encode_uri_no_slash.

Theorem C08_encode_uri_nil_iff : forall x, encode_uri_component x = [] <-> x = [].
Proof. exact (escape_nil_iff false uri_unreserved). Qed.
Print Assumptions C08_encode_uri_nil_iff.

(* url.ParseQuery (Go server) reads URLSearchParams.toString() (TS client) back, pair for pair *)
Theorem C08_parse_query_form_encode : forall kv, parse_query (form_encode kv) = kv.
Proof. exact parse_query_form_encode. Qed.
Print Assumptions C08_parse_query_form_encode.

(* URLSearchParams (TS server) reads its own serializer and Go's url.Values.Encode back *)
Theorem C08_form_parse_form_encode : forall kv, form_parse (form_encode kv) = kv.
Proof. exact form_parse_form_encode. Qed.
Print Assumptions C08_form_parse_form_encode.

Theorem C08_form_parse_encode_query : forall kv, form_parse (encode_query kv) = sort_kv kv.
Proof. exact form_parse_encode_query. Qed.
Print Assumptions C08_form_parse_encode_query.

(* the URL parser removes a segment only when it percent-decodes to "." or ".." ... *)
Theorem C08_dot_segment_decodes_dirty : forall y, dotty y = true ->
  exists d, path_unescape y = Some d /\ dirty_seg d = true.
Proof. exact dotty_unescape. Qed.
Print Assumptions C08_dot_segment_decodes_dirty.

(* ... so an escaped value other than "." and ".." survives it, under either client's escaping *)
Theorem C08_encode_uri_not_dot : forall x, dirty_seg x = false -> dotty (encode_uri_component x) = false.
Proof. exact (dotty_codec _ encode_uri_codec). Qed.
Print Assumptions C08_encode_uri_not_dot.

Theorem C08_path_escape_not_dot : forall x, dirty_seg x = false -> dotty (path_escape x) = false.
Proof. exact (dotty_codec _ path_escape_codec). Qed.
Print Assumptions C08_path_escape_not_dot.

Theorem C08_whatwg_identity : forall segs,
  forallb (fun x => negb (dotty x)) segs = true -> whatwg_segs segs = segs.
Proof. exact whatwg_segs_id. Qed.
Print Assumptions C08_whatwg_identity.

(* the option whose name is derived from a declared header sets that header ... *)
Theorem C08_header_helper : forall derive declared h,
  In h declared -> In h (helper_sets derive declared (derive h)).
Proof. intros derive declared h H. unfold helper_sets. apply filter_In. split; [exact H|apply str_eqb_refl]. Qed.
Print Assumptions C08_header_helper.

(* ... and no other header, when the derivation separates the declared names *)
Theorem C08_header_helper_exact : forall derive declared h,
  In h declared -> NoDup declared ->
  (forall a b, In a declared -> In b declared -> derive a = derive b -> a = b) ->
  helper_sets derive declared (derive h) = [h].
Proof. exact header_helper_exact. Qed.
Print Assumptions C08_header_helper_exact.

(* Go (one helper per function name, emitted for the first header deriving it): exact when the function
   names of the declared headers are pairwise distinct *)
Theorem C08_go_header_helper_exact : forall declared h,
  In h declared ->
  (forall a b, In a declared -> In b declared -> go_header_func a = go_header_func b -> a = b) ->
  go_helper_sets declared (go_header_func h) = [h].
Proof. exact go_helper_exact. Qed.
Print Assumptions C08_go_header_helper_exact.

(* both derivations separate the names "X-<token without dash>" (TS: up to letter case, as HTTP does) *)
Theorem C08_go_helper_injective : forall t1 t2, ~ In "-"%char t1 -> ~ In "-"%char t2 ->
  go_header_func (s "X-" ++ t1) = go_header_func (s "X-" ++ t2) -> t1 = t2.
Proof. intros t1 t2 H1 H2. now rewrite !go_header_func_simple. Qed.
Print Assumptions C08_go_helper_injective.

Theorem C08_ts_helper_injective : forall t1 t2, ~ In "-"%char t1 -> ~ In "-"%char t2 ->
  ts_header_prop (s "X-" ++ t1) = ts_header_prop (s "X-" ++ t2) -> lower_str t1 = lower_str t2.
Proof. intros t1 t2 H1 H2. now rewrite !ts_header_prop_simple. Qed.
Print Assumptions C08_ts_helper_injective.

(* outside that class distinct headers share an option name *)
Example C08_go_helper_collisions :
  go_header_func (s "X-A-B") = go_header_func (s "X-AB") /\
  go_header_func (s "X-Trace") = go_header_func (s "Trace") /\
  go_header_func (s "Api-Key") = go_header_func (s "X-ApiKey") /\
  (* the second of two colliding headers silently gets no helper of its own: the helper named after it sets the first *)
  go_helper_sets [s "X-Api-Key"; s "Api-Key"] (go_header_func (s "Api-Key")) = [s "X-Api-Key"].
Proof. vm_compute. repeat split; reflexivity. Qed.

Example C08_ts_helper_collisions :
  ts_header_prop (s "X-Trace") = ts_header_prop (s "Trace") /\
  ts_header_prop (s "X-A-1b") = ts_header_prop (s "X-A1b") /\
  ts_header_prop (s "X-A--B") = ts_header_prop (s "X-A-B") /\
  ts_header_prop (s "X-Ab") <> ts_header_prop (s "X-A-B") /\
  (* one TS option then sets both headers *)
  helper_sets ts_header_prop [s "X-Trace"; s "Trace"] (ts_header_prop (s "Trace")) = [s "X-Trace"; s "Trace"].
Proof. vm_compute. repeat split; try reflexivity. discriminate. Qed.

(* TS client -> Go server. *)

(* POST / PUT / PATCH *)
Theorem C08_ts_go : forall sc fl sv md req resp w o,
  ts_go_call sc fl sv md req resp = Ok (w, o) ->
  defects_C08 TsGo sc fl sv md req = [] ->
  In md (sv_methods sv) ->
  wf_body sc fl sv md req = true ->
  ts_template_ok (info_of fl sv md (in_fields sc md)) = true ->
  o = ODelivered (md_name md) (tsobj_of_mval req) resp.
Proof. exact ts_go_body. Qed.
Print Assumptions C08_ts_go.

(* GET / DELETE *)
Theorem C08_ts_go_bodyless : forall sc fl sv md req resp w o,
  ts_go_call sc fl sv md req resp = Ok (w, o) ->
  defects_C08 TsGo sc fl sv md req = [] ->
  In md (sv_methods sv) ->
  wf_nobody sc fl sv md req = true ->
  ts_template_ok (info_of fl sv md (in_fields sc md)) = true ->
  exists saw, o = ODelivered (md_name md) (tsobj_of_mval saw) resp /\
              forall f, In f (in_fields sc md) -> scalar_of saw f = scalar_of req f.
Proof. exact ts_go_nobody. Qed.
Print Assumptions C08_ts_go_bodyless.

(* the TS client's request is served by the Go server exactly as the Go client's request for the same call *)
Theorem C08_ts_go_as_go_go : forall sc fl sv md req resp w o,
  ts_go_call sc fl sv md req resp = Ok (w, o) ->
  defects_C08 TsGo sc fl sv md req = [] ->
  In md (sv_methods sv) -> NoDup (map md_name (sv_methods sv)) ->
  ts_template_ok (info_of fl sv md (in_fields sc md)) = true ->
  path_vals_nonempty (in_fields sc md) req (path_vars (info_of fl sv md (in_fields sc md))) = true ->
  exists wg og, go_call sc fl sv md CtJSON req resp = Ok (wg, og) /\
                defects_C01 sc fl sv md CtJSON req = [] /\ lifts md o og.
Proof. exact ts_go_reduce. Qed.
Print Assumptions C08_ts_go_as_go_go.

(* TS client -> TS server and Go client -> TS server, POST / PUT / PATCH.
   [path_value_ok]: the path variable's field is found, prints to a non-empty UTF-8 string, and the canonical
   reading of that string in the field's kind is the field's entry (true for string and 64-bit fields, see
   C08_path_value_ok_string / _int64; false for the other kinds: C08_refuted_path_param_string).
   _partial: the body verbs only; GET/DELETE (query parsing through Number(), === "true", ?? "") are
   C08_ts_ts_bodiless / C08_go_ts_bodiless further down. *)
Theorem C08_ts_ts_partial : forall sc fl sv md req hs resp w o,
  ts_ts_call sc fl sv md hs req resp = Ok (w, o) ->
  defects_C08 TsTs sc fl sv md req = [] ->
  In md (sv_methods sv) -> NoDup (map md_name (sv_methods sv)) ->
  verb_has_body (eff_verb (info_of fl sv md (in_fields sc md))) = true ->
  template_ok (info_of fl sv md (in_fields sc md)) = true ->
  ts_template_ok (info_of fl sv md (in_fields sc md)) = true ->
  hdr_violation (sv_headers sv ++ md_headers md) hs = Ok None ->
  (forall v, In v (path_vars (info_of fl sv md (in_fields sc md))) -> path_value_ok sc md req v) ->
  exists saw, o = ODelivered (md_name md) saw resp /\ forall k, tget saw k = tget (tsobj_of_mval req) k.
Proof. exact ts_ts_body. Qed.
Print Assumptions C08_ts_ts_partial.

Theorem C08_go_ts_partial : forall sc fl sv md req hs resp w o,
  go_ts_call sc fl sv md hs req resp = Ok (w, o) ->
  defects_C08 GoTs sc fl sv md req = [] ->
  In md (sv_methods sv) -> NoDup (map md_name (sv_methods sv)) ->
  verb_has_body (eff_verb (info_of fl sv md (in_fields sc md))) = true ->
  template_ok (info_of fl sv md (in_fields sc md)) = true ->
  ts_template_ok (info_of fl sv md (in_fields sc md)) = true ->
  hdr_violation (sv_headers sv ++ md_headers md) hs = Ok None ->
  (forall v, In v (path_vars (info_of fl sv md (in_fields sc md))) -> path_value_ok sc md req v) ->
  exists saw, o = ODelivered (md_name md) saw resp /\ forall k, tget saw k = tget (tsobj_of_mval req) k.
Proof. exact go_ts_body. Qed.
Print Assumptions C08_go_ts_partial.

(* the TS server alone: a request made of the route's own template, with each variable escaped by a function
   that decodeURIComponent inverts, reaches that route's handler with the body's object and the decoded values *)
Theorem C08_ts_server_body : forall sc fl sv md req hs (E : str -> str),
  (forall x, E x = [] -> x = []) ->
  (forall x, utf8_valid x = true -> decode_uri_component (E x) = Some x) ->
  (forall x, ~ In slash (E x)) ->
  forall tw segs,
  In md (sv_methods sv) -> NoDup (map md_name (sv_methods sv)) ->
  tsegs (client_path (info_of fl sv md (in_fields sc md))) = Some segs ->
  seg_vars segs = path_vars (info_of fl sv md (in_fields sc md)) ->
  (forall x, In (SLit x) segs -> ~ In slash x) ->
  verb_has_body (eff_verb (info_of fl sv md (in_fields sc md))) = true ->
  tw_verb tw = eff_verb (info_of fl sv md (in_fields sc md)) ->
  tw_path tw = slash :: join_with [slash] (map (efill (in_fields sc md) req E) segs) ->
  tw_body tw = Some (BJson, req) ->
  (forall v, In v (path_vars (info_of fl sv md (in_fields sc md))) -> path_value_ok sc md req v) ->
  hdr_violation (sv_headers sv ++ md_headers md) hs = Ok None ->
  (forall n, ts_dispatched sc fl sv tw = Some n -> n = md_name md) ->
  forall o, ts_server_handle sc fl sv tw hs = Ok o ->
  exists saw, o = TsDelivered (md_name md) saw /\ forall k, tget saw k = tget (tsobj_of_mval req) k.
Proof. exact ts_server_body. Qed.
Print Assumptions C08_ts_server_body.

Theorem C08_path_value_ok_string : forall sc md req v f x,
  find_field (in_fields sc md) v = Some f -> f_kind f = KString -> mget req (f_name f) = Some (FS (VStr x)) ->
  x <> [] -> utf8_valid x = true -> path_value_ok sc md req v.
Proof. exact path_value_ok_string. Qed.
Print Assumptions C08_path_value_ok_string.

Theorem C08_path_value_ok_int64 : forall sc md req v f z,
  find_field (in_fields sc md) v = Some f -> f_kind f = KInt64 -> mget req (f_name f) = Some (FS (VInt z)) ->
  z <> 0%Z -> (- 2 ^ 63 <= z < 2 ^ 63)%Z -> path_value_ok sc md req v.
Proof. exact path_value_ok_int64. Qed.
Print Assumptions C08_path_value_ok_int64.

Definition mkf (n : str) (num : Z) (k : kind) (q : option query_cfg) : field :=
  {| f_name := n; f_number := num; f_kind := k; f_card := Singular; f_oneof := None; f_query := q;
     f_unwrap := false; f_int64 := None; f_enumenc := None; f_nullable := None; f_empty := None;
     f_tsfmt := None; f_bytesenc := None; f_oneof_value := None; f_flatten := None;
     f_flatten_prefix := None |}.
Definition mkmsg (n : str) (fs : list field) : message :=
  {| m_name := n; m_path := [n]; m_fields := fs; m_oneofs := [] |}.
Definition mkmd (n inp path : str) (v : nat) : method :=
  {| md_name := n; md_in := inp; md_out := s "Resp"; md_has_cfg := true; md_path := path;
     md_verb := Some v; md_headers := [] |}.
Definition mksv (base : str) (mds : list method) : service :=
  {| sv_name := s "Items"; sv_base := base; sv_headers := []; sv_methods := mds |}.
Definition mkfl (ms : list message) (sv : service) : file :=
  {| fl_path := s "a.proto"; fl_package := s "pkg"; fl_gopkg := s "pkg"; fl_generate := true;
     fl_messages := ms; fl_enums := []; fl_services := [sv] |}.
Definition qc (n : str) (req : bool) := Some {| q_name := n; q_required := req |}.

(* PUT /api/items/{id}/sub/{n}  (string and int64 path variables),  GET /api/find?page=..&q=..,
   GET /api/n/{num} (int32 path variable), GET /api/items/special next to GET /api/items/{id} *)
Definition put_md := mkmd (s "PutItem") (s "PutReq") (s "/items/{id}/sub/{n}") 3.
Definition find_md := mkmd (s "Find") (s "FindReq") (s "/find") 1.
Definition num_md := mkmd (s "GetNum") (s "NumReq") (s "/n/{num}") 1.
Definition get_md := mkmd (s "GetItem") (s "GetReq") (s "/items/{id}") 1.
Definition special_md := mkmd (s "GetSpecial") (s "Empty") (s "/items/special") 1.
Definition put_msg := mkmsg (s "PutReq")
  [mkf (s "id") 1 KString None; mkf (s "n") 2 KInt64 None; mkf (s "note") 3 KString None].
Definition find_msg := mkmsg (s "FindReq")
  [mkf (s "page") 1 KInt32 (qc (s "page") false); mkf (s "q") 2 KString (qc (s "q") true);
   mkf (s "big") 3 KInt64 (qc (s "big") false)].
Definition num_msg := mkmsg (s "NumReq") [mkf (s "num") 1 KInt32 None].
Definition get_msg := mkmsg (s "GetReq") [mkf (s "id") 1 KString None].
Definition sv1 := mksv (s "/api") [put_md; find_md; num_md; get_md; special_md].
Definition fl1 := mkfl [put_msg; find_msg; num_msg; get_msg; mkmsg (s "Empty") []; mkmsg (s "Resp") []] sv1.
Definition sc1 : schema := [fl1].
Definition resp1 : mval := [(s "ok", FS (VBool true))].
Definition put_req : mval :=
  [(s "id", FS (VStr (s "a b/c%"))); (s "n", FS (VInt (-5))); (s "note", FS (VStr (s "x")))].
Definition find_req : mval := [(s "page", FS (VInt 7)); (s "q", FS (VStr (s "x y&z=1"))); (s "big", FS (VInt 9))].

Definition outcome_of (x : result (wire_req * c08_outcome)) : option c08_outcome :=
  match x with Ok (_, o) => Some o | Unmodelled _ => None end.

Example C08_ts_go_nonvacuous :
  wf_body sc1 fl1 sv1 put_md put_req = true /\
  ts_template_ok (info_of fl1 sv1 put_md (in_fields sc1 put_md)) = true /\
  defects_C08 TsGo sc1 fl1 sv1 put_md put_req = [] /\
  In put_md (sv_methods sv1) /\
  exists w, ts_go_call sc1 fl1 sv1 put_md put_req resp1
              = Ok (w, ODelivered (s "PutItem") (tsobj_of_mval put_req) resp1) /\
            w_path w = s "/api/items/a%20b%2Fc%25/sub/-5".
Proof.
  vm_compute. split; [reflexivity|]. split; [reflexivity|]. split; [reflexivity|]. split; [left; reflexivity|].
  eexists. split; reflexivity.
Qed.

Example C08_ts_go_bodyless_nonvacuous :
  wf_nobody sc1 fl1 sv1 find_md find_req = true /\
  defects_C08 TsGo sc1 fl1 sv1 find_md find_req = [] /\
  exists w, ts_go_call sc1 fl1 sv1 find_md find_req resp1
              = Ok (w, ODelivered (s "Find") (tsobj_of_mval find_req) resp1) /\
            w_query w = [(s "page", s "7"); (s "q", s "x y&z=1"); (s "big", s "9")].
Proof. vm_compute. split; [reflexivity|]. split; [reflexivity|]. eexists. split; reflexivity. Qed.

(* all three pairs deliver the PUT (string + 64-bit path variables) *)
Example C08_three_pairs_deliver :
  outcome_of (go_ts_call sc1 fl1 sv1 put_md [] put_req resp1) = Some (ODelivered (s "PutItem")
     [(s "note", TsV (FS (VStr (s "x")))); (s "id", TsV (FS (VStr (s "a b/c%")))); (s "n", TsV (FS (VInt (-5))))] resp1) /\
  outcome_of (ts_ts_call sc1 fl1 sv1 put_md [] put_req resp1) = outcome_of (go_ts_call sc1 fl1 sv1 put_md [] put_req resp1) /\
  defects_C08 GoTs sc1 fl1 sv1 put_md put_req = [] /\ defects_C08 TsTs sc1 fl1 sv1 put_md put_req = [].
Proof. vm_compute. repeat split; reflexivity. Qed.

(* the hypotheses of C08_ts_ts_partial / C08_go_ts_partial hold for the PUT with a string and a 64-bit path variable *)
Example C08_to_ts_nonvacuous :
  defects_C08 TsTs sc1 fl1 sv1 put_md put_req = [] /\ defects_C08 GoTs sc1 fl1 sv1 put_md put_req = [] /\
  template_ok (info_of fl1 sv1 put_md (in_fields sc1 put_md)) = true /\
  ts_template_ok (info_of fl1 sv1 put_md (in_fields sc1 put_md)) = true /\
  hdr_violation (sv_headers sv1 ++ md_headers put_md) [] = Ok None /\
  path_vars (info_of fl1 sv1 put_md (in_fields sc1 put_md)) = [s "id"; s "n"].
Proof. vm_compute. repeat split; reflexivity. Qed.

Example C08_to_ts_nonvacuous_values :
  path_value_ok sc1 put_md put_req (s "id") /\ path_value_ok sc1 put_md put_req (s "n").
Proof.
  split.
  - apply (path_value_ok_string sc1 put_md put_req (s "id") (mkf (s "id") 1 KString None) (s "a b/c%"));
      try reflexivity. discriminate.
  - apply (path_value_ok_int64 sc1 put_md put_req (s "n") (mkf (s "n") 2 KInt64 None) (-5)%Z);
      try reflexivity; [discriminate|]. split; [discriminate|reflexivity].
Qed.

(* a bodyless route with path variables and query parameters (repaired by 5089e92: before it the TS server
   module declared `const url` twice and did not load): all three pairs now serve the route *)
Definition bad_md := mkmd (s "List") (s "ListReq") (s "/t/{tenant}/items") 1.
Definition bad_msg := mkmsg (s "ListReq") [mkf (s "tenant") 1 KString None; mkf (s "limit") 2 KInt32 (qc (s "limit") false)].
Definition sv_bad := mksv (s "/api") [bad_md; put_md].
Definition fl_bad := mkfl [bad_msg; put_msg; mkmsg (s "Resp") []] sv_bad.
Definition bad_req : mval := [(s "tenant", FS (VStr (s "acme"))); (s "limit", FS (VInt 5))].
Example C08_path_and_query_route_served :
  ts_server_loads [fl_bad] fl_bad = true /\
  defects_C08 TsTs [fl_bad] fl_bad sv_bad bad_md bad_req = [] /\
  outcome_of (ts_ts_call [fl_bad] fl_bad sv_bad bad_md [] bad_req resp1)
    = Some (ODelivered (s "List") [(s "limit", TsV (FS (VInt 5))); (s "tenant", TsV (FS (VStr (s "acme"))))] resp1) /\
  outcome_of (go_ts_call [fl_bad] fl_bad sv_bad bad_md [] bad_req resp1)
    = outcome_of (ts_ts_call [fl_bad] fl_bad sv_bad bad_md [] bad_req resp1) /\
  outcome_of (ts_go_call [fl_bad] fl_bad sv_bad bad_md bad_req resp1)
    = Some (ODelivered (s "List") (tsobj_of_mval bad_req) resp1).
Proof. vm_compute. repeat split; reflexivity. Qed.

(* an int32 path parameter reaches the TS handler as the string "12" in a property typed number *)
Definition num_req : mval := [(s "num", FS (VInt 12))].
Example C08_refuted_path_param_string :
  defects_C08 GoTs sc1 fl1 sv1 num_md num_req = [C08PathParamString] /\
  outcome_of (go_ts_call sc1 fl1 sv1 num_md [] num_req resp1)
    = Some (ODelivered (s "GetNum") [(s "num", TsRaw (JStr (s "12")))] resp1) /\
  outcome_of (ts_ts_call sc1 fl1 sv1 num_md [] num_req resp1)
    = Some (ODelivered (s "GetNum") [(s "num", TsRaw (JStr (s "12")))] resp1) /\
  (* the Go server converts it *)
  outcome_of (ts_go_call sc1 fl1 sv1 num_md num_req resp1)
    = Some (ODelivered (s "GetNum") (tsobj_of_mval num_req) resp1).
Proof. vm_compute. repeat split; reflexivity. Qed.

(* a 64-bit query parameter holding 0 is elided by the client and becomes "" in the TS handler *)
Definition find_req0 : mval := [(s "page", FS (VInt 7)); (s "q", FS (VStr (s "x")))].
Example C08_refuted_int64_query_absent :
  defects_C08 TsTs sc1 fl1 sv1 find_md find_req0 = [C08Int64QueryAbsent] /\
  outcome_of (ts_ts_call sc1 fl1 sv1 find_md [] find_req0 resp1)
    = Some (ODelivered (s "Find") [(s "page", TsV (FS (VInt 7))); (s "q", TsV (FS (VStr (s "x"))));
                                   (s "big", TsRaw (JStr []))] resp1).
Proof. vm_compute. repeat split; reflexivity. Qed.

(* a required query parameter at its zero value is not sent; the Go server refuses, the TS server does not check *)
Definition find_req_noq : mval := [(s "page", FS (VInt 7)); (s "big", FS (VInt 9))].
Example C08_refuted_required_query_zero :
  defects_C08 TsGo sc1 fl1 sv1 find_md find_req_noq = [C08RequiredQueryZeroElided] /\
  outcome_of (ts_go_call sc1 fl1 sv1 find_md find_req_noq resp1) = Some (ORejected (s "q")) /\
  defects_C08 TsTs sc1 fl1 sv1 find_md find_req_noq = [] /\
  outcome_of (ts_ts_call sc1 fl1 sv1 find_md [] find_req_noq resp1)
    = Some (ODelivered (s "Find") [(s "page", TsV (FS (VInt 7))); (s "big", TsV (FS (VInt 9)))] resp1).
Proof. vm_compute. repeat split; reflexivity. Qed.

(* a path value ".." is removed by the URL parser before any server sees it *)
Definition put_req_dots : mval := [(s "id", FS (VStr (s ".."))); (s "n", FS (VInt 1))].
Example C08_refuted_dot_segment :
  defects_C08 TsGo sc1 fl1 sv1 put_md put_req_dots = [C08DotSegment] /\
  outcome_of (ts_go_call sc1 fl1 sv1 put_md put_req_dots resp1) = Some ONotRouted /\
  outcome_of (ts_ts_call sc1 fl1 sv1 put_md [] put_req_dots resp1) = Some ONotRouted /\
  outcome_of (go_ts_call sc1 fl1 sv1 put_md [] put_req_dots resp1) = Some ONotRouted /\
  (exists w o, ts_go_call sc1 fl1 sv1 put_md put_req_dots resp1 = Ok (w, o) /\ w_path w = s "/api/sub/1").
Proof. vm_compute. repeat split; try reflexivity. eexists. eexists. split; reflexivity. Qed.

(* "/" travels as %2F: a trailing slash for ServeMux, a value for the TS server *)
Definition put_req_slash : mval := [(s "id", FS (VStr (s "/"))); (s "n", FS (VInt 1))].
Example C08_refuted_slash_value :
  defects_C08 TsGo sc1 fl1 sv1 put_md put_req_slash = [C08SlashValue] /\
  outcome_of (ts_go_call sc1 fl1 sv1 put_md put_req_slash resp1) = Some ONotRouted /\
  defects_C08 TsTs sc1 fl1 sv1 put_md put_req_slash = [] /\
  outcome_of (ts_ts_call sc1 fl1 sv1 put_md [] put_req_slash resp1)
    = Some (ODelivered (s "PutItem") [(s "id", TsV (FS (VStr (s "/")))); (s "n", TsV (FS (VInt 1)))] resp1).
Proof. vm_compute. repeat split; reflexivity. Qed.

(* no configured path: TS client and Go server use different defaults (C03) *)
Definition def_md : method :=
  {| md_name := s "CreateUser"; md_in := s "PutReq"; md_out := s "Resp"; md_has_cfg := false; md_path := [];
     md_verb := None; md_headers := [] |}.
Definition sv_def := mksv [] [def_md].
Definition fl_def := mkfl [put_msg; mkmsg (s "Resp") []] sv_def.
Example C08_refuted_default_path :
  defects_C08 TsGo [fl_def] fl_def sv_def def_md put_req = [C08Route DefaultPath] /\
  outcome_of (ts_go_call [fl_def] fl_def sv_def def_md put_req resp1) = Some ONotRouted /\
  defects_C08 TsTs [fl_def] fl_def sv_def def_md put_req = [] /\
  outcome_of (ts_ts_call [fl_def] fl_def sv_def def_md [] put_req resp1)
    = Some (ODelivered (s "CreateUser") (tsobj_of_mval put_req) resp1).
Proof. vm_compute. repeat split; reflexivity. Qed.

(* a required query parameter on a body verb is never put on the URL by the TS client *)
Definition upd_md := mkmd (s "Update") (s "UpdReq") (s "/items/{id}") 3.
Definition upd_msg := mkmsg (s "UpdReq") [mkf (s "id") 1 KString None; mkf (s "mode") 2 KString (qc (s "mode") true)].
Definition sv_upd := mksv (s "/api") [upd_md].
Definition fl_upd := mkfl [upd_msg; mkmsg (s "Resp") []] sv_upd.
Definition upd_req : mval := [(s "id", FS (VStr (s "a"))); (s "mode", FS (VStr (s "m")))].
Example C08_refuted_required_query :
  defects_C08 TsGo [fl_upd] fl_upd sv_upd upd_md upd_req = [C08RequiredQueryOnBodyVerb] /\
  outcome_of (ts_go_call [fl_upd] fl_upd sv_upd upd_md upd_req resp1) = Some (ORejected (s "mode")) /\
  outcome_of (ts_ts_call [fl_upd] fl_upd sv_upd upd_md [] upd_req resp1)
    = Some (ODelivered (s "Update") [(s "mode", TsV (FS (VStr (s "m")))); (s "id", TsV (FS (VStr (s "a"))))] resp1).
Proof. vm_compute. repeat split; reflexivity. Qed.

(* GET /items/{id} with id = "special" is served by the sibling GET /items/special on both servers *)
Definition get_req_special : mval := [(s "id", FS (VStr (s "special")))].
Example C08_refuted_sibling :
  defects_C08 TsGo sc1 fl1 sv1 get_md get_req_special = [C08SiblingRoute] /\
  outcome_of (ts_go_call sc1 fl1 sv1 get_md get_req_special resp1) = Some (ODelivered (s "GetSpecial") [] resp1) /\
  defects_C08 TsTs sc1 fl1 sv1 get_md get_req_special = [C08SiblingRoute] /\
  outcome_of (ts_ts_call sc1 fl1 sv1 get_md [] get_req_special resp1) = Some (ODelivered (s "GetSpecial") [] resp1).
Proof. vm_compute. repeat split; reflexivity. Qed.

(* the TS server facing requests no generated client sends: Number("abc") is NaN (no 400), the query string
   of a body verb is never read, a malformed escape in the path is a 500 *)
Definition tw (v : verb) (p q : str) (b : option mval) : ts_wire :=
  {| tw_verb := v; tw_path := p; tw_query := q; tw_body := match b with Some m => Some (BJson, m) | None => None end |}.
Definition upd_opt_msg := mkmsg (s "UpdReq") [mkf (s "id") 1 KString None; mkf (s "mode") 2 KString (qc (s "mode") false)].
Definition fl_upd2 := mkfl [upd_opt_msg; mkmsg (s "Resp") []] sv_upd.
Example C08_ts_server_raw_behaviour :
  ts_server_handle sc1 fl1 sv1 (tw GET (s "/api/find") (s "page=abc&q=x&big=1") None) []
    = Ok (TsDelivered (s "Find") [(s "page", TsRaw (JObj [(s "$num", JStr (s "NaN"))]));
                                  (s "q", TsV (FS (VStr (s "x")))); (s "big", TsV (FS (VInt 1)))]) /\
  ts_server_handle [fl_upd2] fl_upd2 sv_upd (tw PUT (s "/api/items/a") (s "mode=x") (Some [])) []
    = Ok (TsDelivered (s "Update") [(s "id", TsV (FS (VStr (s "a"))))]) /\
  (* the Go server binds that query parameter (no body: nothing resets it) *)
  match server_routes [fl_upd2] fl_upd2 sv_upd with
  | Ok (Some rs) =>
      server_handle rs {| w_verb := PUT; w_path := s "/api/items/a"; w_query := [(s "mode", s "x")]; w_body := None |} CtJSON []
  | _ => Unmodelled []
  end = Ok (inl (Some ([(s "id", FS (VStr (s "a"))); (s "mode", FS (VStr (s "x")))], (BJson, [])))) /\
  ts_server_handle sc1 fl1 sv1 (tw GET (s "/api/items/%zz") [] None) [] = Ok TsServerError.
Proof. vm_compute. repeat split; reflexivity. Qed.

(* GET / DELETE routes into the TS server (path variables + query parameters); lemmas in proofs/TsRtBodiless.v.
   The TS server reads a query parameter with Number(q ?? "0") (32-bit kinds),
   q === "true" (bool), q ?? "" (string and String()-typed 64-bit kinds) and a path variable with
   decodeURIComponent; both clients leave a query field holding its zero value off the URL.
   [wf_nobody] (GoRtFacts, the side conditions of C01_bodiless_verbs): the verb has no body, method names and
   field names are distinct, every path value prints to a non-empty string, URL-capable fields hold values of
   their declared type, every input field is a path variable or a query parameter.
   [path_vals_utf8]: the path values are UTF-8 (decodeURIComponent throws on other byte strings).
   [ts_saw_req fs req saw]: for every input field f, saw lists f's value in req — nothing when it is the zero
   value — under f's name, and saw has no other key.
   The defect list excludes, besides the classes of the body verbs: a path variable of a kind other than string /
   64-bit (C08PathParamString), a 64-bit query field holding zero (C08Int64QueryAbsent), two query fields
   sharing a parameter name (C08DuplicateQueryName). *)
From SebufProofs Require TsRtBodiless.

Theorem C08_ts_ts_bodiless : forall sc fl sv md req hs resp w o,
  ts_ts_call sc fl sv md hs req resp = Ok (w, o) ->
  defects_C08 TsTs sc fl sv md req = [] ->
  In md (sv_methods sv) ->
  wf_nobody sc fl sv md req = true ->
  TsRtBodiless.path_vals_utf8 (in_fields sc md) req (path_vars (info_of fl sv md (in_fields sc md))) = true ->
  template_ok (info_of fl sv md (in_fields sc md)) = true ->
  ts_template_ok (info_of fl sv md (in_fields sc md)) = true ->
  hdr_violation (sv_headers sv ++ md_headers md) hs = Ok None ->
  exists saw, o = ODelivered (md_name md) saw resp /\ TsRtBodiless.ts_saw_req (in_fields sc md) req saw.
Proof. exact TsRtBodiless.ts_ts_nobody. Qed.
Print Assumptions C08_ts_ts_bodiless.

Theorem C08_go_ts_bodiless : forall sc fl sv md req hs resp w o,
  go_ts_call sc fl sv md hs req resp = Ok (w, o) ->
  defects_C08 GoTs sc fl sv md req = [] ->
  In md (sv_methods sv) ->
  wf_nobody sc fl sv md req = true ->
  TsRtBodiless.path_vals_utf8 (in_fields sc md) req (path_vars (info_of fl sv md (in_fields sc md))) = true ->
  template_ok (info_of fl sv md (in_fields sc md)) = true ->
  ts_template_ok (info_of fl sv md (in_fields sc md)) = true ->
  hdr_violation (sv_headers sv ++ md_headers md) hs = Ok None ->
  exists saw, o = ODelivered (md_name md) saw resp /\ TsRtBodiless.ts_saw_req (in_fields sc md) req saw.
Proof. exact TsRtBodiless.go_ts_nobody. Qed.
Print Assumptions C08_go_ts_bodiless.

(* for a canonical request value (populated fields only, the values the harness and protobuf-es produce) the
   handler object is the request, key for key — the conclusion of C08_ts_ts_partial / C08_go_ts_partial *)
Theorem C08_ts_ts_bodiless_exact : forall sc fl sv md req hs resp w o,
  ts_ts_call sc fl sv md hs req resp = Ok (w, o) ->
  defects_C08 TsTs sc fl sv md req = [] ->
  In md (sv_methods sv) ->
  wf_nobody sc fl sv md req = true ->
  TsRtBodiless.path_vals_utf8 (in_fields sc md) req (path_vars (info_of fl sv md (in_fields sc md))) = true ->
  template_ok (info_of fl sv md (in_fields sc md)) = true ->
  ts_template_ok (info_of fl sv md (in_fields sc md)) = true ->
  hdr_violation (sv_headers sv ++ md_headers md) hs = Ok None ->
  canonicalb (in_fields sc md) req = true ->
  exists saw, o = ODelivered (md_name md) saw resp /\ forall k, tget saw k = tget (tsobj_of_mval req) k.
Proof. exact TsRtBodiless.ts_ts_nobody_exact. Qed.
Print Assumptions C08_ts_ts_bodiless_exact.

Theorem C08_go_ts_bodiless_exact : forall sc fl sv md req hs resp w o,
  go_ts_call sc fl sv md hs req resp = Ok (w, o) ->
  defects_C08 GoTs sc fl sv md req = [] ->
  In md (sv_methods sv) ->
  wf_nobody sc fl sv md req = true ->
  TsRtBodiless.path_vals_utf8 (in_fields sc md) req (path_vars (info_of fl sv md (in_fields sc md))) = true ->
  template_ok (info_of fl sv md (in_fields sc md)) = true ->
  ts_template_ok (info_of fl sv md (in_fields sc md)) = true ->
  hdr_violation (sv_headers sv ++ md_headers md) hs = Ok None ->
  canonicalb (in_fields sc md) req = true ->
  exists saw, o = ODelivered (md_name md) saw resp /\ forall k, tget saw k = tget (tsobj_of_mval req) k.
Proof. exact TsRtBodiless.go_ts_nobody_exact. Qed.
Print Assumptions C08_go_ts_bodiless_exact.

(* the TS server alone on a bodiless route: a request made of the route's own template (each variable escaped
   by a function decodeURIComponent inverts) whose query string reads back, per query field, as nothing for the
   zero value and the printed value otherwise, reaches the route's handler with exactly the URL-bound fields *)
Theorem C08_ts_server_bodiless : forall sc fl sv md req hs (E : str -> str),
  (forall x, E x = [] -> x = []) ->
  (forall x, utf8_valid x = true -> decode_uri_component (E x) = Some x) ->
  (forall x, ~ In slash (E x)) ->
  forall tw segs,
  In md (sv_methods sv) -> NoDup (map md_name (sv_methods sv)) ->
  tsegs (client_path (info_of fl sv md (in_fields sc md))) = Some segs ->
  seg_vars segs = path_vars (info_of fl sv md (in_fields sc md)) ->
  (forall x, In (SLit x) segs -> ~ In slash x) ->
  verb_has_body (eff_verb (info_of fl sv md (in_fields sc md))) = false ->
  tw_verb tw = eff_verb (info_of fl sv md (in_fields sc md)) ->
  tw_path tw = slash :: join_with [slash] (map (efill (in_fields sc md) req E) segs) ->
  NoDup (map f_name (in_fields sc md)) ->
  (forall v, In v (path_vars (info_of fl sv md (in_fields sc md))) -> TsRtBodiless.path_var_ok sc md req v) ->
  (forall f, In f (query_fields (in_fields sc md)) -> TsRtBodiless.query_par_ok req (form_parse (tw_query tw)) f) ->
  hdr_violation (sv_headers sv ++ md_headers md) hs = Ok None ->
  (forall n, ts_dispatched sc fl sv tw = Some n -> n = md_name md) ->
  forall o, ts_server_handle sc fl sv tw hs = Ok o ->
  exists saw, o = TsDelivered (md_name md) saw /\
    forall k, tget saw k =
      if existsb (str_eqb k) (path_vars (info_of fl sv md (in_fields sc md)) ++ map f_name (query_fields (in_fields sc md)))
      then TsRtBodiless.expect_key (in_fields sc md) req k else None.
Proof. exact TsRtBodiless.ts_server_nobody. Qed.
Print Assumptions C08_ts_server_bodiless.

(* the JS conversions the query binding relies on *)
Theorem C08_number_of_decimal : forall z, (- 2 ^ 53 <= z <= 2 ^ 53)%Z -> z <> 0%Z -> js_number (show_int z) = NumInt z.
Proof. exact TsRtBodiless.js_number_show_int. Qed.
Print Assumptions C08_number_of_decimal.

Theorem C08_query_value_read_back : forall f q v,
  url_kind_ok (f_kind f) = true -> TsRtBodiless.not_number_enc f = true ->
  typed_scalar (f_kind f) v -> is_64 (f_kind f) && is_zero v = false ->
  params_get q (qname f) = (if is_zero v then None else Some (sprint v)) ->
  exists j, ts_query_js f q = Ok j /\
            canon_js (f_kind f) j = if is_zero v then None else Some (TsV (FS v)).
Proof. exact TsRtBodiless.canon_query_value. Qed.
Print Assumptions C08_query_value_read_back.

Theorem C08_path_value_read_back : forall k v, is_str_or_64 k = true -> typed_scalar k v -> sprint v <> [] ->
  canon_js k (JsStr (sprint v)) = if is_zero v then None else Some (TsV (FS v)).
Proof. exact TsRtBodiless.canon_path_value. Qed.
Print Assumptions C08_path_value_read_back.

(* --- non-vacuity: GET /api/t/{tenant}/items?q=..&page-size=.. ; values that need escaping (space, '/', '%', '?',
       '&', '=', '+', '#', two-byte UTF-8 sequences), a negative number --- *)
Definition list_md := mkmd (s "ListItems") (s "ListReq") (s "/t/{tenant}/items") 1.
Definition list_msg := mkmsg (s "ListReq")
  [mkf (s "tenant") 1 KString None; mkf (s "q") 2 KString (qc (s "q") false);
   mkf (s "limit") 3 KInt32 (qc (s "page-size") false)].
Definition sv_list := mksv (s "/api") [list_md; put_md].
Definition fl_list := mkfl [list_msg; put_msg; mkmsg (s "Resp") []] sv_list.
Definition u_uml : str := [ch 195; ch 188].      (* U+00FC *)
Definition e_acute : str := [ch 195; ch 169].    (* U+00E9 *)
Definition list_req : mval :=
  [(s "tenant", FS (VStr (s "a b/" ++ u_uml ++ s "%?"))); (s "q", FS (VStr (s "x y&z=1+" ++ e_acute ++ s "#")));
   (s "limit", FS (VInt (-7)))].
Definition list_saw : tsobj :=
  [(s "q", TsV (FS (VStr (s "x y&z=1+" ++ e_acute ++ s "#")))); (s "limit", TsV (FS (VInt (-7))));
   (s "tenant", TsV (FS (VStr (s "a b/" ++ u_uml ++ s "%?"))))].

Definition wire_of (x : result (wire_req * c08_outcome)) : option wire_req :=
  match x with Ok (w, _) => Some w | Unmodelled _ => None end.

Example C08_bodiless_nonvacuous :
  (* the hypotheses of C08_ts_ts_bodiless(_exact) and C08_go_ts_bodiless(_exact) *)
  defects_C08 TsTs [fl_list] fl_list sv_list list_md list_req = [] /\
  defects_C08 GoTs [fl_list] fl_list sv_list list_md list_req = [] /\
  In list_md (sv_methods sv_list) /\
  wf_nobody [fl_list] fl_list sv_list list_md list_req = true /\
  TsRtBodiless.path_vals_utf8 (in_fields [fl_list] list_md) list_req
    (path_vars (info_of fl_list sv_list list_md (in_fields [fl_list] list_md))) = true /\
  template_ok (info_of fl_list sv_list list_md (in_fields [fl_list] list_md)) = true /\
  ts_template_ok (info_of fl_list sv_list list_md (in_fields [fl_list] list_md)) = true /\
  hdr_violation (sv_headers sv_list ++ md_headers list_md) [] = Ok None /\
  canonicalb (in_fields [fl_list] list_md) list_req = true /\
  path_vars (info_of fl_list sv_list list_md (in_fields [fl_list] list_md)) = [s "tenant"] /\
  map qname (query_fields (in_fields [fl_list] list_md)) = [s "q"; s "page-size"] /\
  (* ... and what happens *)
  outcome_of (ts_ts_call [fl_list] fl_list sv_list list_md [] list_req resp1)
    = Some (ODelivered (s "ListItems") list_saw resp1) /\
  outcome_of (go_ts_call [fl_list] fl_list sv_list list_md [] list_req resp1)
    = Some (ODelivered (s "ListItems") list_saw resp1) /\
  option_map w_path (wire_of (ts_ts_call [fl_list] fl_list sv_list list_md [] list_req resp1))
    = Some (s "/api/t/a%20b%2F%C3%BC%25%3F/items") /\
  option_map w_path (wire_of (go_ts_call [fl_list] fl_list sv_list list_md [] list_req resp1))
    = Some (s "/api/t/a%20b%2F%C3%BC%25%3F/items") /\
  (* the query string as URLSearchParams and as url.Values.Encode write it *)
  match ts_client_build fl_list sv_list list_md (in_fields [fl_list] list_md) list_req with
  | Ok tw => tw_query tw | Unmodelled _ => [] end = s "q=x+y%26z%3D1%2B%C3%A9%23&page-size=-7" /\
  option_map (fun w => encode_query (w_query w)) (wire_of (go_ts_call [fl_list] fl_list sv_list list_md [] list_req resp1))
    = Some (s "page-size=-7&q=x+y%26z%3D1%2B%C3%A9%23").
Proof. repeat match goal with |- _ /\ _ => split end; first [vm_compute; reflexivity | left; reflexivity]. Qed.

(* the theorems applied to it *)
Example C08_bodiless_nonvacuous_applied : forall w o,
  ts_ts_call [fl_list] fl_list sv_list list_md [] list_req resp1 = Ok (w, o) ->
  exists saw, o = ODelivered (s "ListItems") saw resp1 /\ forall k, tget saw k = tget (tsobj_of_mval list_req) k.
Proof.
  intros w o H.
  apply (C08_ts_ts_bodiless_exact [fl_list] fl_list sv_list list_md list_req [] resp1 w o H);
    first [vm_compute; reflexivity | left; reflexivity].
Qed.

(* every URL-capable kind as a query parameter: bool, the six 32-bit kinds, the five 64-bit kinds (above 2^53 and
   at both ends of their range), a zero-valued int32 / bool / string left off the URL and re-created as absent *)
Definition kinds_md := mkmd (s "Kinds") (s "KindsReq") (s "/k/{id}") 4.
Definition kq (n : str) (num : Z) (k : kind) : field := mkf n num k (qc n false).
Definition kinds_msg := mkmsg (s "KindsReq")
  [mkf (s "id") 1 KUint64 None; kq (s "b") 2 KBool; kq (s "i32") 3 KInt32; kq (s "s32") 4 KSint32;
   kq (s "sf32") 5 KSfixed32; kq (s "u32") 6 KUint32; kq (s "f32") 7 KFixed32; kq (s "i64") 8 KInt64;
   kq (s "s64") 9 KSint64; kq (s "sf64") 10 KSfixed64; kq (s "u64") 11 KUint64; kq (s "f64") 12 KFixed64;
   kq (s "zi") 13 KInt32; kq (s "zb") 14 KBool; kq (s "zs") 15 KString].
Definition sv_kinds := mksv (s "/api") [kinds_md].
Definition fl_kinds := mkfl [kinds_msg; mkmsg (s "Resp") []] sv_kinds.
Definition kinds_req : mval :=
  [(s "id", FS (VInt 18446744073709551615)); (s "b", FS (VBool true)); (s "i32", FS (VInt (-2147483648)));
   (s "s32", FS (VInt 2147483647)); (s "sf32", FS (VInt (-1))); (s "u32", FS (VInt 4294967295));
   (s "f32", FS (VInt 1)); (s "i64", FS (VInt (-9223372036854775808))); (s "s64", FS (VInt 9223372036854775807));
   (s "sf64", FS (VInt 9007199254740993)); (s "u64", FS (VInt 18446744073709551615)); (s "f64", FS (VInt 7))].
Example C08_bodiless_all_kinds :
  defects_C08 TsTs [fl_kinds] fl_kinds sv_kinds kinds_md kinds_req = [] /\
  defects_C08 GoTs [fl_kinds] fl_kinds sv_kinds kinds_md kinds_req = [] /\
  wf_nobody [fl_kinds] fl_kinds sv_kinds kinds_md kinds_req = true /\
  TsRtBodiless.path_vals_utf8 (in_fields [fl_kinds] kinds_md) kinds_req
    (path_vars (info_of fl_kinds sv_kinds kinds_md (in_fields [fl_kinds] kinds_md))) = true /\
  template_ok (info_of fl_kinds sv_kinds kinds_md (in_fields [fl_kinds] kinds_md)) = true /\
  ts_template_ok (info_of fl_kinds sv_kinds kinds_md (in_fields [fl_kinds] kinds_md)) = true /\
  canonicalb (in_fields [fl_kinds] kinds_md) kinds_req = true /\
  option_map w_verb (wire_of (ts_ts_call [fl_kinds] fl_kinds sv_kinds kinds_md [] kinds_req resp1)) = Some DELETE /\
  match outcome_of (ts_ts_call [fl_kinds] fl_kinds sv_kinds kinds_md [] kinds_req resp1) with
  | Some (ODelivered n saw _) => (n, List.length saw) | _ => ([], O) end = (s "Kinds", 12%nat) /\
  outcome_of (go_ts_call [fl_kinds] fl_kinds sv_kinds kinds_md [] kinds_req resp1)
    = outcome_of (ts_ts_call [fl_kinds] fl_kinds sv_kinds kinds_md [] kinds_req resp1).
Proof.
  (* each of the two calls is evaluated once: its value becomes a local definition that stands for the
     call in the three conjuncts that mention it *)
  let v := eval vm_compute in (ts_ts_call [fl_kinds] fl_kinds sv_kinds kinds_md [] kinds_req resp1) in pose (tt := v).
  let v := eval vm_compute in (go_ts_call [fl_kinds] fl_kinds sv_kinds kinds_md [] kinds_req resp1) in pose (gt := v).
  assert (Ett : ts_ts_call [fl_kinds] fl_kinds sv_kinds kinds_md [] kinds_req resp1 = tt) by (vm_compute; reflexivity).
  assert (Egt : go_ts_call [fl_kinds] fl_kinds sv_kinds kinds_md [] kinds_req resp1 = gt) by (vm_compute; reflexivity).
  rewrite Ett, Egt.
  repeat match goal with |- _ /\ _ => split end; vm_compute; reflexivity.
Qed.

Example C08_bodiless_all_kinds_applied :
  (forall w o, ts_ts_call [fl_kinds] fl_kinds sv_kinds kinds_md [] kinds_req resp1 = Ok (w, o) ->
     exists saw, o = ODelivered (s "Kinds") saw resp1 /\ forall k, tget saw k = tget (tsobj_of_mval kinds_req) k) /\
  (forall w o, go_ts_call [fl_kinds] fl_kinds sv_kinds kinds_md [] kinds_req resp1 = Ok (w, o) ->
     exists saw, o = ODelivered (s "Kinds") saw resp1 /\ forall k, tget saw k = tget (tsobj_of_mval kinds_req) k).
Proof.
  destruct C08_bodiless_all_kinds as [Dt [Dg [Hwf [Hu [Ht [Hts [Hc _]]]]]]].
  split; intros w o H.
  - exact (C08_ts_ts_bodiless_exact [fl_kinds] fl_kinds sv_kinds kinds_md kinds_req [] resp1 w o H
             Dt (or_introl eq_refl) Hwf Hu Ht Hts eq_refl Hc).
  - exact (C08_go_ts_bodiless_exact [fl_kinds] fl_kinds sv_kinds kinds_md kinds_req [] resp1 w o H
             Dg (or_introl eq_refl) Hwf Hu Ht Hts eq_refl Hc).
Qed.

(* --- the side conditions are needed --- *)

(* [wf_nobody], typed values: an int32 query field holding 2^40 (a TS `number` can) arrives as a raw number the
   canonical reading refuses; every other hypothesis holds *)
Definition list_req_big : mval :=
  [(s "tenant", FS (VStr (s "acme"))); (s "q", FS (VStr (s "x"))); (s "limit", FS (VInt 1099511627776))].
Example C08_bodiless_needs_typed :
  defects_C08 TsTs [fl_list] fl_list sv_list list_md list_req_big = [] /\
  req_typedb (in_fields [fl_list] list_md) list_req_big = false /\
  wf_nobody [fl_list] fl_list sv_list list_md list_req = true /\            (* same schema, typed value: holds *)
  TsRtBodiless.path_vals_utf8 (in_fields [fl_list] list_md) list_req_big [s "tenant"] = true /\
  outcome_of (ts_ts_call [fl_list] fl_list sv_list list_md [] list_req_big resp1)
    = Some (ODelivered (s "ListItems")
        [(s "q", TsV (FS (VStr (s "x")))); (s "limit", TsRaw (JNum 1099511627776)); (s "tenant", TsV (FS (VStr (s "acme"))))] resp1) /\
  outcome_of (go_ts_call [fl_list] fl_list sv_list list_md [] list_req_big resp1)
    = outcome_of (ts_ts_call [fl_list] fl_list sv_list list_md [] list_req_big resp1).
Proof. repeat match goal with |- _ /\ _ => split end; first [vm_compute; reflexivity | left; reflexivity]. Qed.

(* [wf_nobody], cover: an input field that is neither a path variable nor a query parameter is not sent on a
   GET; the handler does not see it (as for the Go server, C01) *)
Definition cov_md := mkmd (s "Cov") (s "CovReq") (s "/c/{id}") 1.
Definition cov_msg := mkmsg (s "CovReq")
  [mkf (s "id") 1 KString None; mkf (s "q") 2 KString (qc (s "q") false); mkf (s "note") 3 KString None].
Definition sv_cov := mksv (s "/api") [cov_md].
Definition fl_cov := mkfl [cov_msg; mkmsg (s "Resp") []] sv_cov.
Definition cov_req : mval := [(s "id", FS (VStr (s "a"))); (s "q", FS (VStr (s "x"))); (s "note", FS (VStr (s "lost")))].
Example C08_bodiless_needs_cover :
  defects_C08 TsTs [fl_cov] fl_cov sv_cov cov_md cov_req = [] /\
  defects_C08 GoTs [fl_cov] fl_cov sv_cov cov_md cov_req = [] /\
  coverb (in_fields [fl_cov] cov_md) [s "id"] = false /\
  req_typedb (in_fields [fl_cov] cov_md) cov_req = true /\ canonicalb (in_fields [fl_cov] cov_md) cov_req = true /\
  outcome_of (ts_ts_call [fl_cov] fl_cov sv_cov cov_md [] cov_req resp1)
    = Some (ODelivered (s "Cov") [(s "q", TsV (FS (VStr (s "x")))); (s "id", TsV (FS (VStr (s "a"))))] resp1) /\
  outcome_of (go_ts_call [fl_cov] fl_cov sv_cov cov_md [] cov_req resp1)
    = outcome_of (ts_ts_call [fl_cov] fl_cov sv_cov cov_md [] cov_req resp1).
Proof. repeat match goal with |- _ /\ _ => split end; first [vm_compute; reflexivity | left; reflexivity]. Qed.

(* [path_vals_utf8]: a Go string that is not UTF-8 travels as %FF; decodeURIComponent throws, the TS server
   answers 500 (the Go server delivers the bytes) *)
Definition list_req_ff : mval :=
  [(s "tenant", FS (VStr [ch 255])); (s "q", FS (VStr (s "x"))); (s "limit", FS (VInt 1))].
Example C08_bodiless_needs_utf8 :
  defects_C08 GoTs [fl_list] fl_list sv_list list_md list_req_ff = [] /\
  wf_nobody [fl_list] fl_list sv_list list_md list_req_ff = true /\
  canonicalb (in_fields [fl_list] list_md) list_req_ff = true /\
  TsRtBodiless.path_vals_utf8 (in_fields [fl_list] list_md) list_req_ff [s "tenant"] = false /\
  outcome_of (go_ts_call [fl_list] fl_list sv_list list_md [] list_req_ff resp1) = Some OServerError /\
  option_map w_path (wire_of (go_ts_call [fl_list] fl_list sv_list list_md [] list_req_ff resp1)) = Some (s "/api/t/%FF/items") /\
  match go_call [fl_list] fl_list sv_list list_md CtJSON list_req_ff resp1 with
  | Ok (_, o) => Some o | Unmodelled _ => None end = Some (Delivered list_req_ff resp1).
Proof. repeat match goal with |- _ /\ _ => split end; first [vm_compute; reflexivity | left; reflexivity]. Qed.

(* [wf_nobody], non-empty path values: an empty path value leaves an empty segment no template accepts *)
Definition list_req_empty : mval := [(s "q", FS (VStr (s "x"))); (s "limit", FS (VInt 1))].
Example C08_bodiless_needs_path_value :
  defects_C08 TsTs [fl_list] fl_list sv_list list_md list_req_empty = [] /\
  path_vals_nonempty (in_fields [fl_list] list_md) list_req_empty [s "tenant"] = false /\
  outcome_of (ts_ts_call [fl_list] fl_list sv_list list_md [] list_req_empty resp1) = Some ONotRouted /\
  outcome_of (go_ts_call [fl_list] fl_list sv_list list_md [] list_req_empty resp1) = Some ONotRouted.
Proof. repeat match goal with |- _ /\ _ => split end; first [vm_compute; reflexivity | left; reflexivity]. Qed.

(* the two documented defect classes the defect list excludes are C08_refuted_path_param_string and
   C08_refuted_int64_query_absent above; a zero 64-bit PATH value is carried faithfully ("0" is sent) *)
Definition kinds_req0 : mval := [(s "b", FS (VBool true)); (s "i64", FS (VInt 1)); (s "s64", FS (VInt 1));
   (s "sf64", FS (VInt 1)); (s "u64", FS (VInt 1)); (s "f64", FS (VInt 1))].
Example C08_bodiless_zero_path_int64 :
  defects_C08 GoTs [fl_kinds] fl_kinds sv_kinds kinds_md kinds_req0 = [] /\
  wf_nobody [fl_kinds] fl_kinds sv_kinds kinds_md kinds_req0 = true /\
  option_map w_path (wire_of (go_ts_call [fl_kinds] fl_kinds sv_kinds kinds_md [] kinds_req0 resp1)) = Some (s "/api/k/0") /\
  match outcome_of (go_ts_call [fl_kinds] fl_kinds sv_kinds kinds_md [] kinds_req0 resp1) with
  | Some (ODelivered _ saw _) => (tget saw (s "id"), tget saw (s "i64")) | _ => (None, None) end
    = (None, Some (TsV (FS (VInt 1)))).
Proof. repeat match goal with |- _ /\ _ => split end; first [vm_compute; reflexivity | left; reflexivity]. Qed.
