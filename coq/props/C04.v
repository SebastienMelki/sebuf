(* C04 — generated Go JSON codecs round-trip every message value.
   The statements; the proofs are in proofs/ (named in each Proof), except where a statement only adds
   hypotheses to, or is an instance of, one proved there. *)
From Sebuf Require Import CodecCases.
From SebufProofs Require Import CodecTextFacts ProtoJsonFacts CodecExamples CodecFacts NullableFacts.

(* text layer, for ALL byte lists / integers *)
Theorem C04_base64_std : forall x, b64_dec false true (b64_enc false true x) = Some x.
Proof. apply b64_roundtrip. Qed.
Print Assumptions C04_base64_std.
Theorem C04_base64_raw : forall x, b64_dec false false (b64_enc false false x) = Some x.
Proof. apply b64_roundtrip. Qed.
Print Assumptions C04_base64_raw.
Theorem C04_base64url : forall x, b64_dec true true (b64_enc true true x) = Some x.
Proof. apply b64_roundtrip. Qed.
Print Assumptions C04_base64url.
Theorem C04_base64url_raw : forall x, b64_dec true false (b64_enc true false x) = Some x.
Proof. apply b64_roundtrip. Qed.
Print Assumptions C04_base64url_raw.
Theorem C04_hex : forall x, hex_dec (hex_enc x) = Some x.
Proof. exact hex_roundtrip. Qed.
Print Assumptions C04_hex.
Theorem C04_decimal : forall z, Z_of_dec (show_Z z) = Some z.
Proof. exact decimal_roundtrip. Qed.
Print Assumptions C04_decimal.

(* protojson: unmarshal (marshal m) = m for every well-typed value of every schema, under the
   library laws (floats, RFC 3339) *)
Theorem C04_pj_roundtrip : forall E, ExtLaws E -> forall sc tn m j,
  wt sc (KMessage tn) (FM m) = true -> pj_marshal E sc tn m = ROk j -> pj_unmarshal E sc tn j = ROk m.
Proof. exact pj_roundtrip. Qed.
Print Assumptions C04_pj_roundtrip.

(* the codec round trip for every message type without a codec of its own (that is what the server and
   client use for it), whatever annotated types occur below it.  The message types that own a codec follow,
   codec by codec, and C04_roundtrip_all_codecs puts them together; C04_roundtrip_full (below) is the
   statement for all message types under defects_C04 = [] alone. *)
Theorem C04_roundtrip_partial : forall E, ExtLaws E -> forall sc tn m j,
  owns sc tn = false -> wt sc (KMessage tn) (FM m) = true ->
  encode E sc tn m = ROk j -> decode E sc tn j = ROk (norm sc tn m).
Proof. exact C04_roundtrip_plain. Qed.
Print Assumptions C04_roundtrip_partial.

(* the nullable codec (nullable.go), in general: every schema, every well-typed value *)
Theorem C04_roundtrip_nullable : forall E, ExtLaws E -> forall sc tn md m j,
  str_eqb tn ts_name = false -> is_wkt_other tn = false ->
  find_message (all_messages sc) tn = Some md -> owner_of sc md = Own FtNullable ->
  nodup_str (map jn (m_fields md)) = true ->
  wt sc (KMessage tn) (FM m) = true ->
  encode E sc tn m = ROk j -> decode E sc tn j = ROk (norm sc tn m).
Proof. exact nullable_roundtrip. Qed.
Print Assumptions C04_roundtrip_nullable.

Definition C04_roundtrip_full : Prop := forall E, ExtLaws E -> forall sc tn m j,
  wt sc (KMessage tn) (FM m) = true -> defects_C04 sc tn m = [] ->
  encode E sc tn m = ROk j -> decode E sc tn j = ROk (norm sc tn m).

(* refutations: one witness per defect class *)
Theorem C04_refuted_flatten_reset :
  refuted4 D4FlattenReset (q "Person") [(s "id", vstr "1"); (s "home", FM [(s "street", vstr "s")])].
Proof. exact CodecFacts.C04_refuted_flatten_reset. Qed.
Print Assumptions C04_refuted_flatten_reset.
Theorem C04_refuted_flatten_child_keys :
  defects_C04 xs (q "Post") [(s "id", vstr "1"); (s "detail", FM [(s "body_text", vstr "b")])] = [D4FlattenReset; D4FlattenChildKeys] /\
  exists j, encode Ex xs (q "Post") [(s "id", vstr "1"); (s "detail", FM [(s "body_text", vstr "b")])] = ROk j /\
            exists e, decode Ex xs (q "Post") j = RErr e.
Proof. exact CodecFacts.C04_refuted_flatten_child_keys. Qed.
Print Assumptions C04_refuted_flatten_child_keys.
Theorem C04_refuted_flat_oneof_child :
  refuted4 D4FlatOneofChild (q "FlatEvent") [(s "eid", vstr "e"); (s "wide", FM [(s "alt_text", vstr "a")])].
Proof. exact CodecFacts.C04_refuted_flat_oneof_child. Qed.
Print Assumptions C04_refuted_flat_oneof_child.
Theorem C04_refuted_flat_oneof_remarshal :
  refuted4 D4FlatOneofRemarshal (q "FlatEvent") [(s "times", FM [(s "secs", tsv 5 0)])].
Proof. exact CodecFacts.C04_refuted_flat_oneof_remarshal. Qed.
Print Assumptions C04_refuted_flat_oneof_remarshal.
Theorem C04_refuted_oneof_variant_reflect :
  refuted4 D4OneofVariantReflect (q "Event") [(s "image", FM [(s "size", vint 7)])].
Proof. exact CodecFacts.C04_refuted_oneof_variant_reflect. Qed.
Print Assumptions C04_refuted_oneof_variant_reflect.
Theorem C04_refuted_unwrap_sibling_nonfinite :
  defects_C04 xs (q "Series") [(s "ratio", FS (VFloat 9221120237041090561))] = [D4UnwrapSiblingNonFinite] /\
  exists e, encode Ex xs (q "Series") [(s "ratio", FS (VFloat 9221120237041090561))] = RErr e.
Proof. exact CodecFacts.C04_refuted_unwrap_sibling_nonfinite. Qed.
Print Assumptions C04_refuted_unwrap_sibling_nonfinite.
Theorem C04_refuted_unwrap_sibling_negzero :
  refuted4 D4UnwrapSiblingNegZero (q "Series") [(s "ratio", FS (VFloat 9223372036854775808))].
Proof. exact CodecFacts.C04_refuted_unwrap_sibling_negzero. Qed.
Print Assumptions C04_refuted_unwrap_sibling_negzero.
Theorem C04_refuted_enum_codec_unknown :
  defects_C04 xs (q "EnumSeries") [(s "st", FS (VEnum 99))] = [D4EnumCodecUnknown] /\
  exists j, encode Ex xs (q "EnumSeries") [(s "st", FS (VEnum 99))] = ROk j /\
            exists e, decode Ex xs (q "EnumSeries") j = RErr e.
Proof. exact CodecFacts.C04_refuted_enum_codec_unknown. Qed.
Print Assumptions C04_refuted_enum_codec_unknown.
Theorem C04_canonical_in_refuted :
  exists tn m j, to_json Ex xs tn m = ROk j /\ defects_C05 xs tn m <> [] /\ exists e, decode Ex xs tn j = RErr e.
Proof. exact CodecFacts.C04_canonical_in_refuted. Qed.
Print Assumptions C04_canonical_in_refuted.

Example C04_nonvacuous :
  (let m := [(s "big", vint 9007199254740993); (s "name", vstr "n")] in
   owns xs (q "Nums") = true /\ defects_C04 xs (q "Nums") m = [] /\ rt_holds Ex xs (q "Nums") m = true) /\
  (let m := [(s "id", vstr "i"); (s "big_num", vint (-5)); (s "tags", FL [vstr "a"; vstr "b"]);
             (s "by_key", FMap [(VStr (s "k"), FM [(s "a", vstr "x"); (s "n", vint 3)])]);
             (s "leaf", FM []); (s "at", tsv 1700000000 500000000); (s "raw", FS (VBytes [ch 251; ch 255]));
             (s "ratio", FS (VFloat 4609434218613702656)); (s "opt_n", vint 0)] in
   wt xs (KMessage (q "Plain")) (FM m) = true /\ owns xs (q "Plain") = false /\ rt_holds Ex xs (q "Plain") m = true).
Proof. split; [exact C04_nonvacuous_int64 | exact C04_nonvacuous_plain]. Qed.
Example C04_nonvacuous_lossy :
  let m := [(s "secs", tsv 5 123456789); (s "day", tsv 90000 1); (s "id", vstr "x")] in
  defects_C04 xs (q "Times") m = [] /\ rt_holds Ex xs (q "Times") m = true /\
  norm xs (q "Times") m = [(s "secs", tsv 5 0); (s "day", tsv 86400 0); (s "id", vstr "x")].
Proof. exact C04_nonvacuous_ts_lossy. Qed.

(* the int64 NUMBER codec (encoding.go:124-319), in general: every schema, every well-typed value —
   singular and repeated NUMBER-encoded fields of all 64-bit kinds (int64, uint64, sint64, fixed64,
   sfixed64), zero elements, negatives, values beyond 2^53, the extremes of the range *)
From SebufProofs Require Import Int64Facts.
Theorem C04_roundtrip_int64 : forall E, ExtLaws E -> forall sc tn md m j,
  str_eqb tn ts_name = false -> is_wkt_other tn = false ->
  find_message (all_messages sc) tn = Some md -> owner_of sc md = Own FtInt64 ->
  buildable sc FtInt64 md = true ->
  nodup_str (map jn (m_fields md)) = true ->
  wt sc (KMessage tn) (FM m) = true ->
  encode E sc tn m = ROk j -> decode E sc tn j = ROk (norm sc tn m).
Proof. intros E EL sc tn md m j Hts Hwk Hfm Hown _ _. exact (int64_roundtrip E EL sc tn md m j Hts Hwk Hfm Hown). Qed.
Print Assumptions C04_roundtrip_int64.

(* the same without the two schema hypotheses: they follow from wt (distinct json names) and from
   encode = ROk (the emitted code compiles) *)
Theorem C04_roundtrip_int64_min : forall E, ExtLaws E -> forall sc tn md m j,
  str_eqb tn ts_name = false -> is_wkt_other tn = false ->
  find_message (all_messages sc) tn = Some md -> owner_of sc md = Own FtInt64 ->
  wt sc (KMessage tn) (FM m) = true ->
  encode E sc tn m = ROk j -> decode E sc tn j = ROk (norm sc tn m).
Proof. exact int64_roundtrip. Qed.
Print Assumptions C04_roundtrip_int64_min.

Example C04_int64_nonvacuous :
  exists md,
    str_eqb (q "Wide") ts_name = false /\ is_wkt_other (q "Wide") = false /\
    find_message (all_messages i64s) (q "Wide") = Some md /\ owner_of i64s md = Own FtInt64 /\
    buildable i64s FtInt64 md = true /\ nodup_str (map jn (m_fields md)) = true /\
    wt i64s (KMessage (q "Wide")) (FM wide_val) = true /\
    encode Ex i64s (q "Wide") wide_val = ROk wide_json /\
    decode Ex i64s (q "Wide") wide_json = ROk wide_val.
Proof. exact int64_nonvacuous. Qed.

(* the bytes_encoding codec (bytes_encoding.go), in general: every schema, every well-typed value,
   HEX / BASE64_RAW / BASE64URL / BASE64URL_RAW, singular and optional fields, empty and non-empty
   byte strings (proofs/BytesFacts.v) *)
From SebufProofs Require Import BytesFacts BytesConforms.
Theorem C04_roundtrip_bytes : forall E, ExtLaws E -> forall sc tn md m j,
  str_eqb tn ts_name = false -> is_wkt_other tn = false ->
  find_message (all_messages sc) tn = Some md -> owner_of sc md = Own FtBytes ->
  buildable sc FtBytes md = true ->
  nodup_str (map jn (m_fields md)) = true ->
  wt sc (KMessage tn) (FM m) = true ->
  encode E sc tn m = ROk j -> decode E sc tn j = ROk (norm sc tn m).
Proof. intros E EL sc tn md m j Hts Hwk Hfm Hown _ _. exact (bytes_roundtrip E EL sc tn md m j Hts Hwk Hfm Hown). Qed.
Print Assumptions C04_roundtrip_bytes.
(* the same without the two redundant hypotheses: distinct JSON names are part of well-typedness
   (msg_ok), and a codec that does not compile never returns a JSON value *)
Theorem C04_roundtrip_bytes_strong : forall E, ExtLaws E -> forall sc tn md m j,
  str_eqb tn ts_name = false -> is_wkt_other tn = false ->
  find_message (all_messages sc) tn = Some md -> owner_of sc md = Own FtBytes ->
  wt sc (KMessage tn) (FM m) = true ->
  encode E sc tn m = ROk j -> decode E sc tn j = ROk (norm sc tn m).
Proof. exact bytes_roundtrip. Qed.
Print Assumptions C04_roundtrip_bytes_strong.
(* the encoder never writes CR / LF under an annotated key (dec_bytes declines such texts) *)
Theorem C04_bytes_encode_no_crlf : forall E sc tn md m es k x f e,
  str_eqb tn ts_name = false -> is_wkt_other tn = false ->
  find_message (all_messages sc) tn = Some md -> owner_of sc md = Own FtBytes ->
  wt sc (KMessage tn) (FM m) = true ->
  encode E sc tn m = ROk (JObj es) -> In (k, JStr x) es ->
  field_by_json (m_fields md) k = Some f -> bytesenc_of f = Some e -> has_crlf x = false.
Proof. exact bytes_encode_no_crlf. Qed.
Print Assumptions C04_bytes_encode_no_crlf.
Example C04_bytes_nonvacuous :
  exists md,
    str_eqb (q "B") ts_name = false /\ is_wkt_other (q "B") = false /\
    find_message (all_messages bxs) (q "B") = Some md /\ owner_of bxs md = Own FtBytes /\
    buildable bxs FtBytes md = true /\ nodup_str (map jn (m_fields md)) = true /\ bytesplain_msg md = true /\
    wt bxs (KMessage (q "B")) (FM bval) = true /\
    nodup_str (map fst bval) = true /\ forallb (bytes_value_ok bxs md) bval = true /\
    encode Ex bxs (q "B") bval = ROk bjson /\ to_json Ex bxs (q "B") bval = ROk bjson /\
    decode Ex bxs (q "B") bjson = ROk bval.
Proof. exact bytes_nonvacuous. Qed.
Print Assumptions C04_bytes_nonvacuous.

(* the timestamp_format codec (timestamp_format.go), in general: every schema, every well-typed value
   (Timestamps in 0001-01-01..9999-12-31, nanos in [0, 1e9), negative seconds included), for
   UNIX_SECONDS, UNIX_MILLIS and DATE, modulo the documented truncation [norm] *)
From SebufProofs Require Import TimestampFacts TimestampConforms.
Theorem C04_roundtrip_ts : forall E, ExtLaws E -> forall sc tn md m j,
  str_eqb tn ts_name = false -> is_wkt_other tn = false ->
  find_message (all_messages sc) tn = Some md -> owner_of sc md = Own FtTs ->
  buildable sc FtTs md = true ->
  nodup_str (map jn (m_fields md)) = true ->
  wt sc (KMessage tn) (FM m) = true ->
  encode E sc tn m = ROk j -> decode E sc tn j = ROk (norm sc tn m).
Proof. exact ts_roundtrip. Qed.
Print Assumptions C04_roundtrip_ts.

Example C04_ts_nonvacuous :
  exists md,
    str_eqb (q "Stamps") ts_name = false /\ is_wkt_other (q "Stamps") = false /\
    find_message (all_messages tss) (q "Stamps") = Some md /\ owner_of tss md = Own FtTs /\
    buildable tss FtTs md = true /\ nodup_str (map jn (m_fields md)) = true /\
    forallb tsplain_field (m_fields md) = true /\
    wt tss (KMessage (q "Stamps")) (FM ts_sample) = true /\
    nodup_str (map fst ts_sample) = true /\ forallb (ts_entry_ok tss md) ts_sample = true /\
    encode Ex tss (q "Stamps") ts_sample =
      ROk (JObj [(s "atSecs", JNum (-5)); (s "atMillis", JNum (-1500)); (s "onDay", JStr (s "1969-12-31"));
                 (s "plainAt", JStr (s "1970-01-01T00:00:01.000000005Z")); (s "id", JStr (s "x"));
                 (s "more", JArr [JStr (s "1970-01-01T00:00:03.000000004Z")])]) /\
    to_json Ex tss (q "Stamps") ts_sample = encode Ex tss (q "Stamps") ts_sample /\
    norm tss (q "Stamps") ts_sample =
      [(s "at_secs", tsv (-5) 0); (s "at_millis", tsv (-2) 500000000); (s "on_day", tsv (-86400) 0);
       (s "plain_at", tsv 1 5); (s "id", vstr "x"); (s "more", FL [tsv 3 4])] /\
    (forall j, encode Ex tss (q "Stamps") ts_sample = ROk j ->
               decode Ex tss (q "Stamps") j = ROk (norm tss (q "Stamps") ts_sample)).
Proof. exact ts_nonvacuous. Qed.
Print Assumptions C04_ts_nonvacuous.

Example C04_ts_negative_millis_floor :
  encode Ex tss (q "Stamps") [(s "at_millis", tsv (-2) 500999999)] = ROk (JObj [(s "atMillis", JNum (-1500))]) /\
  decode Ex tss (q "Stamps") (JObj [(s "atMillis", JNum (-1500))]) = ROk [(s "at_millis", tsv (-2) 500000000)] /\
  decode Ex tss (q "Stamps") (JObj [(s "atMillis", JNum (-1))]) = ROk [(s "at_millis", tsv (-1) 999000000)].
Proof. exact ts_negative_millis_floor. Qed.
Print Assumptions C04_ts_negative_millis_floor.

(* the empty_behavior codec (empty_behavior.go), in general: every schema, every well-typed value;
   PRESERVE / NULL / OMIT, children empty / non-empty / absent.  [norm] drops the presence of an empty OMIT child.
   Side condition (shown necessary below): no NULL field of type Timestamp holds the epoch.  (That the emitted
   codec compiles, [buildable sc FtEmpty md = true], follows from [encode ... = ROk j] and is not assumed.) *)
From SebufProofs Require Import MappingFacts EmptyFacts EmptyConforms.
Theorem C04_roundtrip_empty : forall E, ExtLaws E -> forall sc tn md m j,
  str_eqb tn ts_name = false -> is_wkt_other tn = false ->
  find_message (all_messages sc) tn = Some md -> owner_of sc md = Own FtEmpty ->
  nodup_str (map jn (m_fields md)) = true ->
  epoch_null_free md m = true ->
  wt sc (KMessage tn) (FM m) = true ->
  encode E sc tn m = ROk j -> decode E sc tn j = ROk (norm sc tn m).
Proof. exact EmptyFacts.empty_roundtrip. Qed.
Print Assumptions C04_roundtrip_empty.
(* schema-level side condition: no empty_behavior = NULL field is a Timestamp *)
Theorem C04_roundtrip_empty_schema : forall E, ExtLaws E -> forall sc tn md m j,
  str_eqb tn ts_name = false -> is_wkt_other tn = false ->
  find_message (all_messages sc) tn = Some md -> owner_of sc md = Own FtEmpty ->
  nodup_str (map jn (m_fields md)) = true ->
  null_not_ts md = true ->
  wt sc (KMessage tn) (FM m) = true ->
  encode E sc tn m = ROk j -> decode E sc tn j = ROk (norm sc tn m).
Proof.
  intros E EL sc tn md m j Hts Hwk Hfm Hown Hnd Hnt.
  exact (EmptyFacts.empty_roundtrip E EL sc tn md m j Hts Hwk Hfm Hown Hnd (null_not_ts_epoch_free md m Hnt)).
Qed.
Print Assumptions C04_roundtrip_empty_schema.

(* norm is idempotent — for every message type, whatever codec it owns, and every value *)
Theorem C04_norm_idempotent : forall sc tn m, norm sc tn (norm sc tn m) = norm sc tn m.
Proof. exact EmptyFacts.norm_idempotent. Qed.
Print Assumptions C04_norm_idempotent.
Theorem C04_norm_idempotent_simple : forall sc tn md m,
  lookup_message sc tn = Some md ->
  (owner_of sc md = OwnNone \/ owner_of sc md = Own FtEmpty \/ owner_of sc md = Own FtTs \/
   owner_of sc md = Own FtNullable \/ owner_of sc md = Own FtInt64 \/ owner_of sc md = Own FtBytes) ->
  norm sc tn (norm sc tn m) = norm sc tn m.
Proof. intros sc tn md m _ _. apply EmptyFacts.norm_idempotent. Qed.
Print Assumptions C04_norm_idempotent_simple.

(* norm is the identity on a message type without lossy annotations: no UNIX_SECONDS / UNIX_MILLIS / DATE
   timestamp_format field, no empty_behavior = OMIT field, no map whose values are unwrap wrappers *)
Theorem C04_norm_id_without_lossy_annotations : forall sc tn m,
  (forall md, lookup_message sc tn = Some md -> lossy_free sc md = true) ->
  norm sc tn m = m.
Proof. exact EmptyFacts.norm_id_without_lossy. Qed.
Print Assumptions C04_norm_id_without_lossy_annotations.

(* refutation: without the side condition the round trip fails (epoch Timestamp under empty_behavior = NULL) *)
Example C04_roundtrip_empty_needs_epoch_null_free :
  let md := tsnull_md in
    let m := [(s "at", FM []); (s "id", vstr "x")] in
    str_eqb (q "TsNull") ts_name = false /\ is_wkt_other (q "TsNull") = false /\
    find_message (all_messages ebs) (q "TsNull") = Some md /\ owner_of ebs md = Own FtEmpty /\
    buildable ebs FtEmpty md = true /\ nodup_str (map jn (m_fields md)) = true /\
    wt ebs (KMessage (q "TsNull")) (FM m) = true /\
    epoch_null_free md m = false /\ null_not_ts md = false /\
    encode Ex ebs (q "TsNull") m = ROk (JObj [(s "at", JNull); (s "id", JStr (s "x"))]) /\
    to_json Ex ebs (q "TsNull") m = ROk (JObj [(s "at", JNull); (s "id", JStr (s "x"))]) /\
    decode Ex ebs (q "TsNull") (JObj [(s "at", JNull); (s "id", JStr (s "x"))]) = RErr (s "invalid timestamp").
Proof. exact EmptyConforms.empty_roundtrip_needs_epoch_null_free. Qed.
Print Assumptions C04_roundtrip_empty_needs_epoch_null_free.
Example C04_norm_id_needs_no_unwrap_values :
  let md := book_md in
    let m := [(s "pages", FMap [(VStr (s "k"), FM [(s "items", FL [vstr "a"]); (s "total", vint 3)])])] in
    lookup_message ebs (q "Book") = Some md /\
    forallb (fun f => match tsfmt_of f with None => negb (is_omitf f) | _ => false end) (m_fields md) = true /\
    lossy_free ebs md = false /\
    wt ebs (KMessage (q "Book")) (FM m) = true /\
    norm ebs (q "Book") m = [(s "pages", FMap [(VStr (s "k"), FM [(s "items", FL [vstr "a"])])])].
Proof. exact EmptyConforms.norm_id_needs_no_unwrap_values. Qed.

(* non-vacuity: PRESERVE, NULL and OMIT side by side; every child empty, every annotated child absent *)
Example C04_empty_nonvacuous :
  let md := emp3_md in
    str_eqb (q "Emp3") ts_name = false /\ is_wkt_other (q "Emp3") = false /\
    find_message (all_messages ebs) (q "Emp3") = Some md /\ owner_of ebs md = Own FtEmpty /\
    buildable ebs FtEmpty md = true /\ nodup_str (map jn (m_fields md)) = true /\
    null_not_ts md = true /\ empplain_msg md = true /\
    (let m := [(s "keep_it", FM []); (s "nul_it", FM []); (s "omit_it", FM []); (s "omit_at", FM []); (s "id", vstr "x")] in
     wt ebs (KMessage (q "Emp3")) (FM m) = true /\ epoch_null_free md m = true /\
     forallb (fun e => match find_field (m_fields md) (fst e) with
                       | Some f => plain_in ebs (f_kind f) (snd e) | None => false end) m = true /\
     encode Ex ebs (q "Emp3") m = ROk (JObj [(s "keepIt", JObj []); (s "nulIt", JNull); (s "id", JStr (s "x"))]) /\
     to_json Ex ebs (q "Emp3") m = ROk (JObj [(s "keepIt", JObj []); (s "nulIt", JNull); (s "id", JStr (s "x"))]) /\
     decode Ex ebs (q "Emp3") (JObj [(s "keepIt", JObj []); (s "nulIt", JNull); (s "id", JStr (s "x"))])
       = ROk [(s "keep_it", FM []); (s "nul_it", FM []); (s "id", vstr "x")] /\
     norm ebs (q "Emp3") m = [(s "keep_it", FM []); (s "nul_it", FM []); (s "id", vstr "x")]) /\
    (let m := [(s "id", vstr "x")] in
     wt ebs (KMessage (q "Emp3")) (FM m) = true /\
     encode Ex ebs (q "Emp3") m = ROk (JObj [(s "id", JStr (s "x"))]) /\
     decode Ex ebs (q "Emp3") (JObj [(s "id", JStr (s "x"))]) = ROk m).
Proof. exact EmptyConforms.empty_nonvacuous. Qed.
(* every child non-empty: nothing is lost *)
Example C04_empty_nonvacuous_nonempty :
  let md := emp3_md in
  let m := [(s "keep_it", FM [(s "a", vstr "k")]); (s "nul_it", FM [(s "n", vint 7)]); (s "omit_it", FM [(s "a", vstr "o")]);
            (s "omit_at", tsv 5 0); (s "plain_leaf", FM [])] in
  let j := JObj [(s "keepIt", JObj [(s "a", JStr (s "k"))]); (s "nulIt", JObj [(s "n", JStr (s "7"))]);
                 (s "omitIt", JObj [(s "a", JStr (s "o"))]); (s "omitAt", JStr (s "1970-01-01T00:00:05Z"));
                 (s "plainLeaf", JObj [])] in
  wt ebs (KMessage (q "Emp3")) (FM m) = true /\ epoch_null_free md m = true /\
  forallb (fun e => match find_field (m_fields md) (fst e) with
                    | Some f => plain_in ebs (f_kind f) (snd e) | None => false end) m = true /\
  norm ebs (q "Emp3") m = m /\
  encode Ex ebs (q "Emp3") m = ROk j /\ to_json Ex ebs (q "Emp3") m = ROk j /\ decode Ex ebs (q "Emp3") j = ROk m.
Proof. exact EmptyConforms.empty_nonvacuous_nonempty. Qed.
(* on the shared witness schema [xs] (proofs/CodecExamples.v) *)
Example C04_empty_nonvacuous_xs :
  let md := emp_md in
    find_message (all_messages xs) (q "Emp") = Some md /\ owner_of xs md = Own FtEmpty /\
    buildable xs FtEmpty md = true /\ nodup_str (map jn (m_fields md)) = true /\
    null_not_ts md = true /\ empplain_msg md = true /\
    (let m := [(s "nul_it", FM []); (s "omit", FM []); (s "id", vstr "x")] in
     wt xs (KMessage (q "Emp")) (FM m) = true /\
     encode Ex xs (q "Emp") m = ROk (JObj [(s "nulIt", JNull); (s "id", JStr (s "x"))]) /\
     decode Ex xs (q "Emp") (JObj [(s "nulIt", JNull); (s "id", JStr (s "x"))]) = ROk [(s "nul_it", FM []); (s "id", vstr "x")] /\
     norm xs (q "Emp") m = [(s "nul_it", FM []); (s "id", vstr "x")]).
Proof. exact EmptyConforms.empty_nonvacuous_xs. Qed.
Example C04_norm_id_nonvacuous :
  (forall md, lookup_message xs (q "Nums") = Some md -> lossy_free xs md = true) /\
  (forall md, lookup_message xs (q "Plain") = Some md -> lossy_free xs md = true) /\
  (forall md, lookup_message ebs (q "TsNull") = Some md -> lossy_free ebs md = true) /\
  owner_of ebs tsnull_md = Own FtEmpty.
Proof. exact EmptyConforms.norm_id_nonvacuous. Qed.

(* ONE round-trip theorem for every message type whose codec is none or exactly one of the five field codecs
   (nullable, int64 NUMBER, bytes_encoding, timestamp_format, empty_behavior) — C04_roundtrip_full restricted by
   the computable [field_codec_owner] and nothing else: distinct JSON names, "the emitted codec compiles",
   "tn is not a well-known type" and "no NULL Timestamp holds the epoch" are derived in proofs/CodecCompose.v
   from wt, encode = ROk and defects_C04 = [] *)
From SebufProofs Require CodecCompose.
Theorem C04_roundtrip_field_codecs : forall E, ExtLaws E -> forall sc tn m j,
  CodecCompose.field_codec_owner sc tn = true ->
  wt sc (KMessage tn) (FM m) = true ->
  defects_C04 sc tn m = [] ->
  encode E sc tn m = ROk j -> decode E sc tn j = ROk (norm sc tn m).
Proof. exact CodecCompose.C04_roundtrip_field_codecs. Qed.
Print Assumptions C04_roundtrip_field_codecs.

(* non-vacuity on the shared schema xs: one message type per field codec and one without a codec; every
   hypothesis holds, the annotated field is populated (absent for nullable), the conclusion is evaluated *)
Example C04_field_codecs_nonvacuous :
  CodecCompose.c04_case_ok xs (q "Nums") (Own FtInt64)
    [(s "big", vint 9007199254740993); (s "name", vstr "n")]
    (JObj [(s "big", JNum 9007199254740993); (s "name", JStr (s "n"))])
    [(s "big", vint 9007199254740993); (s "name", vstr "n")] /\
  CodecCompose.c04_case_ok xs (q "Nul") (Own FtNullable)
    [(s "id", vstr "x")]
    (JObj [(s "id", JStr (s "x")); (s "nick", JNull)])
    [(s "id", vstr "x")] /\
  CodecCompose.c04_case_ok xs (q "Nul") (Own FtNullable)
    [(s "nick", vstr "k"); (s "id", vstr "x")]
    (JObj [(s "nick", JStr (s "k")); (s "id", JStr (s "x"))])
    [(s "nick", vstr "k"); (s "id", vstr "x")] /\
  CodecCompose.c04_case_ok xs (q "Emp") (Own FtEmpty)
    [(s "nul_it", FM []); (s "omit", FM []); (s "id", vstr "x")]
    (JObj [(s "nulIt", JNull); (s "id", JStr (s "x"))])
    [(s "nul_it", FM []); (s "id", vstr "x")] /\
  CodecCompose.c04_case_ok xs (q "Times") (Own FtTs)
    [(s "secs", tsv 5 123456789); (s "day", tsv 90000 1); (s "id", vstr "x")]
    (JObj [(s "secs", JNum 5); (s "day", JStr (s "1970-01-02")); (s "id", JStr (s "x"))])
    [(s "secs", tsv 5 0); (s "day", tsv 86400 0); (s "id", vstr "x")] /\
  CodecCompose.c04_case_ok xs (q "Blob") (Own FtBytes)
    [(s "h", FS (VBytes [ch 105; ch 183])); (s "id", vstr "x")]
    (JObj [(s "h", JStr (s "69b7")); (s "id", JStr (s "x"))])
    [(s "h", FS (VBytes [ch 105; ch 183])); (s "id", vstr "x")] /\
  CodecCompose.c04_case_ok xs (q "Leaf") OwnNone
    [(s "a", vstr "x"); (s "n", vint 3)]
    (JObj [(s "a", JStr (s "x")); (s "n", JStr (s "3"))])
    [(s "a", vstr "x"); (s "n", vint 3)].
Proof. exact CodecCompose.roundtrip_field_codecs_nonvacuous. Qed.
Print Assumptions C04_field_codecs_nonvacuous.

(* defects_C04 = [] cannot be dropped: every other hypothesis holds and the round trip fails
   (empty_behavior = NULL on a Timestamp field holding the epoch) *)
Example C04_roundtrip_field_codecs_needs_no_defects :
  let m := [(s "at", FM []); (s "id", vstr "x")] in
  CodecCompose.field_codec_owner ebs (q "TsNull") = true /\
  wt ebs (KMessage (q "TsNull")) (FM m) = true /\
  defects_C04 ebs (q "TsNull") m = [D4EmptyNullEpochTs] /\
  encode Ex ebs (q "TsNull") m = ROk (JObj [(s "at", JNull); (s "id", JStr (s "x"))]) /\
  decode Ex ebs (q "TsNull") (JObj [(s "at", JNull); (s "id", JStr (s "x"))]) = RErr (s "invalid timestamp").
Proof. exact CodecCompose.roundtrip_field_codecs_needs_no_defects. Qed.

(* what field_codec_owner accepts *)
Example C04_field_codec_owner_examples :
  CodecCompose.field_codec_owner xs (q "Person") = false /\ CodecCompose.field_codec_owner xs (q "Event") = false /\
  CodecCompose.field_codec_owner xs (q "Series") = false /\ CodecCompose.field_codec_owner xs (q "Strs") = false /\
  CodecCompose.field_codec_owner xs (s "x.v1.Missing") = false /\ CodecCompose.field_codec_owner xs ts_name = true.
Proof. exact CodecCompose.field_codec_owner_examples. Qed.

(* C04 for the root-unwrap codec (internal/httpgen/unwrap.go:734-982) in general: a message whose only field
   carries (sebuf.http.unwrap) is written as the bare array / object of that field and read back from it, for
   every schema and every well-typed value: root list of messages, root map<string, message>, root
   map<string, Wrapper> (the combined form; [norm] keeps only the unwrap field of a wrapper), root list / map of
   scalars (through encoding/json; a nil scalar slice or map is written as null and null is read as "nothing
   set").  The schema side condition [unwrap_root_dom] only concerns enums that own a MarshalJSON. *)
From SebufProofs Require UnwrapRootFacts UnwrapRootConforms UnwrapRootExamples.
Theorem C04_roundtrip_unwrap_root : forall E, ExtLaws E -> forall sc tn md m j,
  str_eqb tn ts_name = false -> is_wkt_other tn = false ->
  find_message (all_messages sc) tn = Some md -> owner_of sc md = Own FtUnwrapRoot ->
  UnwrapRootFacts.unwrap_root_dom sc md = true ->
  wt sc (KMessage tn) (FM m) = true -> defects_C04 sc tn m = [] ->
  encode E sc tn m = ROk j -> decode E sc tn j = ROk (norm sc tn m).
Proof. exact UnwrapRootFacts.unwrap_root_roundtrip. Qed.
Print Assumptions C04_roundtrip_unwrap_root.

(* the shapes whose elements are messages: no side condition, no defect hypothesis *)
Theorem C04_roundtrip_unwrap_root_messages : forall E, ExtLaws E -> forall sc tn md m j,
  str_eqb tn ts_name = false -> is_wkt_other tn = false ->
  find_message (all_messages sc) tn = Some md -> owner_of sc md = Own FtUnwrapRoot ->
  UnwrapRootFacts.msg_elems sc md = true ->
  wt sc (KMessage tn) (FM m) = true ->
  encode E sc tn m = ROk j -> decode E sc tn j = ROk (norm sc tn m).
Proof. exact UnwrapRootFacts.unwrap_root_roundtrip_messages. Qed.
Print Assumptions C04_roundtrip_unwrap_root_messages.

(* non-vacuity on the shared witness schema [xs]: BarList (root list of messages), Strs (root list of strings);
   [root_hyps] bundles every hypothesis of the theorem (and of C05_conforms_unwrap_root_partial) *)
Example C04_unwrap_root_nonvacuous_xs :
  (let m := [(s "bars", FL [UnwrapRootExamples.leaf1; FM []])] in
   let j := JArr [UnwrapRootExamples.leaf1_json; JObj []] in
   UnwrapRootExamples.root_hyps xs (q "BarList") m /\
   encode Ex xs (q "BarList") m = ROk j /\ to_json Ex xs (q "BarList") m = ROk j /\
   decode Ex xs (q "BarList") j = ROk m /\ norm xs (q "BarList") m = m) /\
  (let m := [(s "vals", FL [vstr "a"; vstr "b"])] in
   let j := JArr [JStr (s "a"); JStr (s "b")] in
   UnwrapRootExamples.root_hyps xs (q "Strs") m /\
   encode Ex xs (q "Strs") m = ROk j /\ to_json Ex xs (q "Strs") m = ROk j /\
   decode Ex xs (q "Strs") j = ROk m /\ norm xs (q "Strs") m = m) /\
  encode Ex xs (q "BarList") [] = ROk (JArr []) /\ decode Ex xs (q "BarList") (JArr []) = ROk [] /\
  encode Ex xs (q "Strs") [] = ROk JNull /\ decode Ex xs (q "Strs") JNull = ROk [].
Proof. exact UnwrapRootExamples.unwrap_root_nonvacuous_xs. Qed.

(* every other shape, on the schema [uws] of proofs/UnwrapRootExamples.v: root map of messages, the combined form
   (the wrapper's other field is lost: norm), root map of strings, combined with string items, root list of doubles *)
Example C04_unwrap_root_nonvacuous_shapes :
  (let m := [(s "by_id", FMap [(VStr (s "a"), UnwrapRootExamples.leaf1); (VStr (s "b"), FM [])])] in
   let j := JObj [(s "a", UnwrapRootExamples.leaf1_json); (s "b", JObj [])] in
   UnwrapRootExamples.root_hyps UnwrapRootExamples.uws (q "LeafMap") m /\
   encode Ex UnwrapRootExamples.uws (q "LeafMap") m = ROk j /\ to_json Ex UnwrapRootExamples.uws (q "LeafMap") m = ROk j /\
   decode Ex UnwrapRootExamples.uws (q "LeafMap") j = ROk m /\ norm UnwrapRootExamples.uws (q "LeafMap") m = m) /\
  (let m := [(s "pages", FMap [(VStr (s "p1"), FM [(s "items", FL [UnwrapRootExamples.leaf1]); (s "total", vint 3)]); (VStr (s "p2"), FM [])])] in
   let m' := [(s "pages", FMap [(VStr (s "p1"), FM [(s "items", FL [UnwrapRootExamples.leaf1])]); (VStr (s "p2"), FM [])])] in
   let j := JObj [(s "p1", JArr [UnwrapRootExamples.leaf1_json]); (s "p2", JArr [])] in
   UnwrapRootExamples.root_hyps UnwrapRootExamples.uws (q "Book") m /\
   encode Ex UnwrapRootExamples.uws (q "Book") m = ROk j /\ to_json Ex UnwrapRootExamples.uws (q "Book") m = ROk j /\
   decode Ex UnwrapRootExamples.uws (q "Book") j = ROk m' /\ norm UnwrapRootExamples.uws (q "Book") m = m') /\
  (let m := [(s "m", FMap [(VStr (s "a"), vstr "x")])] in
   let j := JObj [(s "a", JStr (s "x"))] in
   UnwrapRootExamples.root_hyps UnwrapRootExamples.uws (q "StrMap") m /\
   encode Ex UnwrapRootExamples.uws (q "StrMap") m = ROk j /\ to_json Ex UnwrapRootExamples.uws (q "StrMap") m = ROk j /\
   decode Ex UnwrapRootExamples.uws (q "StrMap") j = ROk m) /\
  (let m := [(s "by_k", FMap [(VStr (s "a"), FM [(s "vals", FL [vstr "x"]); (s "total", vint 2)])])] in
   let m' := [(s "by_k", FMap [(VStr (s "a"), FM [(s "vals", FL [vstr "x"])])])] in
   let j := JObj [(s "a", JArr [JStr (s "x")])] in
   UnwrapRootExamples.root_hyps UnwrapRootExamples.uws (q "TagCombo") m /\
   encode Ex UnwrapRootExamples.uws (q "TagCombo") m = ROk j /\ to_json Ex UnwrapRootExamples.uws (q "TagCombo") m = ROk j /\
   decode Ex UnwrapRootExamples.uws (q "TagCombo") j = ROk m' /\ norm UnwrapRootExamples.uws (q "TagCombo") m = m') /\
  (let m := [(s "rs", FL [FS (VFloat 4609434218613702656)])] in
   let j := JArr [jflt 4609434218613702656] in
   UnwrapRootExamples.root_hyps UnwrapRootExamples.uws (q "Ratios") m /\
   encode Ex UnwrapRootExamples.uws (q "Ratios") m = ROk j /\ to_json Ex UnwrapRootExamples.uws (q "Ratios") m = ROk j /\
   decode Ex UnwrapRootExamples.uws (q "Ratios") j = ROk m).
Proof. exact UnwrapRootExamples.unwrap_root_nonvacuous_shapes. Qed.

Example C04_unwrap_root_messages_nonvacuous :
  (exists md, find_message (all_messages xs) (q "BarList") = Some md /\ owner_of xs md = Own FtUnwrapRoot /\ UnwrapRootFacts.msg_elems xs md = true) /\
  (exists md, find_message (all_messages UnwrapRootExamples.uws) (q "LeafMap") = Some md /\ owner_of UnwrapRootExamples.uws md = Own FtUnwrapRoot /\ UnwrapRootFacts.msg_elems UnwrapRootExamples.uws md = true) /\
  (exists md, find_message (all_messages UnwrapRootExamples.uws) (q "Book") = Some md /\ owner_of UnwrapRootExamples.uws md = Own FtUnwrapRoot /\ UnwrapRootFacts.msg_elems UnwrapRootExamples.uws md = true) /\
  (exists md, find_message (all_messages xs) (q "Strs") = Some md /\ owner_of xs md = Own FtUnwrapRoot /\ UnwrapRootFacts.msg_elems xs md = false).
Proof. exact UnwrapRootExamples.unwrap_root_messages_nonvacuous. Qed.

(* an enum with enum_value texts among the scalar elements *)
Example C04_unwrap_root_nonvacuous_enum :
  let m := [(s "cs", FL [FS (VEnum 1); FS (VEnum 2); FS (VEnum 0)])] in
  let j := JArr [JStr (s "red"); JStr (s "blue"); JStr (s "COLOR_UNSPECIFIED")] in
  (exists md, find_message (all_messages UnwrapRootExamples.uws) (q "Colors") = Some md /\ owner_of UnwrapRootExamples.uws md = Own FtUnwrapRoot /\
              UnwrapRootFacts.unwrap_root_dom UnwrapRootExamples.uws md = true) /\
  wt UnwrapRootExamples.uws (KMessage (q "Colors")) (FM m) = true /\ defects_C04 UnwrapRootExamples.uws (q "Colors") m = [] /\
  encode Ex UnwrapRootExamples.uws (q "Colors") m = ROk j /\ decode Ex UnwrapRootExamples.uws (q "Colors") j = ROk m.
Proof. exact UnwrapRootExamples.unwrap_root_nonvacuous_enum. Qed.

(* refutations: each side condition is needed *)
(* two enum values sharing one enum_value text: DUP_B is read back as DUP_A *)
Example C04_roundtrip_unwrap_root_needs_enum_texts_distinct :
  let m := [(s "ds", FL [FS (VEnum 1)])] in
  (exists md, find_message (all_messages UnwrapRootExamples.uws) (q "Dups") = Some md /\ owner_of UnwrapRootExamples.uws md = Own FtUnwrapRoot /\
              UnwrapRootFacts.unwrap_root_dom UnwrapRootExamples.uws md = false) /\
  wt UnwrapRootExamples.uws (KMessage (q "Dups")) (FM m) = true /\ defects_C04 UnwrapRootExamples.uws (q "Dups") m = [] /\
  encode Ex UnwrapRootExamples.uws (q "Dups") m = ROk (JArr [JStr (s "same")]) /\
  decode Ex UnwrapRootExamples.uws (q "Dups") (JArr [JStr (s "same")]) = ROk [(s "ds", FL [FS (VEnum 0)])] /\
  norm UnwrapRootExamples.uws (q "Dups") m = m.
Proof. exact UnwrapRootExamples.unwrap_root_roundtrip_needs_enum_texts_distinct. Qed.
(* an undefined number of an enum with a MarshalJSON INSIDE a wrapper: defects_C04 = [] (the classifier only looks
   at the root field), yet "99" is not read back *)
Example C04_roundtrip_unwrap_root_needs_no_codec_enum_in_wrapper :
  let m := [(s "by_k", FMap [(VStr (s "a"), FM [(s "cs", FL [FS (VEnum 99)])])])] in
  (exists md, find_message (all_messages UnwrapRootExamples.uws) (q "ColorCombo") = Some md /\ owner_of UnwrapRootExamples.uws md = Own FtUnwrapRoot /\
              UnwrapRootFacts.unwrap_root_dom UnwrapRootExamples.uws md = false) /\
  wt UnwrapRootExamples.uws (KMessage (q "ColorCombo")) (FM m) = true /\ defects_C04 UnwrapRootExamples.uws (q "ColorCombo") m = [] /\
  encode Ex UnwrapRootExamples.uws (q "ColorCombo") m = ROk (JObj [(s "a", JArr [JStr (s "99")])]) /\
  decode Ex UnwrapRootExamples.uws (q "ColorCombo") (JObj [(s "a", JArr [JStr (s "99")])]) = RErr (s "unknown enum value").
Proof. exact UnwrapRootExamples.unwrap_root_roundtrip_needs_no_codec_enum_in_wrapper. Qed.
(* the same at the root is D4EnumCodecUnknown: the hypothesis defects_C04 = [] is needed *)
Example C04_roundtrip_unwrap_root_needs_defect_free :
  let m := [(s "cs", FL [FS (VEnum 99)])] in
  (exists md, find_message (all_messages UnwrapRootExamples.uws) (q "Colors") = Some md /\ owner_of UnwrapRootExamples.uws md = Own FtUnwrapRoot /\
              UnwrapRootFacts.unwrap_root_dom UnwrapRootExamples.uws md = true) /\
  wt UnwrapRootExamples.uws (KMessage (q "Colors")) (FM m) = true /\ defects_C04 UnwrapRootExamples.uws (q "Colors") m = [D4EnumCodecUnknown] /\
  encode Ex UnwrapRootExamples.uws (q "Colors") m = ROk (JArr [JStr (s "99")]) /\
  decode Ex UnwrapRootExamples.uws (q "Colors") (JArr [JStr (s "99")]) = RErr (s "unknown enum value").
Proof. exact UnwrapRootExamples.unwrap_root_roundtrip_needs_defect_free. Qed.

(* the map-value unwrap codec (FtUnwrapMap, internal/httpgen/unwrap.go:356-676) *)
From SebufProofs Require UnwrapMapFacts.

(* C04 for EVERY message type whose codec is the map-value unwrap one, every schema, every well-typed value,
   in the region defects_C04 = [] (known classes there: -0.0 in a singular sibling; NaN/Inf siblings make
   encode fail).  Derived inside: tn is not a well-known type, distinct JSON names, the emitted code compiles.
   Two computable side conditions, each shown necessary below:
     gj_enums_rt          every enum number handed to encoding/json (sibling enum fields AND the scalar items of a
                          wrapper) is declared and its JSON text names, first, a value with that number;
     reflected_maps_plain a sibling map whose values are messages WITHOUT an unwrap field goes through
                          encoding/json's reflection: its values are un-annotated (no codec-owning message below,
                          no present-but-empty bytes field).
   _partial: the codec-owning values of such a reflected map are the remainder (UnwrapMapFacts.unwrap_map_roundtrip_full). *)
Theorem C04_roundtrip_unwrap_map_partial : forall E, ExtLaws E -> forall sc tn md m j,
  find_message (all_messages sc) tn = Some md -> owner_of sc md = Own FtUnwrapMap ->
  wt sc (KMessage tn) (FM m) = true ->
  defects_C04 sc tn m = [] ->
  UnwrapMapFacts.gj_enums_rt sc md m = true -> UnwrapMapFacts.reflected_maps_plain sc md m = true ->
  encode E sc tn m = ROk j -> decode E sc tn j = ROk (norm sc tn m).
Proof. exact UnwrapMapFacts.unwrap_map_roundtrip. Qed.
Print Assumptions C04_roundtrip_unwrap_map_partial.

(* encoding/json both ways on an un-annotated value of any kind (scalars of every kind, repeated scalars, scalar
   maps, nested structs by reflection, Timestamp as {seconds, nanos}), with the fuel decode supplies *)
Theorem C04_gj_reflect_roundtrip : forall E, ExtLaws E -> forall sc v k j n,
  wt sc k v = true -> UnwrapMapFacts.reflectable sc k v = true ->
  gj_fval E sc k v = ROk j -> (json_size j <= n)%nat -> gj_un E sc (S n) k j = ROk (Some v).
Proof. exact UnwrapMapFacts.gj_reflect_roundtrip. Qed.
Print Assumptions C04_gj_reflect_roundtrip.

(* non-vacuity: ScoreBoard (three unwrap maps: message / string / enum items; siblings of every covered shape;
   fields declared out of number order; the wrappers lose their "note") and Series of the shared schema xs *)
Example C04_unwrap_map_nonvacuous :
  UnwrapMapFacts.um_case_ok UnwrapMapFacts.Eu UnwrapMapFacts.ums (q "ScoreBoard")
    UnwrapMapFacts.board_val UnwrapMapFacts.board_json UnwrapMapFacts.board_back /\
  UnwrapMapFacts.um_case_ok Ex xs (q "Series")
    [(s "by_sym", FMap [(VStr (s "A"), FM [(s "bars", FL [FM [(s "a", vstr "x")]; FM []])])]);
     (s "total_count", vint 4); (s "ratio", FS (VFloat 4609434218613702656))]
    (JObj [(s "bySym", JObj [(s "A", JArr [JObj [(s "a", JStr (s "x"))]; JObj []])]);
           (s "totalCount", JNum 4); (s "ratio", jflt 4609434218613702656)])
    [(s "by_sym", FMap [(VStr (s "A"), FM [(s "bars", FL [FM [(s "a", vstr "x")]; FM []])])]);
     (s "total_count", vint 4); (s "ratio", FS (VFloat 4609434218613702656))].
Proof. exact UnwrapMapFacts.unwrap_map_roundtrip_nonvacuous. Qed.

(* gj_enums_rt is needed, (1): an undefined enum number among the scalar items of a wrapper is written "99" by the
   emitted enum MarshalJSON and refused on the way back; no class of defects_C04 fires (enum-codec-unknown-number
   looks at sibling fields only) *)
Example C04_unwrap_map_needs_known_wrapper_enums :
  UnwrapMapFacts.um_case_but UnwrapMapFacts.Eu UnwrapMapFacts.ums (q "ScoreBoard")
    [(s "palette", FMap [(VStr (s "k"), FM [(s "cs", FL [FS (VEnum 1); FS (VEnum 99)])])])]
    false true []
    (JObj [(s "palette", JObj [(s "k", JArr [JStr (s "red"); JStr (s "99")])])])
    (RErr (s "unknown enum value")).
Proof. exact UnwrapMapFacts.unwrap_map_roundtrip_needs_known_wrapper_enums. Qed.

(* gj_enums_rt is needed, (2): two enum values with the same custom enum_value text: DUP_B comes back as DUP_A *)
Example C04_unwrap_map_needs_unambiguous_enum_json :
  UnwrapMapFacts.um_case_but UnwrapMapFacts.Eu UnwrapMapFacts.ums (q "DupBoard")
    [(s "d", FS (VEnum 2))]
    false true []
    (JObj [(s "d", JStr (s "same"))])
    (ROk [(s "d", FS (VEnum 1))]) /\
  UnwrapMapFacts.um_case_but UnwrapMapFacts.Eu UnwrapMapFacts.ums (q "DupBoard")
    [(s "by_sym", FMap [(VStr (s "k"), FM [(s "ds", FL [FS (VEnum 2)])])])]
    false true []
    (JObj [(s "bySym", JObj [(s "k", JArr [JStr (s "same")])])])
    (ROk [(s "by_sym", FMap [(VStr (s "k"), FM [(s "ds", FL [FS (VEnum 1)])])])]).
Proof. exact UnwrapMapFacts.unwrap_map_roundtrip_needs_unambiguous_enum_json. Qed.

(* reflected_maps_plain: (1) `json:"b,omitempty"` drops a present-but-empty optional bytes field of a reflected map
   value; its presence is lost (confirmed on the emitted code; the class D4ReflectedEmptyOptBytes,
   "reflected-child-empty-optional-bytes-dropped", fires);
   (2) an enum field of a reflected map value whose type carries one custom text on two values
   (DUP_B is written "same" and read back as DUP_A); no class of defects_C04 fires *)
Example C04_unwrap_map_needs_reflected_maps_plain :
  UnwrapMapFacts.um_case_but UnwrapMapFacts.Eu UnwrapMapFacts.ums (q "RefBoard")
    [(s "opts", FMap [(VStr (s "k"), FM [(s "b", FS (VBytes [])); (s "t", vstr "x")])])]
    true false [D4ReflectedEmptyOptBytes]
    (JObj [(s "opts", JObj [(s "k", JObj [(s "t", JStr (s "x"))])])])
    (ROk [(s "opts", FMap [(VStr (s "k"), FM [(s "t", vstr "x")])])]) /\
  UnwrapMapFacts.um_case_but UnwrapMapFacts.Eu UnwrapMapFacts.ums (q "RefBoard")
    [(s "dups", FMap [(VStr (s "k"), FM [(s "d", FS (VEnum 2))])])]
    true false []
    (JObj [(s "dups", JObj [(s "k", JObj [(s "d", JStr (s "same"))])])])
    (ROk [(s "dups", FMap [(VStr (s "k"), FM [(s "d", FS (VEnum 1))])])]).
Proof. exact UnwrapMapFacts.unwrap_map_roundtrip_needs_reflected_maps_plain. Qed.

(* defects_C04 = [] is needed: -0.0 in a singular sibling is dropped by `x.F != 0` *)
Example C04_unwrap_map_needs_no_defects :
  UnwrapMapFacts.um_case_but Ex xs (q "Series")
    [(s "ratio", FS (VFloat 9223372036854775808))]
    true true [D4UnwrapSiblingNegZero]
    (JObj [])
    (ROk []).
Proof. exact UnwrapMapFacts.unwrap_map_roundtrip_needs_no_defects. Qed.

(* The discriminated-oneof codec (oneof_discriminator.go), flattened and non-flattened, for ALL schemas and all
   well-typed values: no member set, a scalar member, a message member whose type has no codec of its own.
   - OneofPj.wt1 is ProtoJsonFacts.wt for a message type that declares oneofs (wt rejects every such type): members
     singular, at most one member of each oneof populated; the children are well-typed in the sense of wt.
   - defects_C04 = [] is the classifier's region (D4FlatOneofChild, D4OneofVariantReflect, D4FlatOneofRemarshal,
     D4OneofMemberIsDiscriminator, D4FlatVariantFieldIsVariant, D4FlatVariantBoolMap, D4OneofVariantBoolMap,
     D4OneofVariantFoldClash, D4ReflectedEmptyOptBytes).
   - distinct oneof names: what protoc guarantees.
   - OneofFacts.oneof_keys_ok: the keys of the rendered object (populated fields, discriminators, inlined child fields)
     and the keys the decoder looks up are pairwise distinct.  ValidateOneofDiscriminator checks part of it; it misses
     a variant named like its own discriminator, a flattened child field named like its variant, two oneofs
     sharing a discriminator or inlined names.
   - OneofFacts.disc_values_ok: distinct discriminator values within a oneof (else the emitted switch has a duplicate case).
   - OneofFacts.variant_types_plain: the populated message member's type has no codec of its own and is not Timestamp.
     PARTIAL here: a member whose type owns a codec (the D4FlatOneofRemarshal region, and the non-flattened case where
     the variant's own UnmarshalJSON is given the protojson form) is the sub-case that is not proved; Timestamp members
     and an empty_behavior = NULL child are refuted below although no defect class fires.
   - OneofFacts.variant_no_gap: no multi-word field of a NON-flattened member has a lowerCamel key that folds, for
     encoding/json, onto another field of the Go struct.  (The other shapes that break the round trip of such a
     member — empty optional bytes, bool-keyed maps, NaN / Infinity inside repeated or map floats, and the folding
     itself when the other field does not read the value, D4OneofVariantFoldClash — were confirmed on the emitted
     code and are defect classes of defects_C04; what is left — the other field does read the value — round-trips
     but is not proved, see C04_roundtrip_oneof_no_gap_remainder.) *)
From SebufProofs Require OneofPj OneofFacts OneofExamples.
Theorem C04_roundtrip_oneof_partial : forall E, ExtLaws E -> forall sc tn md m j,
  find_message (all_messages sc) tn = Some md -> owner_of sc md = Own FtOneof ->
  OneofPj.wt1 sc tn m = true ->
  defects_C04 sc tn m = [] ->
  NullableFacts.nodup_str (map o_name (m_oneofs md)) = true ->
  OneofFacts.oneof_keys_ok sc md m = true -> OneofFacts.disc_values_ok md = true ->
  OneofFacts.variant_types_plain sc md m = true -> OneofFacts.variant_no_gap sc md m = true ->
  encode E sc tn m = ROk j -> decode E sc tn j = ROk (norm sc tn m).
Proof. exact OneofFacts.oneof_roundtrip. Qed.
Print Assumptions C04_roundtrip_oneof_partial.

(* wt1 generalises wt (so the theorem also speaks about every value C04_roundtrip_full speaks about) and accepts
   populated oneof members, which wt does not *)
Theorem C04_wt1_generalises_wt : forall sc tn m,
  str_eqb tn ts_name = false -> wt sc (KMessage tn) (FM m) = true -> OneofPj.wt1 sc tn m = true.
Proof. exact OneofPj.wt_wt1. Qed.
Print Assumptions C04_wt1_generalises_wt.
Example C04_wt1_beyond_wt :
  wt xs (KMessage (q "Event")) (FM [(s "eid", vstr "e"); (s "image", FM [(s "url", vstr "u")])]) = false /\
  OneofPj.wt1 xs (q "Event") [(s "eid", vstr "e"); (s "image", FM [(s "url", vstr "u")])] = true /\
  OneofPj.wt1 OneofExamples.os (q "Ev") [(s "text", vstr "a"); (s "ctype", vstr "b")] = false.
Proof. exact OneofExamples.wt1_beyond_wt. Qed.

(* non-vacuity: every hypothesis holds (OneofExamples.oneof_hyps lists them in the order of the statement), the member is
   populated, the conclusion is evaluated.  Shared schema xs: Event (non-flattened), FlatEvent (flattened) *)
Example C04_roundtrip_oneof_nonvacuous_xs :
  OneofExamples.oneof_case_ok xs (q "Event") [(s "eid", vstr "e"); (s "image", FM [(s "url", vstr "u")])]
    (JObj [(s "eid", JStr (s "e")); (s "image", JObj [(s "url", JStr (s "u"))]); (s "ctype", JStr (s "image"))]) /\
  OneofExamples.oneof_case_ok xs (q "FlatEvent") [(s "eid", vstr "e"); (s "wide", FM [])]
    (JObj [(s "eid", JStr (s "e")); (s "ctype", JStr (s "wide"))]).
Proof. exact OneofExamples.oneof_nonvacuous_xs. Qed.
(* schema OneofExamples.os: no member; a scalar member; a non-flattened message member (multi-word field, repeated double);
   a flattened message member (int64, repeated, map, double inlined); two configured oneofs at once *)
Example C04_roundtrip_oneof_nonvacuous_os :
  OneofExamples.oneof_case_ok OneofExamples.os (q "Ev") [(s "eid", vstr "e")] (JObj [(s "eid", JStr (s "e"))]) /\
  OneofExamples.oneof_case_ok OneofExamples.os (q "Ev") [(s "eid", vstr "e"); (s "text", vstr "hi")]
    (JObj [(s "eid", JStr (s "e")); (s "text", JStr (s "hi")); (s "ctype", JStr (s "text"))]) /\
  OneofExamples.oneof_case_ok OneofExamples.os (q "Ev")
    [(s "eid", vstr "e"); (s "note", FM [(s "body_text", vstr "b"); (s "w", vint 3); (s "fs", FL [FS (VFloat 4609434218613702656)])])]
    (JObj [(s "eid", JStr (s "e"));
           (s "note", JObj [(s "bodyText", JStr (s "b")); (s "w", JNum 3); (s "fs", JArr [jflt 4609434218613702656])]);
           (s "ctype", JStr (s "note"))]) /\
  OneofExamples.oneof_case_ok OneofExamples.os (q "Fl") [(s "eid", vstr "e"); (s "pic", OneofExamples.picv)]
    (JObj ([(s "eid", JStr (s "e")); (s "ctype", JStr (s "pic"))] ++ OneofExamples.picj)) /\
  OneofExamples.oneof_case_ok OneofExamples.os (q "Two")
    [(s "eid", vstr "e"); (s "pic", OneofExamples.picv); (s "note", FM [(s "w", vint 3)])]
    (JObj ([(s "eid", JStr (s "e")); (s "note", JObj [(s "w", JNum 3)]); (s "akind", JStr (s "pic"))] ++ OneofExamples.picj ++
           [(s "bkind", JStr (s "note"))])).
Proof. exact OneofExamples.oneof_nonvacuous_os. Qed.
Print Assumptions C04_roundtrip_oneof_nonvacuous_os.

(* every side condition is needed: all the other hypotheses hold (oneof_case_needs n: all but the n-th) and the round trip
   fails.  4 = oneof_keys_ok *)
Example C04_roundtrip_oneof_needs_keys_ok :
  defects_C04 OneofExamples.os (q "Ev") [(s "eid", vstr "e"); (s "ctype", vstr "x")] = [D4OneofMemberIsDiscriminator] /\
  OneofExamples.oneof_case_needs 4 OneofExamples.os (q "Dup")
    [(s "eid", vstr "e"); (s "pic", FM [(s "url", vstr "u")]); (s "leaf", FM [(s "a", vstr "x")])] /\
  (* (since confirmed on the emitted code and tagged: defect class D4FlatVariantFieldIsVariant) *)
  defects_C04 OneofExamples.os (q "Fl") [(s "eid", vstr "e"); (s "self", FM [(s "self", vstr "x")])] = [D4FlatVariantFieldIsVariant].
Proof. exact OneofExamples.oneof_needs_keys_ok. Qed.
(* the generators' own validation accepts the message types of these witnesses *)
Example C04_roundtrip_oneof_validator_accepts :
  OneofExamples.validator_accepts OneofExamples.os (q "Ev") = true /\ OneofExamples.validator_accepts OneofExamples.os (q "Fl") = true /\
  OneofExamples.validator_accepts OneofExamples.os (q "Dup") = true /\ OneofExamples.validator_accepts OneofExamples.os (q "Dv") = true /\
  OneofExamples.validator_accepts OneofExamples.os (q "Two") = true.
Proof. exact OneofExamples.oneof_validator_accepts. Qed.
(* 5 = disc_values_ok *)
Example C04_roundtrip_oneof_needs_disc_values :
  OneofExamples.oneof_case_needs 5 OneofExamples.os (q "Dv") [(s "pic", FM [(s "url", vstr "u")])].
Proof. exact OneofExamples.oneof_needs_disc_values. Qed.
(* 6 = variant_types_plain: Timestamp member (non-flattened, flattened), empty_behavior = NULL child; no defect class fires *)
Example C04_roundtrip_oneof_needs_types_plain :
  OneofExamples.oneof_case_needs 6 OneofExamples.os (q "Ev") [(s "eid", vstr "e"); (s "at", FM [])] /\
  OneofExamples.oneof_case_needs 6 OneofExamples.os (q "Fl") [(s "eid", vstr "e"); (s "at", FM [(s "seconds", vint 5)])] /\
  OneofExamples.oneof_case_needs 6 OneofExamples.os (q "Fl") [(s "eid", vstr "e"); (s "ec", FM [(s "nul_it", FM [])])].
Proof. exact OneofExamples.oneof_needs_types_plain. Qed.
(* 7 = variant_no_gap.  The neighbouring shapes (empty optional bytes / bool-keyed map in a flattened member; NaN in a
   repeated double / bool-keyed map / a multi-word key folding onto a field of another type in a non-flattened one) are
   defect classes, confirmed on the emitted code — D4ReflectedEmptyOptBytes, D4FlatVariantBoolMap, D4OneofVariantReflect,
   D4OneofVariantBoolMap, D4OneofVariantFoldClash: the classifier fires on each and the round trip fails.  What the
   condition itself excludes is C04_roundtrip_oneof_no_gap_remainder below *)
Example C04_roundtrip_oneof_needs_no_gap :
  defects_C04 OneofExamples.os (q "Fl") [(s "eid", vstr "e"); (s "pic", FM [(s "ob", FS (VBytes []))])] = [D4ReflectedEmptyOptBytes] /\
  rt_holds Ex OneofExamples.os (q "Fl") [(s "eid", vstr "e"); (s "pic", FM [(s "ob", FS (VBytes []))])] = false /\
  defects_C04 OneofExamples.os (q "Fl") [(s "eid", vstr "e"); (s "pic", FM [(s "bm", FMap [(VBool true, vstr "x")])])] = [D4FlatVariantBoolMap] /\
  defects_C04 OneofExamples.os (q "Ev")
    [(s "eid", vstr "e"); (s "note", FM [(s "fs", FL [FS (VFloat 9221120237041090561)])])] = [D4OneofVariantReflect] /\
  rt_holds Ex OneofExamples.os (q "Ev") [(s "eid", vstr "e"); (s "note", FM [(s "fs", FL [FS (VFloat 9221120237041090561)])])] = false /\
  defects_C04 OneofExamples.os (q "Ev")
    [(s "eid", vstr "e"); (s "note", FM [(s "bm", FMap [(VBool true, vstr "x")])])] = [D4OneofVariantBoolMap] /\
  rt_holds Ex OneofExamples.os (q "Ev") [(s "eid", vstr "e"); (s "note", FM [(s "bm", FMap [(VBool true, vstr "x")])])] = false /\
  defects_C04 OneofExamples.os (q "Ev") [(s "eid", vstr "e"); (s "fo", FM [(s "alt_text", vstr "x")])] = [D4OneofVariantFoldClash] /\
  rt_holds Ex OneofExamples.os (q "Ev") [(s "eid", vstr "e"); (s "fo", FM [(s "alt_text", vstr "x")])] = false.
Proof. exact OneofExamples.oneof_needs_no_gap. Qed.
(* the remainder of variant_no_gap: the lowerCamel key folds onto a field that reads the value (two strings).  All the other
   hypotheses hold, no class fires, and the round trip HOLDS: the condition is a limit of the proof here, not a defect *)
Example C04_roundtrip_oneof_no_gap_remainder :
  let m := [(s "fo", FM [(s "foo_bar", vstr "."); (s "foobar", vstr "..")])] in
  OneofExamples.oneof_hyps OneofExamples.fs (q "NestG") m = map (fun i => negb (Nat.eqb i 7)) (seq 0 8) /\
  rt_holds Ex OneofExamples.fs (q "NestG") m = true.
Proof. exact OneofExamples.oneof_no_gap_remainder. Qed.
(* 2 = defects_C04 = [] *)
Example C04_roundtrip_oneof_needs_no_defects :
  OneofExamples.oneof_case_needs 2 xs (q "Event") [(s "image", FM [(s "size", vint 7)])] /\
  OneofExamples.oneof_case_needs 2 xs (q "FlatEvent") [(s "eid", vstr "e"); (s "wide", FM [(s "alt_text", vstr "a")])].
Proof. exact OneofExamples.oneof_needs_no_defects. Qed.

(* One refutation per defect class the side conditions of C04_roundtrip_oneof_partial / C04_roundtrip_unwrap_map_partial
   exposed (each confirmed on the emitted code, catalogue packages cxoneofdisc / cxoneofkeys / cxoneofgaps): the class fires
   alone, MarshalJSON answers, UnmarshalJSON does not give the value back. *)
Theorem C04_refuted_oneof_member_is_discriminator :
  OneofExamples.refuted4_on OneofExamples.os D4OneofMemberIsDiscriminator (q "Ev") [(s "eid", vstr "e"); (s "ctype", vstr "x")].
Proof. exact OneofExamples.refuted_oneof_member_is_discriminator. Qed.
Print Assumptions C04_refuted_oneof_member_is_discriminator.
Theorem C04_refuted_flat_variant_field_is_variant :
  OneofExamples.refuted4_on OneofExamples.os D4FlatVariantFieldIsVariant (q "Fl") [(s "eid", vstr "e"); (s "self", FM [(s "self", vstr "x")])].
Proof. exact OneofExamples.refuted_flat_variant_field_is_variant. Qed.
Print Assumptions C04_refuted_flat_variant_field_is_variant.
Theorem C04_refuted_flat_variant_bool_map :
  OneofExamples.refuted4_on OneofExamples.os D4FlatVariantBoolMap (q "Fl")
    [(s "eid", vstr "e"); (s "pic", FM [(s "bm", FMap [(VBool true, vstr "x")])])].
Proof. exact OneofExamples.refuted_flat_variant_bool_map. Qed.
Print Assumptions C04_refuted_flat_variant_bool_map.
Theorem C04_refuted_oneof_variant_bool_map :
  OneofExamples.refuted4_on OneofExamples.os D4OneofVariantBoolMap (q "Ev")
    [(s "eid", vstr "e"); (s "note", FM [(s "bm", FMap [(VBool true, vstr "x")])])].
Proof. exact OneofExamples.refuted_oneof_variant_bool_map. Qed.
Print Assumptions C04_refuted_oneof_variant_bool_map.
Theorem C04_refuted_reflected_empty_opt_bytes :
  OneofExamples.refuted4_on OneofExamples.os D4ReflectedEmptyOptBytes (q "Fl") [(s "eid", vstr "e"); (s "pic", FM [(s "ob", FS (VBytes []))])].
Proof. exact OneofExamples.refuted_reflected_empty_opt_bytes. Qed.
Print Assumptions C04_refuted_reflected_empty_opt_bytes.
Theorem C04_refuted_oneof_variant_fold_clash :
  OneofExamples.refuted4_on OneofExamples.os D4OneofVariantFoldClash (q "Ev") [(s "eid", vstr "e"); (s "fo", FM [(s "alt_text", vstr "x")])].
Proof. exact OneofExamples.refuted_oneof_variant_fold_clash. Qed.
Print Assumptions C04_refuted_oneof_variant_fold_clash.
(* D4OneofVariantReflect also covers NaN / Infinity as an ELEMENT of a repeated float field or a VALUE of a map *)
Theorem C04_refuted_oneof_variant_reflect_nonfinite_element :
  OneofExamples.refuted4_on OneofExamples.os D4OneofVariantReflect (q "Ev")
    [(s "eid", vstr "e"); (s "note", FM [(s "fs", FL [FS (VFloat 9221120237041090561)])])].
Proof. exact OneofExamples.refuted_oneof_variant_reflect_nonfinite_element. Qed.
Print Assumptions C04_refuted_oneof_variant_reflect_nonfinite_element.

(* The decoder model on contract-form input, two corners of encoding/json (both observed on the emitted code):
   - two keys of one object that address the same struct field (an exact and a case-folded match): the field is assigned
     once per key in document order — and the flattened decoder's json.Marshal(variantMap) puts the keys in byte order —
     so the later key wins and the other field's value is silently lost;
   - map[bool]T is no target for json.Unmarshal: a bool-keyed map inside a variant is refused, flattened or not. *)
Example C04_flat_decode_fold_clash :
  decode Ex OneofExamples.fs (q "FlatG") (JObj [(s "fooBar", JStr (s ".")); (s "foobar", JStr (s "..")); (s "kind", JStr (s "fo"))])
    = ROk [(s "fo", FM [(s "foobar", vstr "..")])] /\
  decode Ex OneofExamples.fs (q "FlatG") (JObj [(s "foobar", JStr (s "..")); (s "kind", JStr (s "fo")); (s "fooBar", JStr (s "."))])
    = ROk [(s "fo", FM [(s "foobar", vstr "..")])] /\
  decode Ex OneofExamples.fs (q "NestG")
    (JObj [(s "fo", JObj [(s "fooBar", JStr (s ".")); (s "foobar", JStr (s ".."))]); (s "kind", JStr (s "fo"))])
    = ROk [(s "fo", FM [(s "foo_bar", vstr "."); (s "foobar", vstr "..")])].
Proof. exact OneofExamples.flat_decode_fold_clash. Qed.
Example C04_variant_decode_bool_map_refused :
  (exists e, decode Ex OneofExamples.fs (q "FlatG")
               (JObj [(s "flags", JObj [(s "true", JStr (s "x"))]); (s "kind", JStr (s "bm")); (s "name", JStr (s "n"))]) = RErr e) /\
  (exists e, decode Ex OneofExamples.fs (q "NestG")
               (JObj [(s "bm", JObj [(s "flags", JObj [(s "true", JStr (s "x"))])]); (s "kind", JStr (s "bm"))]) = RErr e) /\
  decode Ex OneofExamples.fs (q "NestG") (JObj [(s "bm", JObj [(s "flags", JNull); (s "name", JStr (s "n"))]); (s "kind", JStr (s "bm"))])
    = ROk [(s "bm", FM [(s "name", vstr "n")])] /\
  decode Ex OneofExamples.fs (q "NestG") (JObj [(s "bm", JObj [(s "name", JStr (s "n"))]); (s "kind", JStr (s "bm"))])
    = ROk [(s "bm", FM [(s "name", vstr "n")])].
Proof. exact OneofExamples.variant_decode_bool_map_refused. Qed.

From SebufProofs Require FlattenFacts CodecAll.

(* The flatten codec (internal/httpgen/flatten.go), in general.  In the region defects_C04 = [] no flatten field is
   populated (D4FlattenReset fires for every populated one, empty child included): MarshalJSON is protojson followed by
   no-op folds, UnmarshalJSON's extraction finds nothing and protojson reads the object back.  Two computable side
   conditions, each shown necessary below:
     FlattenFacts.flatten_children_known  every flatten field is a field of a declared message type
                                          (annotations.ValidateFlattenField / protoc guarantee it; the decoder MODEL
                                          declines otherwise);
     FlattenFacts.flatten_probe_ok        no key the decoder probes (flatten_prefix ++ JSON name of a child field) is the
                                          JSON name of a populated field of the parent itself — otherwise the parent's own
                                          field is taken for the child's, deleted, and lost when protojson.Unmarshal resets
                                          the message.  annotations.ValidateFlattenCollisions refuses such schemas
                                          (FlattenFacts.flatten_no_collision is its schema-level form, see _schema below). *)
Theorem C04_roundtrip_flatten_unset : forall E, ExtLaws E -> forall sc tn md m j,
  find_message (all_messages sc) tn = Some md -> owner_of sc md = Own FtFlatten ->
  wt sc (KMessage tn) (FM m) = true -> defects_C04 sc tn m = [] ->
  FlattenFacts.flatten_children_known sc md = true -> FlattenFacts.flatten_probe_ok sc md m = true ->
  encode E sc tn m = ROk j -> decode E sc tn j = ROk (norm sc tn m).
Proof. exact FlattenFacts.flatten_roundtrip_unset. Qed.
Print Assumptions C04_roundtrip_flatten_unset.

(* the same for OneofPj.wt1 values: the parent may declare plain oneofs beside its flatten fields (wt rejects such types) *)
Theorem C04_roundtrip_flatten_unset_wt1 : forall E, ExtLaws E -> forall sc tn md m j,
  find_message (all_messages sc) tn = Some md -> owner_of sc md = Own FtFlatten ->
  OneofPj.wt1 sc tn m = true -> defects_C04 sc tn m = [] ->
  FlattenFacts.flatten_children_known sc md = true -> FlattenFacts.flatten_probe_ok sc md m = true ->
  encode E sc tn m = ROk j -> decode E sc tn j = ROk (norm sc tn m).
Proof. exact FlattenFacts.flatten_roundtrip_unset1. Qed.
Print Assumptions C04_roundtrip_flatten_unset_wt1.

Theorem C04_roundtrip_flatten_unset_schema : forall E, ExtLaws E -> forall sc tn md m j,
  find_message (all_messages sc) tn = Some md -> owner_of sc md = Own FtFlatten ->
  wt sc (KMessage tn) (FM m) = true -> defects_C04 sc tn m = [] ->
  FlattenFacts.flatten_children_known sc md = true -> FlattenFacts.flatten_no_collision sc md = true ->
  encode E sc tn m = ROk j -> decode E sc tn j = ROk (norm sc tn m).
Proof. exact FlattenFacts.flatten_roundtrip_unset_schema. Qed.
Print Assumptions C04_roundtrip_flatten_unset_schema.

(* the region: defects_C04 = [] on a flatten owner says exactly that no flatten field is populated *)
Theorem C04_flatten_defect_free_is_unset : forall sc tn md m,
  lookup_message sc tn = Some md -> owner_of sc md = Own FtFlatten ->
  defects_C04 sc tn m = [] -> FlattenFacts.flatten_unset md m = true.
Proof. exact FlattenFacts.defects_nil_iff_flatten_unset. Qed.
Print Assumptions C04_flatten_defect_free_is_unset.

(* the complement, for all schemas and values (C04_refuted_flatten_reset as a theorem): the decoder, on ANY object, returns
   a flatten field only when a key of the object itself addresses it; hence a value with a populated flatten field —
   whatever the child, the empty one included — is never given back.  Side condition, on the JSON the encoder wrote: no key
   of it addresses a populated flatten field (a limit of the proof, see C04_flatten_set_never_keys_off_limit) *)
Theorem C04_flatten_decode_drops : forall E sc tn md kv m',
  str_eqb tn ts_name = false -> is_wkt_other tn = false ->
  find_message (all_messages sc) tn = Some md -> owner_of sc md = Own FtFlatten ->
  forallb (fun e => match field_of_key md (fst e) with Some g => negb (is_flatten g) | None => true end) kv = true ->
  decode E sc tn (JObj kv) = ROk m' ->
  forall name x g, In (name, x) m' -> In g (m_fields md) -> f_name g = name -> OneofPj.msg_ok1 md = true -> is_flatten g = false.
Proof. exact FlattenFacts.flatten_decode_drops. Qed.
Print Assumptions C04_flatten_decode_drops.

Theorem C04_flatten_set_never_roundtrips : forall E sc tn md m j,
  lookup_message sc tn = Some md -> owner_of sc md = Own FtFlatten ->
  wt sc (KMessage tn) (FM m) = true ->
  FlattenFacts.flatten_unset md m = false ->
  encode E sc tn m = ROk j ->
  FlattenFacts.keys_off_set_flatten md m j = true ->
  decode E sc tn j <> ROk (norm sc tn m).
Proof. exact FlattenFacts.flatten_set_never_roundtrips. Qed.
Print Assumptions C04_flatten_set_never_roundtrips.

(* the same with schema-level side conditions only (and for wt1 values), when every populated flatten child is rendered by
   reflection (FlattenFacts.flatten_children_reflected: singular / optional field of a message type that owns no codec):
   FlattenFacts.flatten_self_free — no key flatten_prefix ++ PROTO name of a child field addresses a flatten field of the
   parent — gives the condition on the encoder's JSON *)
Theorem C04_flatten_set_never_roundtrips_reflected : forall E sc tn md m j,
  lookup_message sc tn = Some md -> owner_of sc md = Own FtFlatten ->
  OneofPj.wt1 sc tn m = true ->
  FlattenFacts.flatten_unset md m = false ->
  FlattenFacts.flatten_children_reflected sc md m = true -> FlattenFacts.flatten_self_free sc md = true ->
  encode E sc tn m = ROk j ->
  decode E sc tn j <> ROk (norm sc tn m).
Proof. exact FlattenFacts.flatten_set_never_roundtrips_reflected. Qed.
Print Assumptions C04_flatten_set_never_roundtrips_reflected.

(* non-vacuity: shared schema xs (Person, Post: the flatten field unset, the other field populated) and two prefixed
   flatten fields side by side (FlattenFacts.fls); flat_case_ok lists every hypothesis and the evaluated conclusion *)
Example C04_roundtrip_flatten_unset_nonvacuous :
  FlattenFacts.flat_case_ok xs (q "Person") [(s "id", vstr "1")] (JObj [(s "id", JStr (s "1"))]) /\
  FlattenFacts.flat_case_ok xs (q "Post") [(s "id", vstr "p")] (JObj [(s "id", JStr (s "p"))]) /\
  FlattenFacts.flat_case_ok FlattenFacts.fls (q "Pre") [(s "street", vstr "s")] (JObj [(s "street", JStr (s "s"))]).
Proof. exact FlattenFacts.flatten_roundtrip_unset_nonvacuous. Qed.
Print Assumptions C04_roundtrip_flatten_unset_nonvacuous.

(* flatten_probe_ok is needed: message Clash { string street = 1; Addr home = 2 [flatten] }, Addr { string street = 1; ... }:
   {"street":"s"} is decoded to the empty message although no flatten field was populated and no defect class fires *)
Example C04_roundtrip_flatten_unset_needs_probe_ok :
  let m := [(s "street", vstr "s")] in
  (exists md, find_message (all_messages FlattenFacts.fls) (q "Clash") = Some md /\ owner_of FlattenFacts.fls md = Own FtFlatten /\
              FlattenFacts.flatten_children_known FlattenFacts.fls md = true /\
              FlattenFacts.flatten_probe_ok FlattenFacts.fls md m = false /\ FlattenFacts.flatten_no_collision FlattenFacts.fls md = false) /\
  wt FlattenFacts.fls (KMessage (q "Clash")) (FM m) = true /\ defects_C04 FlattenFacts.fls (q "Clash") m = [] /\
  encode Ex FlattenFacts.fls (q "Clash") m = ROk (JObj [(s "street", JStr (s "s"))]) /\
  decode Ex FlattenFacts.fls (q "Clash") (JObj [(s "street", JStr (s "s"))]) = ROk [] /\
  norm FlattenFacts.fls (q "Clash") m = m.
Proof. exact FlattenFacts.flatten_roundtrip_unset_needs_probe_ok. Qed.

(* flatten_children_known is needed (in the model): flatten on a scalar field, on a field of an undeclared type *)
Example C04_roundtrip_flatten_unset_needs_children_known :
  let m := [(s "id", vstr "1")] in
  (exists md, find_message (all_messages FlattenFacts.fls) (q "Scalar") = Some md /\ owner_of FlattenFacts.fls md = Own FtFlatten /\
              FlattenFacts.flatten_children_known FlattenFacts.fls md = false /\ FlattenFacts.flatten_probe_ok FlattenFacts.fls md m = true) /\
  wt FlattenFacts.fls (KMessage (q "Scalar")) (FM m) = true /\ defects_C04 FlattenFacts.fls (q "Scalar") m = [] /\
  encode Ex FlattenFacts.fls (q "Scalar") m = ROk (JObj [(s "id", JStr (s "1"))]) /\
  decode Ex FlattenFacts.fls (q "Scalar") (JObj [(s "id", JStr (s "1"))]) = RUnm (s "unknown message type") /\
  (exists md, find_message (all_messages FlattenFacts.fls) (q "Gone") = Some md /\ owner_of FlattenFacts.fls md = Own FtFlatten /\
              FlattenFacts.flatten_children_known FlattenFacts.fls md = false /\ FlattenFacts.flatten_probe_ok FlattenFacts.fls md m = true) /\
  wt FlattenFacts.fls (KMessage (q "Gone")) (FM m) = true /\ defects_C04 FlattenFacts.fls (q "Gone") m = [] /\
  encode Ex FlattenFacts.fls (q "Gone") m = ROk (JObj [(s "id", JStr (s "1"))]) /\
  decode Ex FlattenFacts.fls (q "Gone") (JObj [(s "id", JStr (s "1"))]) = RUnm (s "unknown message type").
Proof. exact FlattenFacts.flatten_roundtrip_unset_needs_children_known. Qed.

(* C04_flatten_set_never_roundtrips: every hypothesis holds on the shared schema, child non-empty and child empty *)
Example C04_flatten_set_never_nonvacuous :
  (let m := [(s "id", vstr "1"); (s "home", FM [(s "street", vstr "s")])] in
   let j := JObj [(s "id", JStr (s "1")); (s "street", JStr (s "s"))] in
   (exists md, lookup_message xs (q "Person") = Some md /\ owner_of xs md = Own FtFlatten /\
               FlattenFacts.flatten_unset md m = false /\ FlattenFacts.keys_off_set_flatten md m j = true) /\
   wt xs (KMessage (q "Person")) (FM m) = true /\ defects_C04 xs (q "Person") m = [D4FlattenReset] /\
   encode Ex xs (q "Person") m = ROk j /\ decode Ex xs (q "Person") j = ROk [(s "id", vstr "1")]) /\
  (let m := [(s "id", vstr "1"); (s "home", FM [])] in
   let j := JObj [(s "id", JStr (s "1"))] in
   (exists md, lookup_message xs (q "Person") = Some md /\ owner_of xs md = Own FtFlatten /\
               FlattenFacts.flatten_unset md m = false /\ FlattenFacts.keys_off_set_flatten md m j = true) /\
   wt xs (KMessage (q "Person")) (FM m) = true /\ defects_C04 xs (q "Person") m = [D4FlattenReset] /\
   encode Ex xs (q "Person") m = ROk j /\ decode Ex xs (q "Person") j = ROk [(s "id", vstr "1")]).
Proof. exact FlattenFacts.flatten_set_never_nonvacuous. Qed.
(* its side condition fails here (Self { Inner a_b = 1 [flatten] }, Inner { string a_b = 1 }: the flattened child key
   "a_b" is the proto name of the flatten field) and the value is still not given back: a limit of the proof *)
Example C04_flatten_set_never_keys_off_limit :
  let m := [(s "a_b", FM [(s "a_b", vstr "x")])] in
  let j := JObj [(s "a_b", JStr (s "x"))] in
  (exists md, lookup_message FlattenFacts.fls (q "Self") = Some md /\ owner_of FlattenFacts.fls md = Own FtFlatten /\
              FlattenFacts.flatten_unset md m = false /\ FlattenFacts.keys_off_set_flatten md m j = false) /\
  wt FlattenFacts.fls (KMessage (q "Self")) (FM m) = true /\
  encode Ex FlattenFacts.fls (q "Self") m = ROk j /\ decode Ex FlattenFacts.fls (q "Self") j = RErr (s "expected object").
Proof. exact FlattenFacts.flatten_set_never_keys_off_limit. Qed.

Example C04_flatten_set_never_reflected_nonvacuous :
  (let m := [(s "id", vstr "1"); (s "home", FM [(s "street", vstr "s")])] in
   (exists md, lookup_message xs (q "Person") = Some md /\ owner_of xs md = Own FtFlatten /\ FlattenFacts.flatten_unset md m = false /\
               FlattenFacts.flatten_children_reflected xs md m = true /\ FlattenFacts.flatten_self_free xs md = true) /\
   OneofPj.wt1 xs (q "Person") m = true) /\
  (let m := [(s "id", vstr "1"); (s "detail", FM [(s "body_text", vstr "b")])] in
   (exists md, lookup_message xs (q "Post") = Some md /\ owner_of xs md = Own FtFlatten /\ FlattenFacts.flatten_unset md m = false /\
               FlattenFacts.flatten_children_reflected xs md m = true /\ FlattenFacts.flatten_self_free xs md = true) /\
   OneofPj.wt1 xs (q "Post") m = true /\
   encode Ex xs (q "Post") m = ROk (JObj [(s "id", JStr (s "1")); (s "body_text", JStr (s "b"))]) /\
   decode Ex xs (q "Post") (JObj [(s "id", JStr (s "1")); (s "body_text", JStr (s "b"))]) = RErr (s "unknown field")) /\
  (exists md, lookup_message FlattenFacts.fls (q "Self") = Some md /\ FlattenFacts.flatten_self_free FlattenFacts.fls md = false).
Proof. exact FlattenFacts.flatten_set_never_reflected_nonvacuous. Qed.

(* protojson both ways on wt1 values: ProtoJsonFacts.pj_roundtrip / C04_roundtrip_partial for message types that declare
   plain (not discriminated) oneofs, which wt rejects *)
Theorem C04_pj_roundtrip_wt1 : forall E, ExtLaws E -> forall sc tn m j,
  OneofPj.wt1 sc tn m = true -> pj_marshal E sc tn m = ROk j -> pj_unmarshal E sc tn j = ROk m.
Proof. exact FlattenFacts.pj_roundtrip_wt1. Qed.
Print Assumptions C04_pj_roundtrip_wt1.
Theorem C04_roundtrip_partial_wt1 : forall E, ExtLaws E -> forall sc tn m j,
  owns sc tn = false -> OneofPj.wt1 sc tn m = true ->
  encode E sc tn m = ROk j -> decode E sc tn j = ROk (norm sc tn m).
Proof. exact FlattenFacts.C04_roundtrip_plain1. Qed.
Print Assumptions C04_roundtrip_partial_wt1.

(* ONE round-trip theorem for every message type, whatever owns its MarshalJSON: no codec, nullable, int64 NUMBER,
   bytes_encoding, timestamp_format, empty_behavior, root unwrap, map-value unwrap, flatten, discriminated oneof —
   and two features at once, where the emitted code does not compile, the model's encoder answers RUnm and the case is
   vacuous.  Hypotheses: OneofPj.wt1 (wt generalised to types that declare oneofs), defects_C04 = [], encode = ROk, and
   ONE computable predicate CodecAll.codec_side_ok: the case distinction on owner_of that collects what the per-codec
   theorems still ask for (C04_codec_side_ok_demands lists it owner by owner). *)
Theorem C04_roundtrip_all_codecs : forall E, ExtLaws E -> forall sc tn m j,
  OneofPj.wt1 sc tn m = true ->
  defects_C04 sc tn m = [] ->
  CodecAll.codec_side_ok sc tn m = true ->
  encode E sc tn m = ROk j -> decode E sc tn j = ROk (norm sc tn m).
Proof. exact CodecAll.C04_roundtrip_all_codecs. Qed.
Print Assumptions C04_roundtrip_all_codecs.

(* with the hypothesis of C04_roundtrip_full: C04_roundtrip_full restricted by codec_side_ok and nothing else *)
Theorem C04_roundtrip_all_codecs_wt : forall E, ExtLaws E -> forall sc tn m j,
  wt sc (KMessage tn) (FM m) = true ->
  defects_C04 sc tn m = [] ->
  CodecAll.codec_side_ok sc tn m = true ->
  encode E sc tn m = ROk j -> decode E sc tn j = ROk (norm sc tn m).
Proof. exact CodecAll.C04_roundtrip_all_codecs_wt. Qed.
Print Assumptions C04_roundtrip_all_codecs_wt.

(* how far C04_roundtrip_full is: what codec_side_ok demands, owner kind by owner kind.  Nothing for "no codec"; for the
   five field codecs CodecAll.no_members ("no field is a member of a real oneof": what wt asks of every message type
   anyway — their theorems are stated with wt); the unwrap codecs cannot have oneof members (a root-unwrap field is
   repeated or a map, the map-value codec does not compile with a member): their own side conditions only *)
Example C04_codec_side_ok_demands : forall sc tn md m, lookup_message sc tn = Some md ->
  (owner_of sc md = OwnNone -> CodecAll.codec_side_ok sc tn m = true) /\
  (forall ft, CodecCompose.field_codec_ft ft = true -> owner_of sc md = Own ft -> CodecAll.codec_side_ok sc tn m = CodecAll.no_members md) /\
  (owner_of sc md = Own FtUnwrapRoot -> CodecAll.codec_side_ok sc tn m = UnwrapRootFacts.unwrap_root_dom sc md) /\
  (owner_of sc md = Own FtUnwrapMap ->
     CodecAll.codec_side_ok sc tn m = UnwrapMapFacts.gj_enums_rt sc md m && UnwrapMapFacts.reflected_maps_plain sc md m) /\
  (owner_of sc md = Own FtFlatten ->
     CodecAll.codec_side_ok sc tn m = FlattenFacts.flatten_children_known sc md && FlattenFacts.flatten_probe_ok sc md m) /\
  (owner_of sc md = Own FtOneof ->
     CodecAll.codec_side_ok sc tn m =
       NullableFacts.nodup_str (map o_name (m_oneofs md)) && OneofFacts.oneof_keys_ok sc md m &&
       OneofFacts.disc_values_ok md && OneofFacts.variant_types_plain sc md m && OneofFacts.variant_no_gap sc md m) /\
  (owner_of sc md = OwnMany -> CodecAll.codec_side_ok sc tn m = true).
Proof. exact CodecAll.codec_side_ok_demands. Qed.
(* for a value well-typed in the sense of C04_roundtrip_full (wt), no_members holds by itself: nothing remains for "no
   codec", the five field codecs and root unwrap of messages *)
Example C04_codec_side_ok_demands_wt : forall sc tn md m,
  str_eqb tn ts_name = false -> find_message (all_messages sc) tn = Some md -> wt sc (KMessage tn) (FM m) = true ->
  (owner_of sc md = OwnNone -> CodecAll.codec_side_ok sc tn m = true) /\
  (forall ft, CodecCompose.field_codec_ft ft = true -> owner_of sc md = Own ft -> CodecAll.codec_side_ok sc tn m = true) /\
  (owner_of sc md = Own FtUnwrapRoot -> UnwrapRootFacts.msg_elems sc md = true -> CodecAll.codec_side_ok sc tn m = true).
Proof. exact CodecAll.codec_side_ok_demands_wt. Qed.

(* non-vacuity on the shared schema xs, ten owner kinds (all_case_ok: every hypothesis, the JSON, the evaluated conclusion) *)
Example C04_roundtrip_all_codecs_nonvacuous :
  CodecAll.all_case_ok xs (q "Leaf") OwnNone
    [(s "a", vstr "x"); (s "n", vint 3)]
    (JObj [(s "a", JStr (s "x")); (s "n", JStr (s "3"))])
    [(s "a", vstr "x"); (s "n", vint 3)] /\
  CodecAll.all_case_ok xs (q "Nums") (Own FtInt64)
    [(s "big", vint 9007199254740993); (s "name", vstr "n")]
    (JObj [(s "big", JNum 9007199254740993); (s "name", JStr (s "n"))])
    [(s "big", vint 9007199254740993); (s "name", vstr "n")] /\
  CodecAll.all_case_ok xs (q "Nul") (Own FtNullable)
    [(s "id", vstr "x")]
    (JObj [(s "id", JStr (s "x")); (s "nick", JNull)])
    [(s "id", vstr "x")] /\
  CodecAll.all_case_ok xs (q "Emp") (Own FtEmpty)
    [(s "nul_it", FM []); (s "omit", FM []); (s "id", vstr "x")]
    (JObj [(s "nulIt", JNull); (s "id", JStr (s "x"))])
    [(s "nul_it", FM []); (s "id", vstr "x")] /\
  CodecAll.all_case_ok xs (q "Times") (Own FtTs)
    [(s "secs", tsv 5 123456789); (s "day", tsv 90000 1); (s "id", vstr "x")]
    (JObj [(s "secs", JNum 5); (s "day", JStr (s "1970-01-02")); (s "id", JStr (s "x"))])
    [(s "secs", tsv 5 0); (s "day", tsv 86400 0); (s "id", vstr "x")] /\
  CodecAll.all_case_ok xs (q "Blob") (Own FtBytes)
    [(s "h", FS (VBytes [ch 105; ch 183])); (s "id", vstr "x")]
    (JObj [(s "h", JStr (s "69b7")); (s "id", JStr (s "x"))])
    [(s "h", FS (VBytes [ch 105; ch 183])); (s "id", vstr "x")] /\
  CodecAll.all_case_ok xs (q "BarList") (Own FtUnwrapRoot)
    [(s "bars", FL [FM [(s "a", vstr "x")]; FM []])]
    (JArr [JObj [(s "a", JStr (s "x"))]; JObj []])
    [(s "bars", FL [FM [(s "a", vstr "x")]; FM []])] /\
  CodecAll.all_case_ok xs (q "Series") (Own FtUnwrapMap)
    [(s "by_sym", FMap [(VStr (s "A"), FM [(s "bars", FL [FM [(s "a", vstr "x")]; FM []])])]);
     (s "total_count", vint 4); (s "ratio", FS (VFloat 4609434218613702656))]
    (JObj [(s "bySym", JObj [(s "A", JArr [JObj [(s "a", JStr (s "x"))]; JObj []])]);
           (s "totalCount", JNum 4); (s "ratio", jflt 4609434218613702656)])
    [(s "by_sym", FMap [(VStr (s "A"), FM [(s "bars", FL [FM [(s "a", vstr "x")]; FM []])])]);
     (s "total_count", vint 4); (s "ratio", FS (VFloat 4609434218613702656))] /\
  CodecAll.all_case_ok xs (q "Person") (Own FtFlatten)
    [(s "id", vstr "1")]
    (JObj [(s "id", JStr (s "1"))])
    [(s "id", vstr "1")] /\
  CodecAll.all_case_ok xs (q "Event") (Own FtOneof)
    [(s "eid", vstr "e"); (s "image", FM [(s "url", vstr "u")])]
    (JObj [(s "eid", JStr (s "e")); (s "image", JObj [(s "url", JStr (s "u"))]); (s "ctype", JStr (s "image"))])
    [(s "eid", vstr "e"); (s "image", FM [(s "url", vstr "u")])] /\
  CodecAll.all_case_ok xs (q "FlatEvent") (Own FtOneof)
    [(s "eid", vstr "e"); (s "wide", FM [])]
    (JObj [(s "eid", JStr (s "e")); (s "ctype", JStr (s "wide"))])
    [(s "eid", vstr "e"); (s "wide", FM [])].
Proof. exact CodecAll.roundtrip_all_codecs_nonvacuous. Qed.
Print Assumptions C04_roundtrip_all_codecs_nonvacuous.

(* two MarshalJSON features on one message (int64 NUMBER + nullable): every other hypothesis holds, encode = RUnm *)
Example C04_roundtrip_all_codecs_own_many_vacuous :
  let m := [(s "big", vint 5)] in
  (exists md, lookup_message CodecAll.als (q "Two") = Some md /\ owner_of CodecAll.als md = OwnMany) /\
  OneofPj.wt1 CodecAll.als (q "Two") m = true /\ defects_C04 CodecAll.als (q "Two") m = [] /\
  CodecAll.codec_side_ok CodecAll.als (q "Two") m = true /\
  encode Ex CodecAll.als (q "Two") m = RUnm (s "two MarshalJSON features on one message (does not compile, C13)").
Proof. exact CodecAll.roundtrip_all_codecs_own_many_vacuous. Qed.

(* beyond wt: a plain (not discriminated) oneof on a message without a codec, and beside an unset flatten field — wt rejects
   the type, wt1 accepts the value, codec_side_ok is true, and the theorem gives the round trip *)
Example C04_roundtrip_all_codecs_plain_oneof :
  CodecAll.all_case_ok CodecAll.als (q "Pick") OwnNone
    [(s "id", vstr "x"); (s "b", vint 0)]
    (JObj [(s "id", JStr (s "x")); (s "b", JNum 0)])
    [(s "id", vstr "x"); (s "b", vint 0)] /\
  wt CodecAll.als (KMessage (q "Pick")) (FM [(s "id", vstr "x"); (s "b", vint 0)]) = false /\
  CodecAll.all_case_ok CodecAll.als (q "FlatPick") (Own FtFlatten)
    [(s "id", vstr "x"); (s "a", vstr "y")]
    (JObj [(s "id", JStr (s "x")); (s "a", JStr (s "y"))])
    [(s "id", vstr "x"); (s "a", vstr "y")] /\
  wt CodecAll.als (KMessage (q "FlatPick")) (FM [(s "id", vstr "x"); (s "a", vstr "y")]) = false.
Proof. exact CodecAll.roundtrip_all_codecs_plain_oneof. Qed.

(* no_members (asked of the five field codecs only) is a limit of the proofs, not a known exception: a plain oneof beside
   an int64 NUMBER field: codec_side_ok is false, every other hypothesis holds, and the round trip holds *)
Example C04_roundtrip_all_codecs_no_members_limit :
  let m := [(s "big", vint 9007199254740993); (s "b", vint 0)] in
  (exists md, lookup_message CodecAll.als (q "PickNum") = Some md /\ owner_of CodecAll.als md = Own FtInt64 /\ CodecAll.no_members md = false) /\
  OneofPj.wt1 CodecAll.als (q "PickNum") m = true /\ wt CodecAll.als (KMessage (q "PickNum")) (FM m) = false /\
  defects_C04 CodecAll.als (q "PickNum") m = [] /\ CodecAll.codec_side_ok CodecAll.als (q "PickNum") m = false /\
  rt_holds Ex CodecAll.als (q "PickNum") m = true.
Proof. exact CodecAll.roundtrip_all_codecs_no_members_limit. Qed.

Example C04_codec_side_ok_examples :
  CodecAll.codec_side_ok xs (q "Plain") [] = true /\ CodecAll.codec_side_ok xs (q "Strs") [(s "vals", FL [vstr "a"])] = true /\
  CodecAll.codec_side_ok xs (q "Post") [(s "id", vstr "p")] = true /\
  CodecAll.codec_side_ok xs (q "FlatEvent") [(s "times", FM [(s "secs", tsv 5 0)])] = false /\
  CodecAll.codec_side_ok FlattenFacts.fls (q "Clash") [(s "street", vstr "s")] = false /\
  CodecAll.codec_side_ok xs ts_name [] = true /\ CodecAll.codec_side_ok xs (s "x.v1.Missing") [] = true /\
  OneofPj.wt1 xs (s "x.v1.Missing") [] = false.
Proof. exact CodecAll.codec_side_ok_examples. Qed.
