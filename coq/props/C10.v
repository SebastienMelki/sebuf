(* C10 — errors surface with the documented status, body, format and client-side type.
   Model: theories/Errors.v; lemmas: proofs/ErrorsFacts.v; tied to the compiled Go server/client (and the
   TS server's catch block) by harness/lib/c10.go on every run. *)
From Sebuf Require Import Text Num Schema Json Value Headers Errors.
From SebufProofs Require Import ErrorsFacts.

(* every error source, no hook: status 400 for violation lists and 500 otherwise, the body is the
   documented message (handler message / violation list / the error's own protobuf message with all its
   fields, unwrapping fmt.Errorf chains), in the request's format with the matching Content-Type; JSON
   bodies of annotated messages agree with their codec *)
Theorem C10_status_body : forall src ct,
  server_defects src None ct = [] ->
  let r := serve_error src None ct in
  r_status r = default_status (documented_final src) /\
  r_body r = BMsg (documented_final src) /\
  r_enc r = server_enc ct /\ r_ct r = ct_of_enc (server_enc ct) /\
  (forall c, r_body r = BMsg (PCustom c) -> r_enc r = EJson -> custom_json false c = custom_json true c).
Proof. exact status_body. Qed.
Print Assumptions C10_status_body.

(* rule failures: one violation per protovalidate violation, named by its dotted field path *)
Theorem C10_rule_paths : forall vs,
  final_of (SRule vs) = PValidation (map (fun pv => (violation_field (fst pv), snd pv)) vs) /\
  (forall els, join_with (s ".") els <> [] -> violation_field (Some els) = join_with (s ".") els).
Proof.
  intros vs. split; [reflexivity|]. intros els H. unfold violation_field.
  destruct (join_with (s ".") els); [congruence|reflexivity].
Qed.
Print Assumptions C10_rule_paths.

(* several stages fail at once: the answer is that of the first failing stage in the order required
   headers < body < path/query values < rules (a header failure therefore never touches the body) *)
Theorem C10_failure_order : forall l st src,
  first_failure l = Some (st, src) ->
  In (st, src) l /\ forall st' src', In (st', src') l -> stage_rank st <= stage_rank st'.
Proof. exact first_failure_minimal. Qed.
Print Assumptions C10_failure_order.

(* the hook contract (headers, status, returned message, nil = default, direct write = complete) is met
   exactly whenever the hook does not combine WriteHeader with a server-written body *)
Theorem C10_hook_override : forall p h ct,
  (hk_status h = None \/ hk_write h <> None) ->
  write_error p (Some h) ct = documented_response p (Some h) ct.
Proof.
  intros p h ct. unfold write_error, documented_response. destruct (hk_write h) as [w|]; [reflexivity|].
  intros [S|W]; [|congruence]. now rewrite S.
Qed.
Print Assumptions C10_hook_override.
(* status, body and the hook's own header are as documented for EVERY hook (only the Content-Type is not) *)
Theorem C10_hook_status_body : forall p h ct,
  let r := write_error p (Some h) ct in
  r_status r = (match hk_status h with Some st => st | None => match hk_write h with Some _ => 200%Z | None => default_status p end end) /\
  r_body r = (match hk_write h with Some w => BRaw w | None => BMsg (if hk_ret_msg h then hooked_msg p else p) end) /\
  r_hook_header r = hook_other_header h.
Proof. intros p h ct. cbv zeta. unfold write_error. destruct (hk_write h); [|destruct (hk_status h)]; cbn; auto. Qed.
Print Assumptions C10_hook_status_body.

(* Go client: a 400 carrying a violation list becomes a ValidationError with the same violations ... *)
Theorem C10_client_go : forall ct r vs,
  client_enc ct = r_enc r -> r_status r = 400%Z -> r_body r = BMsg (PValidation vs) ->
  client_go ct r = CRValidation vs.
Proof. exact client_validation. Qed.
Print Assumptions C10_client_go.
(* ... and outside the client-side defect classes nothing else becomes one, every other outcome carries
   the status (and the body), and the status-less *sebufhttp.Error does not occur *)
Theorem C10_client_go_sound : forall ct r,
  client_defects ct r = [] -> (400 <= r_status r)%Z ->
  match client_go ct r with
  | CRValidation vs => r_status r = 400%Z /\ r_body r = BMsg (PValidation vs)
  | CROther st => st = r_status r
  | CRError _ => False
  | CRNotError => False
  | CRUnmodelled => True
  end.
Proof. exact client_sound. Qed.
Print Assumptions C10_client_go_sound.
(* the message of an Error body survives the client (but not the status: see the refutation below) *)
Theorem C10_client_go_message : forall ct r m,
  client_enc ct = r_enc r -> (400 < r_status r)%Z -> r_body r = BMsg (PError m) ->
  client_go ct r = CRError (etext_string m).
Proof. exact client_error. Qed.
Print Assumptions C10_client_go_message.

(* whole calls, over the EFFECTIVE content type (per-call override if set, else the client-level value,
   else application/json): it is the request's Content-Type, so the server answers in its format, and the
   client decodes the error body with it; whenever both sides read it the same way a 400 with violations
   is a ValidationError and any other Error body keeps its message *)
Theorem C10_client_go_call : forall src h client_level per_call vs,
  let ct := effective_ct client_level per_call in
  client_enc ct = server_enc ct ->
  r_status (serve_error src h ct) = 400%Z -> r_body (serve_error src h ct) = BMsg (PValidation vs) ->
  go_call_outcome src h client_level per_call = CRValidation vs.
Proof. exact call_validation. Qed.
Print Assumptions C10_client_go_call.
Theorem C10_client_go_call_message : forall src h client_level per_call m,
  let ct := effective_ct client_level per_call in
  client_enc ct = server_enc ct ->
  (400 < r_status (serve_error src h ct))%Z -> r_body (serve_error src h ct) = BMsg (PError m) ->
  go_call_outcome src h client_level per_call = CRError (etext_string m).
Proof. exact call_error. Qed.
Print Assumptions C10_client_go_call_message.
Theorem C10_effective_content_type : forall cl c0 c,
  effective_ct cl (Some (c0 :: c)) = c0 :: c /\ effective_ct cl None = client_default cl /\ effective_ct cl (Some []) = client_default cl.
Proof. intros. repeat split. Qed.
Print Assumptions C10_effective_content_type.

(* size: no hook, both sides reading the content type alike — the COMPLETE violation list (handler-made or
   from the rules) and the COMPLETE message reach the caller, for every list and every text: no length
   appears anywhere (the correspondence check runs 1 / 60 / 600 violations and 10 B / 5 KiB / 200 KiB texts) *)
Theorem C10_client_go_any_size_violations : forall vs rs cl ca,
  let ct := effective_ct cl ca in
  client_enc ct = server_enc ct ->
  go_call_outcome (SHandler (HValidation vs)) None cl ca = CRValidation vs /\
  go_call_outcome (SRule rs) None cl ca = CRValidation (map (fun pv => (violation_field (fst pv), snd pv)) rs).
Proof. intros vs rs cl ca ct E. split; now apply call_validation. Qed.
Print Assumptions C10_client_go_any_size_violations.
Theorem C10_client_go_any_size_message : forall m cl ca,
  let ct := effective_ct cl ca in
  client_enc ct = server_enc ct ->
  go_call_outcome (SHandler (HPlain m)) None cl ca = CRError m /\
  go_call_outcome (SHandler (HSebuf m)) None cl ca = CRError m.
Proof.
  intros m cl ca ct E.
  assert (L : etext_string (lit m) = m) by (unfold etext_string, lit; cbn; apply app_nil_r).
  split; rewrite <- L at 2; apply call_error; auto; cbn; lia.
Qed.
Print Assumptions C10_client_go_any_size_message.
(* the generators of the size family have the advertised sizes, and the digest under which long texts and
   long lists are compared is the identity on every document without them *)
Theorem C10_size_family : forall n,
  List.length (sized_text n) = 64 * n /\ List.length (gen_viols n) = n /\ List.length (gen_rules n) = n.
Proof.
  intros n. split; [apply sized_text_length|]. unfold gen_viols, gen_rules.
  rewrite !map_length, !seq_length. split; reflexivity.
Qed.
Print Assumptions C10_size_family.
Theorem C10_digest_short : forall j, short_json j = true -> digest_json j = j.
Proof. exact digest_json_short. Qed.
Print Assumptions C10_digest_short.
Example C10_any_size_nonvacuous :
  go_call_outcome (SHandler (HValidation (gen_viols 60))) None None None = CRValidation (gen_viols 60) /\
  go_call_outcome (SHandler (HPlain (sized_text 8))) None (Some (s "application/x-protobuf")) None = CRError (sized_text 8) /\
  digest_json (JStr (sized_text 8)) <> JStr (sized_text 8).
Proof.
  split; [apply call_validation; reflexivity|].
  split; [exact (proj1 (C10_client_go_any_size_message (sized_text 8) (Some (s "application/x-protobuf")) None eq_refl))|].
  rewrite digest_long_string; [discriminate|]. rewrite sized_text_length. apply Nat.ltb_lt. reflexivity.
Qed.

(* TS server catch block and TS client handleError *)
Theorem C10_server_ts : forall e,
  ts_status (ts_server_error e None) = match e with TValidation _ => 400%Z | _ => 500%Z end.
Proof. intros e. destruct e; reflexivity. Qed.
Print Assumptions C10_server_ts.
Theorem C10_client_ts : forall vs on_error st body,
  (let r := ts_server_error (TValidation vs) on_error in
   ts_client (ts_status r) (Some (ts_body r)) = TSValidation (ts_violations_json vs)) /\
  (st <> 400%Z -> ts_client st body = TSApi st body).
Proof.
  intros vs on_error st body. split; [reflexivity|].
  intros H. unfold ts_client. destruct (Z.eqb_spec st 400); [contradiction|reflexivity].
Qed.
Print Assumptions C10_client_ts.

Definition nf : cmsg := {| cm_type := s "rterr.v1.NotFoundError";
  cm_fields := [CStr 1 (s "resource_type") (s "user"); CStr 2 (s "resource_id") (s "42"); CInt32 3 (s "code") 404] |}.
Definition quota : cmsg := {| cm_type := s "rterr.v1.QuotaError";
  cm_fields := [CInt64 1 (s "limit") true 5000000000; CStr 2 (s "reason") (s "too many")] |}.
Definition hk (hd : option (str * str)) (st : option Z) (w : option str) (m : bool) : hook :=
  {| hk_header := hd; hk_status := st; hk_write := w; hk_ret_msg := m |}.
Definition json_ct := s "application/json".
Definition proto_ct := s "application/x-protobuf".

Example C10_nonvacuous :
  (* a custom error message: 500, the message itself, binary under application/octet-stream *)
  server_defects (SHandler (HCustom nf)) None (s "application/octet-stream") = [] /\
  r_body (serve_error (SHandler (HCustom nf)) None (s "application/octet-stream")) = BMsg (PCustom nf) /\
  r_ct (serve_error (SHandler (HCustom nf)) None (s "application/octet-stream")) = CtProtoSent /\
  (* nested / repeated / map paths *)
  final_of (SRule [(Some [s "inner"; s "a"], s "m1"); (Some [s "by_key"; s "n"], s "m2"); (None, s "m3")]) =
    PValidation [(s "inner.a", s "m1"); (s "by_key.n", s "m2"); (s "unknown", s "m3")] /\
  (* a hook that sets a header and returns a message: as documented, and the client sees a ValidationError only for violations *)
  write_error (PValidation [(s "a", s "b")]) (Some (hk (Some (s "X-Hook", s "v")) None None true)) json_ct =
    documented_response (PValidation [(s "a", s "b")]) (Some (hk (Some (s "X-Hook", s "v")) None None true)) json_ct /\
  client_go proto_ct (serve_error (SHandler (HValidation [(s "a.b", s "bad"); (s "c", [])])) None proto_ct) =
    CRValidation [(s "a.b", s "bad"); (s "c", [])] /\
  client_defects json_ct (serve_error (SHandler (HCustom nf)) None json_ct) = [] /\
  client_go json_ct (serve_error (SHandler (HCustom nf)) None json_ct) = CROther 500.
Proof. repeat apply conj; reflexivity. Qed.
Example C10_failure_order_nonvacuous :
  first_failure [(StRule, SRule [(Some [s "name"], s "r")]); (StUrl, SViolations [(s "limit", s "<prose>")]);
                 (StBody, SViolations [(s "body", s "<prose>")])] = Some (StBody, SViolations [(s "body", s "<prose>")]) /\
  first_failure [(StUrl, SViolations [(s "limit", s "<prose>")]); (StHeader, SViolations [(s "X-Upd", s "m")]);
                 (StBody, SViolations [(s "body", s "<prose>")])] = Some (StHeader, SViolations [(s "X-Upd", s "m")]).
Proof. split; reflexivity. Qed.

(* a JSON client whose call is overridden to binary (and the reverse): the failing call still yields the typed errors *)
Example C10_call_override_nonvacuous :
  go_call_outcome (SHandler (HValidation [(s "a", s "b")])) None (Some json_ct) (Some proto_ct) = CRValidation [(s "a", s "b")] /\
  go_call_outcome (SViolations [(s "X-Token", s "m")]) None (Some proto_ct) (Some json_ct) = CRValidation [(s "X-Token", s "m")] /\
  go_call_outcome (SHandler (HPlain (s "backend down"))) None None (Some (s "application/octet-stream")) = CRError (s "backend down") /\
  r_enc (serve_error (SHandler (HPlain (s "backend down"))) None (effective_ct (Some json_ct) (Some proto_ct))) = EBin.
Proof. vm_compute. repeat apply conj; reflexivity. Qed.

(* WriteHeader in the hook, body left to the server: the Content-Type never reaches the client *)
Example C10_refuted_hook_status_loses_content_type :
  let h := hk None (Some 418%Z) None true in
  server_defects (SHandler (HPlain (s "boom"))) (Some h) json_ct = [DHookStatusLosesContentType] /\
  r_ct (write_error (PError (lit (s "boom"))) (Some h) json_ct) = CtOther /\
  r_ct (documented_response (PError (lit (s "boom"))) (Some h) json_ct) = CtJsonSent.
Proof. vm_compute. repeat apply conj; reflexivity. Qed.
(* fmt.Errorf("...: %w", custom) loses the message and its fields *)
Example C10_refuted_wrapped_custom_flattened :
  server_defects (SHandler (HWrap (HCustom nf))) None json_ct = [DWrappedCustomFlattened] /\
  documented_final (SHandler (HWrap (HCustom nf))) = PCustom nf /\
  (exists t, r_body (serve_error (SHandler (HWrap (HCustom nf))) None json_ct) = BMsg (PError t)).
Proof. split; [reflexivity|]. split; [reflexivity|]. exists (herr_text (HWrap (HCustom nf))). reflexivity. Qed.
(* ... and a wrapped ValidationError becomes a 500 *)
Example C10_refuted_wrapped_validation_flattened :
  server_defects (SHandler (HWrap (HValidation [(s "a", s "b")]))) None json_ct = [DWrappedValidationFlattened] /\
  default_status (documented_final (SHandler (HWrap (HValidation [(s "a", s "b")])))) = 400%Z /\
  r_status (serve_error (SHandler (HWrap (HValidation [(s "a", s "b")]))) None json_ct) = 500%Z.
Proof. vm_compute. repeat apply conj; reflexivity. Qed.
(* int64_encoding = NUMBER on an error message: the error path writes the protojson string form *)
Example C10_refuted_custom_bypasses_codec :
  server_defects (SHandler (HCustom quota)) None json_ct = [DCustomBypassesCodec] /\
  custom_json false quota <> custom_json true quota.
Proof. split; [reflexivity|vm_compute; discriminate]. Qed.
(* the Go client's *sebufhttp.Error cannot tell 500 from 503 *)
Example C10_refuted_client_drops_status :
  let r1 := serve_error (SHandler (HPlain (s "boom"))) None json_ct in
  let r2 := write_error (PError (lit (s "boom"))) (Some (hk (Some (s "X-Hook", s "v")) (Some 503%Z) None false)) json_ct in
  r_status r1 <> r_status r2 /\ client_go json_ct r1 = client_go json_ct r2 /\
  client_defects json_ct r1 = [DClientDropsStatus].
Proof. vm_compute. split; [discriminate|split; reflexivity]. Qed.
(* binary custom message read as sebuf Error: field 1 becomes the "message", the rest is dropped silently *)
Example C10_refuted_client_misreads_foreign_body :
  let r := serve_error (SHandler (HCustom nf)) None proto_ct in
  client_go proto_ct r = CRError (s "user") /\
  client_defects proto_ct r = [DClientDropsStatus; DClientMisreadsForeignBody].
Proof. vm_compute. split; reflexivity. Qed.
(* 400 with an empty body: ValidationError without violations although the server sent an Error *)
Example C10_refuted_client_empty_400 :
  let r := write_error (PError (lit [])) (Some (hk None (Some 400%Z) None false)) proto_ct in
  client_go proto_ct r = CRValidation [] /\ client_defects proto_ct r = [DClientEmpty400IsValidation].
Proof. vm_compute. split; reflexivity. Qed.
(* a binary content type WITH parameters: binary for the server (filterFlags), JSON for the client *)
Example C10_refuted_client_encoding_mismatch :
  let ct := s "application/x-protobuf; charset=utf-8" in
  let r := serve_error (SHandler (HValidation [(s "a", s "b")])) None ct in
  r_enc r = EBin /\ client_go ct r = CROther 400 /\ client_defects ct r = [DClientEncodingMismatch].
Proof. vm_compute. repeat apply conj; reflexivity. Qed.
(* application/octet-stream (repaired by 4c12f0f): both sides binary, a 400 is a ValidationError again *)
Example C10_octet_stream_agrees :
  let ct := s "application/octet-stream" in
  let r := serve_error (SHandler (HValidation [(s "a", s "b")])) None ct in
  r_enc r = EBin /\ client_enc ct = EBin /\ client_go ct r = CRValidation [(s "a", s "b")] /\ client_defects ct r = [].
Proof. vm_compute. repeat apply conj; reflexivity. Qed.
(* TS server: a malformed body is answered 500 (the Go server answers 400 with a violation for "body") *)
Example C10_refuted_ts_malformed_body_500 :
  ts_server_defects TBadBody = [s "ts-malformed-body-500"] /\ ts_status (ts_server_error TBadBody None) = 500%Z.
Proof. split; reflexivity. Qed.
(* TS client: a Go-server 400 without violations ({}) is an ApiError, not a ValidationError *)
Example C10_refuted_ts_client_empty_violations :
  ts_client 400 (Some (pmsg_pj (PValidation []))) = TSApi 400 (Some (JObj [])).
Proof. reflexivity. Qed.

(* the TS client on ANY failed response: ValidationError with the body's violations, or ApiError with the
   status and the body — never anything else, whatever the status, the hook or the body shape *)
Theorem C10_client_ts_total : forall st body,
  (exists v, ts_client st body = TSValidation v /\ st = 400%Z /\
             exists kv, body = Some (JObj kv) /\ assoc_json (s "violations") kv = Some v /\ js_truthy v = true)
  \/ ts_client st body = TSApi st body.
Proof. exact ts_client_total. Qed.
Print Assumptions C10_client_ts_total.

Theorem C10_client_ts_400_violations : forall kv v rest, assoc_json (s "violations") kv = Some (JArr (v :: rest)) ->
  ts_client 400 (Some (JObj kv)) = TSValidation (JArr (v :: rest)).
Proof. intros kv v rest H. unfold ts_client. rewrite Z.eqb_refl, H. reflexivity. Qed.
Print Assumptions C10_client_ts_400_violations.

(* a hook that sets 400 on a plain error ({"message":...}), a text body, an empty ValidationError: ApiError 400 *)
Example C10_client_ts_nonvacuous :
  ts_client 400 (Some (JObj [(s "message", JStr (s "boom"))])) = TSApi 400 (Some (JObj [(s "message", JStr (s "boom"))])) /\
  ts_client 400 None = TSApi 400 None /\
  ts_client 400 (Some (JObj [])) = TSApi 400 (Some (JObj [])) /\
  ts_client 400 (Some (JObj [(s "violations", JArr [JObj [(s "field", JStr (s "a"))]])])) = TSValidation (JArr [JObj [(s "field", JStr (s "a"))]]).
Proof. vm_compute. repeat apply conj; reflexivity. Qed.
