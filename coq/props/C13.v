(* C13 — everything the generators emit builds: Go compiles and vets, TypeScript loads.
   The model (theories/Emit.v) is a model of the known reasons emitted code fails to build, not a
   Go type checker; [accepted] is what the generation-time validators let through. *)
From Sebuf Require Import Text Json Schema Emit.
From SebufProofs Require Import EmitFacts.

(* For every accepted schema outside the defect classes: for each of the three plugin subsets every
   expression the emitters print meets the requirement it puts on the Go type of the field it
   touches, no method / package-level declaration / literal key is declared twice, every referenced
   identifier exists, every import is used, every printf call has as many verbs as arguments; and
   no TypeScript module fails to load. *)
Theorem C13_builds : forall sc, accepted sc = true -> defects_C13 sc = [] ->
  (forall ps, go_builds sc ps = true /\ go_vets sc ps = true) /\ ts_loads sc = true.
Proof. exact C13_builds_lemma. Qed.
Print Assumptions C13_builds.

(* the same per plugin subset, and at the level of single obligations *)
Theorem C13_every_obligation_met : forall sc ps, accepted sc = true -> go_tags ps sc = [] ->
  all_ok (pkg_checks ps sc) = true.
Proof. exact all_checks_ok. Qed.
Print Assumptions C13_every_obligation_met.

(* clientgen's snakeToUpperCamel is, for every byte string, "drop underscores and upper-case what
   follows" ... *)
Theorem C13_snake_to_upper_camel_char : forall x, snake_to_upper_camel x = json_name_aux true x.
Proof. exact snake_to_upper_camel_char. Qed.
Print Assumptions C13_snake_to_upper_camel_char.

(* ... and agrees with protobuf-go's GoCamelCase on names [a-z]+(_[a-z]+)* *)
Theorem C13_snake_upper_camel_eq_go_camel : forall x, plain_snake x = true -> snake_to_upper_camel x = go_camel x.
Proof. exact snake_upper_camel_eq_go_camel. Qed.
Print Assumptions C13_snake_upper_camel_eq_go_camel.

Theorem C13_snake_ne_go_camel_refuted :
  snake_to_upper_camel (s "field_1") <> go_camel (s "field_1") /\
  snake_to_upper_camel (s "a1b") <> go_camel (s "a1b") /\
  snake_to_upper_camel (s "x__y") <> go_camel (s "x__y") /\
  snake_to_upper_camel (s "tail_") <> go_camel (s "tail_").
Proof. repeat split; vm_compute; discriminate. Qed.

(* After 5089e92 no route handler of the TS server declares a const twice, for any verb, path
   variables, query parameters and headers; the query parser (which reads url.searchParams) always
   has `url` in scope; hence every emitted TS module of every schema is duplicate-free. *)
Theorem C13_ts_route_never_redeclares : forall sc sv md, nodup_strb (ts_route_consts sc sv md) = true.
Proof. exact ts_route_never_redeclares. Qed.
Print Assumptions C13_ts_route_never_redeclares.
Theorem C13_ts_query_parser_has_url : forall sc sv md,
  mem_str (s "params") (ts_route_consts sc sv md) = true -> mem_str (s "url") (ts_route_consts sc sv md) = true.
Proof. exact ts_query_parser_has_url. Qed.
Print Assumptions C13_ts_query_parser_has_url.
Theorem C13_ts_routes_ok_always : forall sc fl, ts_routes_ok sc fl = true.
Proof. exact ts_routes_ok_always. Qed.
Print Assumptions C13_ts_routes_ok_always.
(* hence the TS server module loads exactly when the annotation texts printed as bare property names
   (discriminators, flatten_prefix ++ child name) are identifier names *)
Theorem C13_ts_server_loads_iff_types : forall sc fl, ts_server_loads sc fl = ts_types_ok sc fl.
Proof. exact ts_server_loads_iff_types. Qed.
Print Assumptions C13_ts_server_loads_iff_types.
Theorem C13_ts_prop_ok_app : forall p n,
  ts_prop_ok p = true -> forallb ts_prop_char n = true -> ts_prop_ok (p ++ n) = true.
Proof. exact ts_prop_ok_app. Qed.
Theorem C13_ts_prop_bad_prefix : forall p n, p <> [] -> ts_prop_ok p = false -> ts_prop_ok (p ++ n) = false.
Proof. exact ts_prop_bad_prefix. Qed.
(* the TS modules are left with three name-driven failures (a method called Constructor, a header whose
   property name is not an identifier, an annotation text printed as a bare property name); without them
   every module loads *)
Theorem C13_ts_loads_of_tags : forall sc, ts_tags sc = [] -> ts_loads sc = true.
Proof. exact ts_loads_of_tags. Qed.
Print Assumptions C13_ts_loads_of_tags.

(* Hostile identifiers.  Field, path-variable and query names that are reserved words of Go or
   ECMAScript, predeclared identifiers, or locals of the emitted functions are harmless on this tree
   (Go capitalises them, TS reaches them by property access), and so are such method, service and
   header names: *)
Example C13_hostile_names_harmless :
  accepted hostile_harmless = true /\ defects_C13 hostile_harmless = [] /\
  go_vets hostile_harmless OnlyHttp = true /\ go_vets hostile_harmless OnlyClient = true /\ go_vets hostile_harmless Both = true /\
  ts_loads hostile_harmless = true.
Proof.
  clean hostile_harmless.
  exact (conj Ha (conj Hd (conj (proj2 (Hgo OnlyHttp)) (conj (proj2 (Hgo OnlyClient)) (conj (proj2 (Hgo Both)) Hts))))).
Qed.
(* ... the names that do break the emitted code: *)
Theorem C13_refuted_ts_client_method_named_constructor :
  let sc := verbs_schema ["Get"; "Constructor"]%string in
  accepted sc = true /\ defects_C13 sc = [s "ts-client-method-named-constructor"] /\ ts_loads sc = false /\
  ts_server_loads sc (hd (file_of "" [] [] []) sc) = true /\ go_vets sc Both = true.
Proof. vm_compute. repeat split; reflexivity. Qed.
Theorem C13_refuted_ts_client_header_property_not_identifier :
  let sc := hdr_schema [] ["X-1st"]%string [] in
  accepted sc = true /\ defects_C13 sc = [s "ts-client-header-property-not-identifier"] /\ ts_loads sc = false /\ go_vets sc Both = true.
Proof. vm_compute. repeat split; reflexivity. Qed.
Theorem C13_refuted_ts_property_name_not_identifier :
  let sc := ts_disc_schema "@type"%string in
  accepted sc = true /\ defects_C13 sc = [s "ts-property-name-not-identifier"] /\ ts_loads sc = false /\
  ts_server_loads sc (hd (file_of "" [] [] []) sc) = false /\ go_vets sc Both = true.
Proof. vm_compute. repeat split; reflexivity. Qed.
Theorem C13_refuted_ts_property_name_not_identifier_prefix :
  let sc := ts_prefix_schema "home-"%string in
  accepted sc = true /\ defects_C13 sc = [s "ts-property-name-not-identifier"] /\ ts_loads sc = false /\ go_vets sc Both = true.
Proof. vm_compute. repeat split; reflexivity. Qed.
Example C13_ts_identifier_texts_load :
  (let sc := ts_disc_schema "$kind_of"%string in accepted sc = true /\ defects_C13 sc = [] /\ ts_loads sc = true) /\
  (let sc := ts_prefix_schema "home_"%string in accepted sc = true /\ defects_C13 sc = [] /\ ts_loads sc = true).
Proof. split; [exact (proj1 ts_identifier_texts_load)|exact (proj1 (proj2 ts_identifier_texts_load))]. Qed.
Theorem C13_refuted_method_named_generic : exists sc, refuted sc ["method-named-generic"%string] OnlyHttp ["type"%string].
Proof. eexists. exact w_method_generic. Qed.
Example C13_method_named_generic_last_builds :
  let sc := verbs_schema ["Other"; "Generic"]%string in defects_C13 sc = [] /\ go_vets sc Both = true.
Proof.
  intros sc. clean sc.
  exact (conj Hd (proj2 (Hgo Both))).
Qed.
Theorem C13_refuted_package_declaration_clash_method_bind : exists sc, refuted sc ["package-declaration-clash"%string] OnlyHttp ["redeclared"%string].
Proof. eexists. exact w_method_bind. Qed.
Theorem C13_refuted_package_declaration_clash_message_named_like_helper : exists sc, refuted sc ["package-declaration-clash"%string] OnlyHttp ["redeclared"%string].
Proof. eexists. exact w_message_named_like_helper. Qed.
Theorem C13_refuted_field_named_like_codec_method : exists sc, refuted sc ["field-named-like-codec-method"%string] OnlyClient ["redeclared"%string].
Proof. eexists. exact w_field_named_marshaljson. Qed.

(* positive examples for the three repaired classes (6655042, d19dbea, 5089e92) *)
Example C13_discriminated_oneof_vets :
  accepted disc_schema = true /\ defects_C13 disc_schema = [] /\
  go_vets disc_schema OnlyHttp = true /\ go_vets disc_schema OnlyClient = true /\ go_vets disc_schema Both = true.
Proof.
  clean disc_schema.
  exact (conj Ha (conj Hd (conj (proj2 (Hgo OnlyHttp)) (conj (proj2 (Hgo OnlyClient)) (proj2 (Hgo Both)))))).
Qed.
Example C13_header_declared_twice_builds :
  let sc := hdr_schema ["X-Trace"; "X-Tenant"]%string ["X-Tenant"; "Trace"]%string ["X-Tenant"; "X-Req"]%string in
  accepted sc = true /\ defects_C13 sc = [] /\ go_vets sc OnlyClient = true /\ go_vets sc Both = true.
Proof. intros sc. destruct header_declared_twice_builds as (Ha & Hd & Hc & Hb & _). exact (conj Ha (conj Hd (conj Hc Hb))). Qed.
Example C13_ts_get_with_path_and_query_loads :
  let sc := get_schema (msg "Q" [fld "id" KString Singular None []; fld "v" KString Singular None [AQuery]] []) "/x/{id}" in
  accepted sc = true /\ defects_C13 sc = [] /\ ts_loads sc = true /\ go_vets sc Both = true.
Proof. intros sc. destruct ts_get_with_path_and_query_loads as (Ha & Hd & Ht & Hb & _). exact (conj Ha (conj Hd (conj Ht Hb))). Qed.

Example C13_nonvacuous :
  accepted good_schema = true /\ defects_C13 good_schema = [] /\
  go_builds good_schema Both = true /\ go_vets good_schema OnlyHttp = true /\ ts_loads good_schema = true.
Proof.
  clean good_schema.
  exact (conj Ha (conj Hd (conj (proj1 (Hgo Both)) (conj (proj2 (Hgo OnlyHttp)) Hts)))).
Qed.

(* refutations: for each defect class an accepted schema on which the model's verdict is negative *)
Theorem C13_refuted_int64_number_on_optional : exists sc, refuted sc ["int64-number-on-optional"%string] OnlyHttp ["type"%string].
Proof. eexists. exact w_int64_optional. Qed.
Theorem C13_refuted_annotated_oneof_member : exists sc, refuted sc ["annotated-oneof-member"%string] OnlyClient ["selector"%string].
Proof. eexists. exact w_oneof_member. Qed.
Theorem C13_refuted_timestamp_format_on_repeated : exists sc, refuted sc ["timestamp-format-on-repeated"%string] Both ["selector"%string].
Proof. eexists. exact w_ts_repeated. Qed.
Theorem C13_refuted_bytes_encoding_on_repeated : exists sc, refuted sc ["bytes-encoding-on-repeated"%string] OnlyHttp ["type"%string].
Proof. eexists. exact w_bytes_repeated. Qed.
Theorem C13_refuted_two_marshaljson_features : exists sc, refuted sc ["two-marshaljson-features"%string] OnlyHttp ["redeclared"%string].
Proof. eexists. exact w_two_features. Qed.
Theorem C13_refuted_flatten_field_with_empty_behavior : exists sc, refuted sc ["two-marshaljson-features"%string] OnlyClient ["redeclared"%string].
Proof. eexists. exact w_flatten_plus_empty. Qed.
Theorem C13_refuted_oneof_duplicate_discriminator_value :
  exists sc, refuted sc ["oneof-duplicate-discriminator-value"%string] OnlyHttp ["duplicate"%string].
Proof. eexists. exact w_dup_discriminator. Qed.
Theorem C13_refuted_unqualified_foreign_type : exists sc, refuted sc ["unqualified-foreign-type"%string] OnlyHttp ["undefined"%string].
Proof. eexists. exact w_foreign_flatten. Qed.
Theorem C13_refuted_unwrap_container_with_oneof : exists sc, refuted sc ["unwrap-container-with-oneof"%string] OnlyHttp ["selector"%string].
Proof. eexists. exact w_unwrap_oneof. Qed.
Theorem C13_refuted_unwrap_non_string_key : exists sc, refuted sc ["unwrap-non-string-key"%string] OnlyHttp ["type"%string].
Proof. eexists. exact w_unwrap_key. Qed.
Theorem C13_refuted_unwrap_container_optional_scalar : exists sc, refuted sc ["unwrap-container-optional-scalar"%string] Both ["type"%string].
Proof. eexists. exact w_unwrap_optional. Qed.
Theorem C13_refuted_unwrap_of_map_unwrap : exists sc, refuted sc ["unwrap-of-map-unwrap"%string] OnlyHttp ["type"%string].
Proof. eexists. exact w_unwrap_of_map. Qed.
Theorem C13_refuted_unwrap_file_unused_protojson : exists sc, refuted sc ["unwrap-file-unused-protojson"%string] OnlyHttp ["unused"%string].
Proof. eexists. exact w_unwrap_protojson. Qed.
Theorem C13_refuted_enum_fromjson_duplicate_key : exists sc, refuted sc ["enum-fromjson-duplicate-key"%string] OnlyHttp ["duplicate"%string].
Proof. eexists. exact w_enum_dup. Qed.
Theorem C13_refuted_error_message_with_error_field : exists sc, refuted sc ["error-message-with-error-field"%string] OnlyHttp ["redeclared"%string].
Proof. eexists. exact w_error_field. Qed.
Theorem C13_refuted_client_path_ident_mismatch : exists sc, refuted sc ["client-path-ident-mismatch"%string] OnlyClient ["selector"%string].
Proof. eexists. exact w_path_ident. Qed.
Theorem C13_refuted_client_path_ident_is_method : exists sc, refuted sc ["client-path-ident-is-method"%string] OnlyClient ["vet-printf"%string].
Proof. eexists. exact w_path_method. Qed.
Theorem C13_refuted_client_query_on_non_singular : exists sc, refuted sc ["client-query-on-non-singular"%string] OnlyClient ["type"%string].
Proof. eexists. exact w_query_optional. Qed.
Theorem C13_refuted_client_query_on_enum_bytes_message : exists sc, refuted sc ["client-query-on-enum-bytes-message"%string] Both ["type"%string].
Proof. eexists. exact w_query_bytes. Qed.
Theorem C13_refuted_package_declaration_clash_call_prefix : exists sc, refuted sc ["package-declaration-clash"%string] OnlyClient ["redeclared"%string].
Proof. eexists. exact w_header_call_prefix. Qed.
Theorem C13_refuted_package_declaration_clash : exists sc, refuted sc ["package-declaration-clash"%string] OnlyClient ["redeclared"%string].
Proof. eexists. exact w_header_builtin. Qed.
Theorem C13_refuted_same_method_name_two_services : exists sc, refuted sc ["same-method-name-two-services"%string] OnlyHttp ["redeclared"%string].
Proof. eexists. exact w_same_method. Qed.
Theorem C13_refuted_service_named_like_method : exists sc, refuted sc ["service-named-like-method"%string] OnlyHttp ["redeclared"%string].
Proof. eexists. exact w_service_like_method. Qed.
Theorem C13_refuted_two_service_files_one_package : exists sc, refuted sc ["two-service-files-one-package"%string] OnlyClient ["redeclared"%string].
Proof. eexists. exact w_two_files. Qed.
Theorem C13_refuted_service_without_methods : exists sc, refuted sc ["service-without-methods"%string] OnlyHttp ["unused"%string].
Proof. eexists. exact w_no_methods. Qed.

(* The emitters print one block per discriminated oneof into ONE MarshalJSON / UnmarshalJSON body.  In
   the model no obligation couples two blocks: a message with k discriminated oneofs meets its
   obligations iff each oneof does alone ... *)
Theorem C13_discriminated_oneofs_independent : forall sc fl m,
  all_ok (feature_checks sc fl m FOneof) = forallb (fun o => all_ok (oneof_checks sc fl m o)) (disc_oneofs m).
Proof. intros sc fl m. apply all_ok_flat_map. Qed.
Print Assumptions C13_discriminated_oneofs_independent.
(* ... and every feature contributes at most one MarshalJSON to a message, however many oneofs / fields
   of the message carry it *)
Theorem C13_one_marshaljson_per_feature : forall p sc fl m ft,
  count_occ feature_dec (emitted_features p sc fl m) ft <= 1.
Proof. exact one_marshaljson_per_feature. Qed.
Print Assumptions C13_one_marshaljson_per_feature.
Example C13_several_discriminated_oneofs_vet :
  accepted multi_oneof_schema = true /\ defects_C13 multi_oneof_schema = [] /\
  go_vets multi_oneof_schema OnlyHttp = true /\ go_vets multi_oneof_schema OnlyClient = true /\ go_vets multi_oneof_schema Both = true /\
  ts_loads multi_oneof_schema = true.
Proof.
  clean multi_oneof_schema.
  exact (conj Ha (conj Hd (conj (proj2 (Hgo OnlyHttp)) (conj (proj2 (Hgo OnlyClient)) (conj (proj2 (Hgo Both)) Hts))))).
Qed.
(* several services in one file sharing request / response messages and header names (service and method
   level), several methods of one service sharing them: builds, vets, loads *)
Example C13_services_sharing_messages_and_headers_build :
  let sc := shared_services ["GetUser"; "FindUser"; "PutUser"]%string ["GetOrder"; "PutOrder"]%string in
  accepted sc = true /\ defects_C13 sc = [] /\ go_vets sc OnlyHttp = true /\ go_vets sc OnlyClient = true /\ go_vets sc Both = true /\ ts_loads sc = true.
Proof.
  intros sc. clean sc.
  exact (conj Ha (conj Hd (conj (proj2 (Hgo OnlyHttp)) (conj (proj2 (Hgo OnlyClient)) (conj (proj2 (Hgo Both)) Hts))))).
Qed.
(* with equal rpc names the Go server's package-level per-method declarations clash (known class) and
   nothing else: the Go client vets and both TypeScript modules load *)
Example C13_same_rpc_names_only_go_server_clashes :
  let sc := shared_services ["Get"; "Find"; "Put"]%string ["Get"; "Put"]%string in
  accepted sc = true /\ defects_C13 sc = [s "same-method-name-two-services"] /\
  go_vets sc OnlyHttp = false /\ failing_classes sc OnlyHttp = [s "redeclared"] /\
  go_vets sc OnlyClient = true /\ ts_loads sc = true.
Proof.
  intros sc. assert (R : refuted sc ["same-method-name-two-services"%string] OnlyHttp ["redeclared"%string]) by refute.
  destruct R as (Ha & Hd & Hv & Hc).
  refine (conj Ha (conj Hd (conj Hv (conj Hc (conj _ _))))); vm_compute; reflexivity.
Qed.
