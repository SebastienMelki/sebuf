(* C19 — OpenAPI constraints accept exactly what the declared validation rules accept.
   Model: Rules.sat (rule semantics: buf/validate's CEL definitions, lengths in code points, reversed
   ranges), Rules.field_schema_y / translate (what internal/openapiv3/validation.go + types.go publish,
   read back from the emitted YAML under a YAML 1.2 reader), Rules.to_json (proto3 JSON wire form),
   JsonSchema.validates (JSON Schema 2020-12). *)
From Sebuf Require Import JsonSchema Yaml Rules OpenApi.
From SebufProofs Require Import RulesFacts OpenApiFacts.

(* For every field kind that carries rules, every cardinality, every rule set outside the defect
   classes and every well-typed value: the reference semantics of the published schema on the wire JSON
   of the value answers exactly what the rules answer — never an error, never out of fuel.
   P is any regex matcher and any format checker that treats the wire-encoding formats (int32, int64,
   uint64, float, double, byte) as annotations. *)
Theorem C19_equiv : forall (P : vparams) (fs : fspec) (r : rules),
  encoding_formats_are_annotations P ->
  rule_kind (fs_kind fs) = true -> rules_wf r = true -> literals_ok r = true ->
  defects_C19 fs r = [] ->
  forall v, typed fs v = true -> forall fuel, 2 <= fuel ->
  validates P [] fuel (translate reader12 fs r) (to_json fs v) = VOk (sat P fs r v).
Proof. intros P fs r Hfmt _. now apply equiv. Qed.
Print Assumptions C19_equiv.

(* `required` lists a field of a plainly shaped message exactly when its rules require it *)
Theorem C19_required_iff : forall sc sd m f,
  In f (m_fields m) -> NoDup (map jname (m_fields m)) ->
  (In (jname f) (required_of (plain_object_schema sc sd m)) <-> field_required sd (m_name m) f = true).
Proof. exact required_iff. Qed.
Print Assumptions C19_required_iff.

(* a supported well-known string rule is published as `format: <the rule's name>` *)
Theorem C19_format_names : forall r w,
  r_well_known r = Some w -> mem_str w supported_well_known = true ->
  In (s "format", YStr w) (string_entries r).
Proof.
  intros r w Hw Hs. unfold string_entries. rewrite Hw, (format_supported _ Hs). cbn [oent].
  apply in_or_app; right. apply in_or_app; right. apply in_or_app; right. apply in_or_app; left. now left.
Qed.
Print Assumptions C19_format_names.

(* String const / in values are strings (since bfcf808 the nodes are tagged !!str; the former defect
   string-value-untagged-scalar).  For every string c - "123", "true", "null" and "" included - the schema published for
   string.const = c accepts exactly the JSON string c, and the schema published for string.in = a :: l
   exactly the JSON strings of the list: no number, boolean or null in their place, the string itself never
   rejected.  P is any regex matcher / format checker, j any JSON value. *)
Theorem C19_string_const_in_are_strings : forall (P : vparams) (fuel : nat) (j : jv),
  1 <= fuel ->
  (forall c, validates P [] fuel (translate reader12 fstr (const_rules c)) j
             = VOk (match j with JVStr x => str_eqb c x | _ => false end)) /\
  (forall a l, validates P [] fuel (translate reader12 fstr (in_rules (a :: l))) j
               = VOk (match j with JVStr x => mem_str x (a :: l) | _ => false end)).
Proof. exact string_const_in_are_strings. Qed.
Print Assumptions C19_string_const_in_are_strings.

(* the JSON rendering reads the same node as the same string, except for the YAML 1.1 boolean words
   (C18 finding yaml11-bool-word) *)
Theorem C19_string_node_json_rendering : forall x,
  yaml11_bool_word x = false -> denote reader11 (YStr x) = JVStr x /\ denote reader12 (YStr x) = JVStr x.
Proof. exact string_node_json_rendering. Qed.
Print Assumptions C19_string_node_json_rendering.

(* the hostile spellings through the whole pipeline (emitted node, both renderings, no defect tag, the string
   accepted, what an untagged node would have denoted rejected) *)
Example C19_string_const_in_are_strings_examples :
  Forall const_in_ok [s "123"; s "true"; s "null"; s ""; s "1.5"; s "-7"; s "~"; s "fixed"] /\
  map (rd_plain reader12) [s "123"; s "true"; s "null"; s ""] = [JVNum (dec_of_Z 123); JVBool true; JVNull; JVNull] /\
  map (reads_as_string reader12) [s "123"; s "true"; s "null"; s ""; s "fixed"] = [false; false; false; false; true].
Proof. exact string_const_in_are_strings_examples. Qed.

(* Refutations: for each defect class a field, a rule set in exactly that class, and a well-typed value on
   which rules and published schema disagree (refutes tag fs r v, see RulesFacts). *)
(* uint32 x = 1 [gte: 5]: 0 violates the rule, the schema {type: integer, minimum: 0} accepts it *)
Theorem C19_refuted_wrong_message : refutes RulesWrongMessage (fsp KUint32 Singular false) (with_gte (ib 5)) (FOne (RNum (dec_of_Z 0))).
Proof. refute. Qed.
(* int64 x = 1 [gte: 3]: 0 violates the rule; its JSON form "0" is a string, which `minimum` ignores *)
Theorem C19_refuted_int64_string_typed : refutes Int64StringTyped (fsp KInt64 Singular false) (with_gte (ib 3)) (FOne (RNum (dec_of_Z 0))).
Proof. refute. Qed.
(* int64 NUMBER [lte: 2^53+1] is published as maximum 2^53: 2^53+1 satisfies the rule and is rejected *)
Theorem C19_refuted_bound_rounded :
  refutes BoundRoundedToFloat64 (fsp KInt64 Singular true)
          (with_lte (bnd (dec_of_Z 9007199254740993) (dec_of_Z 9007199254740992))) (FOne (RNum (dec_of_Z 9007199254740993))).
Proof. refute. Qed.
(* float [gte: 1.1] is published as minimum 1.100000023841858: the value 1.1 satisfies the rule and is rejected *)
Theorem C19_refuted_float32_widened :
  refutes Float32BoundWidened (fsp KFloat Singular false)
          (with_gte (bnd (mkdec 11 (-1)) (mkdec 1100000023841858 (-15)))) (FOne (RNum (mkdec 11 (-1)))).
Proof. refute. Qed.
(* int32 [gt: 1] is published as exclusiveMinimum: false — not a schema; the bound is gone *)
Theorem C19_refuted_exclusive_bound : refutes ExclusiveBoundFalse (fsp KInt32 Singular false) (with_gt (ib 1)) (FOne (RNum (dec_of_Z 0))).
Proof. refute. Qed.
(* int32 [gte: 10, lte: 5] accepts 0 (outside 5..10); minimum 10 and maximum 5 accept nothing *)
Theorem C19_refuted_reversed_range : refutes ReversedRange (fsp KInt32 Singular false) (with_range (ib 10) (ib 5)) (FOne (RNum (dec_of_Z 0))).
Proof. refute. Qed.
Theorem C19_refuted_len_ignored : refutes StringLenIgnored (fsp KString Singular false) (str_rules None None (Some 3%N) [] None) (FOne (RStr (s "a"))).
Proof. refute. Qed.
Theorem C19_refuted_not_in_ignored : refutes StringNotInIgnored (fsp KString Singular false) (str_rules None None None [s "root"] None) (FOne (RStr (s "root"))).
Proof. refute. Qed.
(* repeated string [items.string.min_len: 2]: ["a"] violates the rule, the schema says nothing about items *)
Theorem C19_refuted_item_rules : refutes ItemRulesIgnored (fsp KString Repeated false) (str_rules (Some 2%N) None None [] None) (FList [RStr (s "a")]).
Proof. refute. Qed.
(* string [max_len: 0]: "a" violates the rule, maxLength: 0 is not rendered *)
Theorem C19_refuted_zero_max : refutes ZeroMaxDropped (fsp KString Singular false) (str_rules None (Some 0%N) None [] None) (FOne (RStr (s "a"))).
Proof. refute. Qed.
Theorem C19_refuted_required_dropped :
  exists sc sd m f, In f (m_fields m) /\ field_required sd (m_name m) f = true /\
    Forall (fun set => ~ In (jname f) (required_of (snd set))) (object_schema_sets sc sd m).
Proof.
  exists ex_required_schema, ex_required_side, ex_required_msg, ex_required_field.
  split; [left; reflexivity|]. split; [vm_compute; reflexivity|].
  apply Forall_forall. intros set Hin Hreq. apply mem_str_In in Hreq.
  assert (H : forallb (fun set => negb (mem_str (jname ex_required_field) (required_of (snd set))))
                      (object_schema_sets ex_required_schema ex_required_side ex_required_msg) = true) by (vm_compute; reflexivity).
  rewrite forallb_forall in H. specialize (H set Hin). rewrite Hreq in H. discriminate.
Qed.

Example C19_nonvacuous :
  (rule_kind KString = true /\ rules_wf good_string_rules = true /\ literals_ok good_string_rules = true /\
   defects_C19 (fsp KString Optional false) good_string_rules = [] /\
   sat P0 (fsp KString Optional false) good_string_rules (FOne (RStr (s "abc"))) = true /\
   sat P0 (fsp KString Optional false) good_string_rules (FOne (RStr (s "zzzzzzzz"))) = false) /\
  (defects_C19 (fsp KInt64 Singular true) good_int64_rules = [] /\ literals_ok good_int64_rules = true /\
   typed (fsp KInt64 Singular true) (FOne (RNum (dec_of_Z (-5)))) = true /\
   sat P0 (fsp KInt64 Singular true) good_int64_rules (FOne (RNum (dec_of_Z (-5)))) = true /\
   sat P0 (fsp KInt64 Singular true) good_int64_rules (FOne (RNum (dec_of_Z 2))) = false) /\
  (defects_C19 (fsp KInt64 Repeated false) good_list_rules = [] /\
   typed (fsp KInt64 Repeated false) (FList [RNum (dec_of_Z 3); RNum (dec_of_Z 3)]) = true /\
   sat P0 (fsp KInt64 Repeated false) good_list_rules (FList [RNum (dec_of_Z 3); RNum (dec_of_Z 4)]) = true /\
   sat P0 (fsp KInt64 Repeated false) good_list_rules (FList [RNum (dec_of_Z 3); RNum (dec_of_Z 3)]) = false).
Proof. exact equiv_nonvacuous. Qed.
