(* C15 — generation is a pure, order-independent function of the definitions (theories/Order.v). *)
From Sebuf Require Import Text Json Order.
From SebufProofs Require Import OrderFacts.

(* Go map iteration order does not reach the output: whatever order the entries of a key-unique
   collection arrive in, sorting by key gives the same slice *)
Theorem C15_map_order : forall (A : Type) (l l' : list (str * A)),
  Permutation l l' -> NoDup (map fst l) -> sort_by_key l = sort_by_key l'.
Proof. exact sort_by_key_perm. Qed.
Print Assumptions C15_map_order.

(* The same for ANY comparison of keys that is total, transitive and antisymmetric.  Antisymmetry is
   what makes the output a function of the collection: it is used in exactly one place, the exchange
   lemma insert_comm (two different keys cannot each be below the other). *)
Theorem C15_sort_order_independent_generic : forall (A : Type) (le : str -> str -> bool),
  (forall a b, le a b = true \/ le b a = true) ->
  (forall a b c, le a b = true -> le b c = true -> le a c = true) ->
  (forall a b, le a b = true -> le b a = true -> a = b) ->
  forall l l' : list (str * A), Permutation l l' -> NoDup (map fst l) -> sort_with le l = sort_with le l'.
Proof. exact sort_with_perm. Qed.
Print Assumptions C15_sort_order_independent_generic.

(* ... and the hypothesis cannot be dropped: under a coarser key (names compared without regard to
   case: total, transitive, not antisymmetric) two different names that are equal up to case come out
   in arrival order, i.e. in the order the Go map happened to iterate *)
Theorem C15_coarse_key_refuted :
  (forall a b, str_le_ci a b = true \/ str_le_ci b a = true) /\
  (forall a b c, str_le_ci a b = true -> str_le_ci b c = true -> str_le_ci a c = true) /\
  (let l1 := [(s "X-Request-Id", 1%nat); (s "X-Request-ID", 2%nat); (s "Accept", 3%nat)] in
   let l2 := [(s "X-Request-ID", 2%nat); (s "X-Request-Id", 1%nat); (s "Accept", 3%nat)] in
   Permutation l1 l2 /\ NoDup (map fst l1) /\
   sort_with str_le_ci l1 <> sort_with str_le_ci l2 /\ sort_by_key l1 = sort_by_key l2).
Proof. exact (conj str_le_ci_total (conj str_le_ci_trans coarse_key_sort_depends_on_arrival_order)). Qed.

(* the order lemmas the sort relies on, for all byte strings *)
Theorem C15_byte_order_total_antisymmetric_transitive :
  (forall a b, str_le a b = true \/ str_le b a = true) /\
  (forall a b, str_le a b = true -> str_le b a = true -> a = b) /\
  (forall a b c, str_le a b = true -> str_le b c = true -> str_le a c = true).
Proof. exact (conj str_le_total (conj str_le_antisym str_le_trans)). Qed.
Print Assumptions C15_byte_order_total_antisymmetric_transitive.

(* annotations.CombineHeaders: the merged header list is the same for every iteration order *)
Theorem C15_combine_headers : forall (A : Type) (pi pi' : list (str * A) -> list (str * A)) svc mth,
  (forall m, Permutation m (pi m)) -> (forall m, Permutation m (pi' m)) ->
  combine_headers pi svc mth = combine_headers pi' svc mth.
Proof. exact combine_headers_order_independent. Qed.
Print Assumptions C15_combine_headers.

(* the global unwrap table + its fallback = the unwrap info of the resolved message *)
Theorem C15_unwrap_info_is_resolved : forall r n, wf_request r ->
  unwrap_info r n = match resolve r n with Some m => om_unwrap m | None => None end.
Proof. exact unwrap_info_is_resolved. Qed.
Print Assumptions C15_unwrap_info_is_resolved.

(* same descriptor pool, any file_to_generate: permuted, a single file, further files generated too *)
Theorem C15_perm_and_single_vs_multi : forall r1 r2 f,
  wf_request r1 -> rq_files r1 = rq_files r2 -> generate r1 f = generate r2 f.
Proof.
  intros r1 r2 f.
  intros W E. apply generate_via_resolve; [assumption|unfold wf_request; now rewrite <- E|].
  intros m n _ _. unfold resolve. now rewrite E.
Qed.
Print Assumptions C15_perm_and_single_vs_multi.

(* files added anywhere to the request (generated or not) that f does not refer to *)
Theorem C15_unrelated : forall r1 r2 f,
  subl (rq_files r1) (rq_files r2) -> wf_request r2 -> closed_in r1 f -> generate r1 f = generate r2 f.
Proof. exact generate_ignores_unrelated. Qed.
Print Assumptions C15_unrelated.

(* the suspicion settled: with the table alone (no fallback) A's output depends on whether b.proto
   is generated in the same invocation; with the fallback (the code as it is) it does not *)
Theorem C15_single_vs_multi_table_only_refuted :
  (out_unwrap (generate_with unwrap_info_table_only r_single a_file) = []) /\
  (out_unwrap (generate_with unwrap_info_table_only r_multi a_file) = [(s "p.A", s "p.B", 7%nat)]) /\
  (generate r_single a_file = generate r_multi a_file) /\
  (out_unwrap (generate r_single a_file) = [(s "p.A", s "p.B", 7%nat)]).
Proof. repeat split; reflexivity. Qed.

Example C15_nonvacuous :
  (wf_request r_multi /\ closed_in r_multi a_file) /\
  sort_by_key [(s "X-Trace", 1%nat); (s "Accept", 2%nat); (s "X-API-Key", 3%nat)] =
  sort_by_key [(s "X-API-Key", 3%nat); (s "X-Trace", 1%nat); (s "Accept", 2%nat)].
Proof. split; [exact r_multi_wf|reflexivity]. Qed.
