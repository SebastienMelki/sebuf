(* C11 — malformed traffic is rejected cleanly: the decision logic of the emitted body readers,
   custom decoders and client response handling.  (Crashes and hangs of the real process cannot be
   exhibited by a total model; they are searched for by the mutation stream of the check.) *)
From Sebuf Require Import Malformed.
From SebufProofs Require Import MalformedFacts.

(* every body is either dispatched or answered 400 *)
Theorem C11_total : forall b, status_of (go_bind_body b) = 200%N \/ status_of (go_bind_body b) = 400%N.
Proof. intros b. destruct (go_bind_body b); cbn; auto. Qed.
Print Assumptions C11_total.

(* outside the three defect classes the server dispatches exactly the bodies that were read and
   decoded completely under the declared formats, and rejects all others *)
Theorem C11_no_partial : forall b, defects_C11 b = [] -> go_bind_body b = strict_bind_body b.
Proof. exact no_partial. Qed.
Print Assumptions C11_no_partial.

Theorem C11_dispatch_sound : forall b, defects_C11 b = [] -> forall f, go_bind_body b = BDispatch f ->
  f = true /\ strict_bind_body b = BDispatch true.
Proof. exact dispatch_sound. Qed.
Print Assumptions C11_dispatch_sound.

Theorem C11_clients_total : forall r, exists c, go_client_parse r = c /\
    ((rc_status r < 400)%N -> c = CResp \/ c = CErrDecode) /\
    ((400 <= rc_status r)%N -> c = CErrValidation \/ c = CErrSebuf \/ c = CErrOther).
Proof. exact client_total. Qed.
Print Assumptions C11_clients_total.

Theorem C11_client_validation_only_400 : forall r, go_client_parse r = CErrValidation -> rc_status r = 400%N.
Proof. exact client_validation_only_400. Qed.
Print Assumptions C11_client_validation_only_400.

(* behind net/http's framing (lying Content-Length, cut or malformed chunking): one result class, and a
   value or typed error only from a completely delivered body *)
Theorem C11_client_framed_total : forall f r,
  go_client_framed f r = FRTransport \/ go_client_framed f r = FRRead \/
  exists c, go_client_framed f r = FRParsed c /\ f = FrComplete /\
    ((rc_status r < 400)%N -> c = CResp \/ c = CErrDecode) /\
    ((400 <= rc_status r)%N -> c = CErrValidation \/ c = CErrSebuf \/ c = CErrOther).
Proof. exact client_framed_total. Qed.
Print Assumptions C11_client_framed_total.

Theorem C11_client_framed_value_needs_complete : forall f r c,
  go_client_framed f r = FRParsed c -> f = FrComplete /\ c = go_client_parse r.
Proof. intros f r c. destruct f; cbn; intro H; try discriminate. now inversion H. Qed.
Print Assumptions C11_client_framed_value_needs_complete.

Theorem C11_client_framed_cut_is_error : forall f r, f <> FrComplete ->
  go_client_framed f r = FRTransport \/ go_client_framed f r = FRRead.
Proof. intros f r. destruct f; cbn; intro H; auto. now contradiction H. Qed.
Print Assumptions C11_client_framed_cut_is_error.

Example C11_client_framed_nonvacuous :
  go_client_framed FrBodyCutShort {| rc_status := 200; rc_empty := false; rc_as_result := true; rc_as_validation := false; rc_as_error := false |} = FRRead
  /\ go_client_framed FrComplete {| rc_status := 200; rc_empty := false; rc_as_result := true; rc_as_validation := false; rc_as_error := false |} = FRParsed CResp.
Proof. vm_compute. split; reflexivity. Qed.

Example C11_nonvacuous :
  defects_C11 {| bc_fmt := BJson; bc_read := ReadOk; bc_empty := false; bc_syntax_ok := true; bc_convs := [true; true]; bc_rest_ok := true |} = []
  /\ go_bind_body {| bc_fmt := BJson; bc_read := ReadOk; bc_empty := false; bc_syntax_ok := true; bc_convs := [true; true]; bc_rest_ok := true |} = BDispatch true.
Proof. vm_compute. split; reflexivity. Qed.

(* {"h":"abc"} on a HEX field: the hex error is dropped, protojson reads "abc" as base64 *)
Example C11_refuted_swallowed_conversion :
  let b := {| bc_fmt := BJson; bc_read := ReadOk; bc_empty := false; bc_syntax_ok := true; bc_convs := [false]; bc_rest_ok := true |} in
  defects_C11 b = [C11SwallowedConversion] /\ go_bind_body b = BDispatch false /\ strict_bind_body b = BReject.
Proof. vm_compute. repeat split; reflexivity. Qed.

Example C11_refuted_unexpected_eof :
  let b := {| bc_fmt := BBin; bc_read := ReadUnexpectedEOF; bc_empty := false; bc_syntax_ok := true; bc_convs := []; bc_rest_ok := true |} in
  defects_C11 b = [C11UnexpectedEOFTolerated] /\ go_bind_body b = BDispatch false /\ strict_bind_body b = BReject.
Proof. vm_compute. repeat split; reflexivity. Qed.

Example C11_refuted_read_error_empty :
  let b := {| bc_fmt := BBin; bc_read := ReadOtherErr; bc_empty := true; bc_syntax_ok := true; bc_convs := []; bc_rest_ok := true |} in
  defects_C11 b = [C11ReadErrorEmptyBody] /\ go_bind_body b = BDispatch false /\ strict_bind_body b = BReject.
Proof. vm_compute. repeat split; reflexivity. Qed.

(* the 400 document: a rejection is answered with a ValidationError, whatever the error text quotes *)
From Sebuf Require Import RejectDoc.
From SebufProofs Require Import RejectDocFacts.

Theorem C11_reject_document : forall field before token after,
  utf8_valid before = true -> utf8_valid token = true -> utf8_valid after = true ->
  go_reject_doc field before token after = RDValidation field.
Proof. exact reject_doc_well_formed. Qed.
Print Assumptions C11_reject_document.

Theorem C11_reject_document_any_length : forall field before pad n unit after,
  utf8_valid before = true -> utf8_valid pad = true -> utf8_valid unit = true -> utf8_valid after = true ->
  well_formed_doc (go_reject_doc field before (pad ++ rep_tok n unit) after) = true.
Proof.
  intros field before pad n unit after Hb Hp Hu Ha. rewrite reject_doc_well_formed; try assumption; [reflexivity|].
  apply utf8_valid_app; [exact Hp|now apply utf8_valid_rep].
Qed.
Print Assumptions C11_reject_document_any_length.

(* 100 three-byte characters after a two-byte pad *)
Example C11_reject_nonvacuous :
  go_reject_doc (s "body") (s "failed to parse request body: unknown field ") (s "ab" ++ rep_tok 100 [ch 227; ch 129; ch 130]) (s "") = RDValidation (s "body").
Proof. vm_compute. reflexivity. Qed.

(* the known finding: a body that is not valid UTF-8 is echoed into the description; marshalling fails *)
Example C11_refuted_invalid_utf8_echoed :
  well_formed_doc (go_reject_doc (s "body") (s "failed to parse request body: ") [ch 255; ch 254] (s "")) = false.
Proof. vm_compute. reflexivity. Qed.

(* why the description must not be cut at a byte offset: a prefix of valid UTF-8 need not be valid *)
Example C11_byte_prefix_not_valid :
  utf8_valid [ch 227; ch 129; ch 130] = true /\ utf8_valid (firstn 2 [ch 227; ch 129; ch 130]) = false.
Proof. vm_compute. split; reflexivity. Qed.
