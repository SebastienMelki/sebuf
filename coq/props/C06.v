(* C06 — wire JSON validates against the generated OpenAPI.
   Model: Codec.encode / ProtoJson.pj_marshal (what the Go server and the Go client put on the wire; C04/C05),
   OpenApi.v (the document protoc-gen-openapiv3 emits, read back under a YAML 1.2 reader), JsonSchema.validates
   (JSON Schema 2020-12), Conform.v (wire_jv: canonical wire JSON -> validator instances; und: the
   "property no schema describes" walk; defects_C06; predict_C06).
   Statements; the proofs are in proofs/ConformFacts.v and proofs/ConformCodecs.v, the refutation witnesses are evaluated here.

   What is theorem-backed: scalars of all 15 kinds and enums (all values), their lift through singular /
   optional / repeated / map fields and through object schemas to whole messages of the PLAIN fragment
   (no sebuf annotation reachable from the value: MappingFacts.plain_top / plain_in; messages without oneof
   members: ProtoJsonFacts.wt), no undescribed property at any depth for the same fragment, the default value,
   the built-in error bodies, URL values; and ((g) below) top-level messages owned by one of the five field codecs
   (int64 NUMBER, nullable, empty_behavior, timestamp_format, bytes_encoding) with un-annotated children.  What is not:
   messages with flatten, a discriminated oneof or unwrap, and annotations below the top level, outside the defect
   classes — covered by the correspondence run only (C06_message_valid_full below is not proved).
   P is any regex matcher and any format checker that treats the wire-encoding formats as annotations;
   E is any float/time library whose finite floats print as JSON numbers (Ext.law_fprint_num). *)
From Sebuf Require Import Conform.
From SebufProofs Require Import ProtoJsonFacts CodecExamples MappingFacts ConformFacts.

(* (a) leaves: for each of the 15 scalar kinds and every typed value outside the defect classes (NaN / Inf),
   the proto3 JSON rendering validates against the schema convertScalarField publishes for the kind:
   32-bit integers as JSON integers (unsigned: minimum 0), 64-bit integers as decimal strings, finite
   floats as numbers, bool, string, bytes as base64 text. *)
Theorem C06_scalar_valid : forall (E : ExtLib) (sc : schema) (P : vparams) (cst : list (str * jschema))
    (k : kind) (x : sval) (j : json) (fu n : nat),
  fprint_is_number E -> wire_formats_are_annotations P ->
  is_scalar_kind k = true -> wt_scalar sc k x = true -> scalar_issues sc k x = [] ->
  pj_scalar E sc k x = ROk j ->
  validates P cst (S n) (rd fu (elem_node sc k)) (wire_jv j) = VOk true.
Proof. intros E sc P cst k x j fu n EL Hfmt. exact (scalar_valid E EL sc P Hfmt cst k x j fu n). Qed.
Print Assumptions C06_scalar_valid.

(* enums without custom values: a defined number is sent as its name, and the name is one of the listed
   names (provided the name reads back as a string from the untagged YAML scalar) *)
Theorem C06_enum_valid : forall (E : ExtLib) (sc : schema) (P : vparams) (cst : list (str * jschema))
    (tn : str) (n0 : Z) (j : json) (fu n : nat),
  wt_scalar sc (KEnum tn) (VEnum n0) = true -> scalar_issues sc (KEnum tn) (VEnum n0) = [] ->
  plain_enum sc (KEnum tn) = true ->
  pj_scalar E sc (KEnum tn) (VEnum n0) = ROk j ->
  validates P cst (S n) (rd fu (elem_node sc (KEnum tn))) (wire_jv j) = VOk true.
Proof. exact enum_valid. Qed.
Print Assumptions C06_enum_valid.

(* elem_node IS what the generator publishes for the elements of any field without annotations *)
Theorem C06_scalar_valid_field : forall (E : ExtLib) (sc : schema) (P : vparams) (cst : list (str * jschema))
    (mn : str) (f : field) (x : sval) (j : json) (fu n : nat),
  fprint_is_number E -> wire_formats_are_annotations P ->
  MappingFacts.plain_field f = true -> is_msgk (f_kind f) = false ->
  wt_scalar sc (f_kind f) x = true -> scalar_issues sc (f_kind f) x = [] -> plain_enum sc (f_kind f) = true ->
  pj_scalar E sc (f_kind f) x = ROk j ->
  validates P cst (S n) (rd fu (convert_scalar sc no_side mn f)) (wire_jv j) = VOk true.
Proof. exact scalar_valid_field. Qed.
Print Assumptions C06_scalar_valid_field.

(* (b) cardinalities: one populated field — singular, optional, repeated (array + items), map (object +
   additionalProperties) — against convertField's schema; nested messages through their $ref *)
Theorem C06_field_valid : forall (E : ExtLib) (sc : schema) (P : vparams) (cs : list (str * ynode))
    (mn : str) (f : field) (x : fval) (j : json) (fu n : nat),
  fprint_is_number E -> wire_formats_are_annotations P ->
  find_message (all_messages sc) ts_name = None ->
  MappingFacts.plain_field f = true -> need x <= n ->
  wt_entry sc f x = true -> plain_in sc (f_kind f) x = true -> walk sc no_side cs (f_kind f) x = [] ->
  pj_fval E sc (f_kind f) x = ROk j ->
  validates P (doc_components reader12 cs) (S n) (rd (S fu) (convert_field sc no_side mn f)) (wire_jv j) = VOk true.
Proof.
  intros E sc P cs mn f x j fu n EL Hfmt Hts Hpf Hn Hwt Hpl Hw Hj.
  apply (field_conforms E EL sc P cs Hts mn f x j fu Hpf Hwt Hpl Hw Hj); [exact Hfmt|lia].
Qed.
Print Assumptions C06_field_valid.

(* (b) whole bodies, plain fragment: the JSON the server / client sends (Codec.encode), which is also the
   documented form (Mapping.to_json), validates against the schema the operation refers to, with the
   components of the document; fuel never runs out from need (FM m) on. *)
Theorem C06_message_valid_partial : forall (E : ExtLib) (sc : schema) (P : vparams) (cs : list (str * ynode))
    (tn : str) (m : mval) (j : json),
  fprint_is_number E -> wire_formats_are_annotations P ->
  find_message (all_messages sc) ts_name = None -> str_eqb tn ts_name = false ->
  plain_top sc tn = true -> plain_in sc (KMessage tn) (FM m) = true ->
  wt sc (KMessage tn) (FM m) = true ->
  defects_C06 sc no_side cs tn m = [] ->
  (encode E sc tn m = ROk j \/ Mapping.to_json E sc tn m = ROk j) ->
  forall fuel, need (FM m) <= fuel ->
  validates P (doc_components reader12 cs) fuel (body_schema tn) (wire_jv j) = VOk true.
Proof.
  intros E sc P cs tn m j EL Hfmt Hts Htn Htop Hpl Hwt Hd Hj.
  exact (proj1 (body_conforms E sc P cs tn m j EL Hts Htn Htop Hpl Hwt Hd Hj) Hfmt).
Qed.
Print Assumptions C06_message_valid_partial.

(* full statement (not proved: messages carrying sebuf annotations are covered by the correspondence run) *)
Definition C06_message_valid_full : Prop := forall E sc sd cs tn m j,
  fprint_is_number E -> wt sc (KMessage tn) (FM m) = true ->
  defects_C06 sc sd cs tn m = [] -> encode E sc tn m = ROk j ->
  validates P06 (doc_components reader12 cs) c06_fuel (body_schema tn) (wire_jv j) = VOk true /\
  und P06 (doc_components reader12 cs) und_fuel c06_fuel (body_schema tn) (wire_jv j) = 0.

(* (c) same fragment: no property, at any depth, that the schema in force there does not describe *)
Theorem C06_no_undeclared_property_partial : forall (E : ExtLib) (sc : schema) (P : vparams) (cs : list (str * ynode))
    (tn : str) (m : mval) (j : json),
  fprint_is_number E ->
  find_message (all_messages sc) ts_name = None -> str_eqb tn ts_name = false ->
  plain_top sc tn = true -> plain_in sc (KMessage tn) (FM m) = true ->
  wt sc (KMessage tn) (FM m) = true ->
  defects_C06 sc no_side cs tn m = [] ->
  (encode E sc tn m = ROk j \/ Mapping.to_json E sc tn m = ROk j) ->
  forall uf vf, und P (doc_components reader12 cs) uf vf (body_schema tn) (wire_jv j) = 0.
Proof.
  intros E sc P cs tn m j EL Hts Htn Htop Hpl Hwt Hd Hj.
  exact (proj2 (body_conforms E sc P cs tn m j EL Hts Htn Htop Hpl Hwt Hd Hj)).
Qed.
Print Assumptions C06_no_undeclared_property_partial.

Theorem C06_keys_declared : forall (E : ExtLib) (sc : schema) (tn : str) (md : message) (m : mval) (es : list (str * json)),
  str_eqb tn ts_name = false -> is_wkt_other tn = false ->
  find_message (all_messages sc) tn = Some md ->
  plain_top sc tn = true -> plain_in sc (KMessage tn) (FM m) = true ->
  encode E sc tn m = ROk (JObj es) ->
  forall key, In key (map fst es) -> In key (component_property_names sc md).
Proof. exact message_keys_declared. Qed.
Print Assumptions C06_keys_declared.

(* (d) satisfiability: the default value of every un-annotated message is sent as {} and validates; a
   fully populated value validates by C06_message_valid_partial whenever one exists outside the defect
   classes (C06_nonvacuous exhibits one with nested, repeated and map fields; existence for every schema —
   recursive types, enums with a single value — is not proved) *)
Theorem C06_satisfiable_partial : forall (E : ExtLib) (sc : schema) (P : vparams) (cs : list (str * ynode)) (tn : str) (md : message),
  fprint_is_number E -> wire_formats_are_annotations P ->
  find_message (all_messages sc) ts_name = None -> str_eqb tn ts_name = false -> is_wkt_other tn = false ->
  find_message (all_messages sc) tn = Some md -> msg_ok md = true ->
  plain_top sc tn = true ->
  defects_C06 sc no_side cs tn [] = [] ->
  encode E sc tn [] = ROk (JObj []) /\
  forall fuel, 3 <= fuel -> validates P (doc_components reader12 cs) fuel (body_schema tn) (wire_jv (JObj [])) = VOk true.
Proof. intros E sc P cs tn md _ _ _. exact (default_valid E sc P cs tn md). Qed.
Print Assumptions C06_satisfiable_partial.

(* (e) error bodies against the built-in components (present in every document unless a message takes
   their name) *)
Theorem C06_builtin_components : forall (sets : list (str * ynode)),
  (forall e, In e sets -> mem_str (fst e) builtin_names = false) ->
  builtin_ok (doc_components reader12 (components_of_sets sets)).
Proof. exact builtin_ok_no_collision. Qed.
Print Assumptions C06_builtin_components.

Theorem C06_error_bodies : forall (P : vparams) (cst : list (str * jschema)), builtin_ok cst ->
  (forall msg fuel, 3 <= fuel ->
     validates P cst fuel (SObj [KwRef (s "Error")]) (wire_jv (error_body msg)) = VOk true) /\
  (forall vs fuel, defects_C06_verr vs = [] -> 6 <= fuel ->
     validates P cst fuel (SObj [KwRef (s "ValidationError")]) (wire_jv (validation_body vs)) = VOk true).
Proof. exact error_bodies_valid. Qed.
Print Assumptions C06_error_bodies.
Theorem C06_refuted_validation_without_violations :
  defects_C06_verr [] = [s "validation-error-without-violations"] /\
  validates P06 (doc_components reader12 (components_of_sets [])) c06_fuel (SObj [KwRef (s "ValidationError")]) (wire_jv (validation_body [])) = VOk false.
Proof. split; vm_compute; reflexivity. Qed.
Theorem C06_refuted_violation_empty_member :
  defects_C06_verr [(s "a", [])] = [s "violation-with-empty-member"] /\
  validates P06 (doc_components reader12 (components_of_sets [])) c06_fuel (SObj [KwRef (s "ValidationError")]) (wire_jv (validation_body [(s "a", [])])) = VOk false.
Proof. split; vm_compute; reflexivity. Qed.

(* URL values (path, query) of every kind the client can format *)
Theorem C06_params_valid : forall (P : vparams) (sc : schema) (k : kind) (v : sval),
  wire_formats_are_annotations P ->
  is_scalar_kind k = true -> k <> KBytes -> wt_scalar sc k v = true -> defects_C06_param k v = [] ->
  forall fuel, 1 <= fuel -> validates P [] fuel (typed (param_schema k)) (param_jv k v) = VOk true.
Proof. exact param_valid. Qed.
Print Assumptions C06_params_valid.

(* the hypotheses on E and P are satisfiable: the library instance and the parameters of the correspondence run *)
Theorem C06_hypotheses_inhabited :
  (forall E, ExtLaws E -> fprint_is_number E) /\ fprint_is_number Ex /\ wire_formats_are_annotations P06.
Proof. exact (conj ext_laws_fprint (conj Ex_fprint_is_number P06_formats)). Qed.
Print Assumptions C06_hypotheses_inhabited.

(* (f) refutations: refuted6 d tag tn m valid und = the case lies in exactly the class [tag], and the
   model's wire JSON fails validation (valid = false) or carries und > 0 undescribed properties *)
Theorem C06_refuted_nan : refuted6 c6doc D6NonFinite (c6q "Full") [(s "ratio", FS (VFloat nan64))] false 0.
Proof. vm_compute. repeat split; auto. Qed.
Print Assumptions C06_refuted_nan.
Theorem C06_refuted_enum_custom_value : refuted6 c6doc (D6Wire D5EnumValue) (c6q "WithEnum") [(s "status", FS (VEnum 1))] false 0.
Proof. vm_compute. repeat split; auto. Qed.
Theorem C06_refuted_enum_unknown_number : refuted6 c6doc D6EnumUnknownNumber (c6q "Full") [(s "color", FS (VEnum 7))] false 0.
Proof. vm_compute. repeat split; auto. Qed.
Theorem C06_refuted_enum_name_untagged : refuted6 c6doc D6EnumNameUntagged (c6q "Flag") [(s "t", FS (VEnum 1))] false 0.
Proof. vm_compute. repeat split; auto. Qed.
Theorem C06_refuted_nested_int64_number : refuted6 c6doc (D6Wire (D5Pj AInt64)) (c6q "NumsHolder") [(s "inner", FM [(s "big", vint 5)])] false 0.
Proof. vm_compute. repeat split; auto. Qed.
(* every instance is valid under each oneOf branch: even the default value fails, the component is unsatisfiable *)
Theorem C06_refuted_nested_oneof_ambiguous : refuted6 c6doc D6NestedOneofAmbiguous (c6q "Event") [] false 0.
Proof. vm_compute. repeat split; auto. Qed.
Theorem C06_refuted_nested_oneof_ambiguous_set :
  refuted6 c6doc D6NestedOneofAmbiguous (c6q "Event") [(s "eid", vstr "e"); (s "text", FM [(s "body", vstr "b")])] false 0.
Proof. vm_compute. repeat split; auto. Qed.
Theorem C06_refuted_flat_oneof_unset : refuted6 c6doc D6FlatOneofUnset (c6q "FlatEvent") [(s "eid", vstr "e")] false 1.
Proof. vm_compute. repeat split; auto. Qed.
Theorem C06_refuted_root_unwrap_nil : refuted6 c6doc (D6Wire D5RootNull) (c6q "Strs") [] false 0.
Proof. vm_compute. repeat split; auto. Qed.
Theorem C06_refuted_short_name_collision :
  refuted6 c6doc_col D6ShortNameCollision (c6q "Outer") [(s "l", FM [(s "a", vstr "x")])] true 1.
Proof. vm_compute. repeat split; auto. Qed.
Print Assumptions C06_refuted_short_name_collision.

(* non-vacuity: a fully populated value with nested, repeated and map fields satisfies every hypothesis
   of C06_message_valid_partial / C06_no_undeclared_property_partial, on the components of a service's document *)
Example C06_nonvacuous :
  hyps6 (c6q "Full") full_value /\
  (exists md, find_message (all_messages c6s) (c6q "Full") = Some md /\ all_populated md full_value = true) /\
  cd_tcs c6doc = doc_components reader12 (cd_cs c6doc) /\
  exists j, encode Ex c6s (c6q "Full") full_value = ROk j /\
            (forall fuel, need (FM full_value) <= fuel ->
               validates P06 (cd_tcs c6doc) fuel (body_schema (c6q "Full")) (wire_jv j) = VOk true) /\
            (forall uf vf, und P06 (cd_tcs c6doc) uf vf (body_schema (c6q "Full")) (wire_jv j) = 0) /\
            need (FM full_value) = 7.
Proof. exact nonvacuous. Qed.
Print Assumptions C06_nonvacuous.

(* (g) messages owned by ONE field codec (proofs/ConformCodecs.v).  The plain fragment above stops at the first sebuf
   annotation; here the top-level message carries nullable, int64_encoding = NUMBER, bytes_encoding, timestamp_format
   or empty_behavior fields (children un-annotated, as in the C05 conforms theorems, whose hypotheses are taken over
   unchanged).  For every well-typed value outside the defect classes, the JSON the server sends (Codec.encode, equal
   to the documented form Mapping.to_json by conforms_nullable / _int64 / _bytes / _ts / _empty) validates against the
   component schema of the message and carries no property that schema does not describe.
   Added hypotheses: nullable — ConformCodecs.nullable_shape (nullable = true only on singular / optional fields of
   non-message kinds - enums included, see C06_nullable_enum_null_validates - and the enum of a nullable enum field declares a value, as protoc demands;
   needed: C06_message_valid_nullable_needs_inhabited / _needs_nonmessage / _needs_singular are corners protoc or the
   generator refuse); bytes / timestamp — ConformCodecs.codec_params P (the formats hex, base64url,
   date, unix-timestamp(-ms) are annotations and the hex pattern matches hex text; P06 satisfies it);
   empty_behavior — the reference walk needs the validation fuel of the value when a field is NULL-annotated
   (C06_message_valid_empty_needs_fuel). *)
From SebufProofs Require NullableFacts NullableConforms Int64Conforms BytesConforms TimestampConforms EmptyConforms ConformCodecs.

(* the documented form itself, for any mix of the five annotations on one message (ConformCodecs.c6_msg_ok: every field
   is un-annotated as far as its own rendering goes, or NUMBER on a non-map 64-bit field, or a non-map bytes field, or
   a singular Timestamp with a format; nullable on singular non-message fields only, ConformCodecs.nullable_enums_inhabited:
   the enum of a nullable enum field is not empty; no flatten, no configured oneof, no root unwrap) *)
Theorem C06_message_valid_documented : forall (E : ExtLib) (sc : schema) (P : vparams) (cs : list (str * ynode))
    (tn : str) (md : message) (m : mval) (j : json),
  fprint_is_number E -> wire_formats_are_annotations P ->
  forallb ConformCodecs.plain_or_i64 (m_fields md) = true \/ ConformCodecs.codec_params P ->
  find_message (all_messages sc) ts_name = None -> str_eqb tn ts_name = false -> is_wkt_other tn = false ->
  find_message (all_messages sc) tn = Some md -> ConformCodecs.c6_msg_ok md = true ->
  ConformCodecs.nullable_enums_inhabited sc md = true ->
  wt sc (KMessage tn) (FM m) = true -> ConformCodecs.kids_plain sc md m = true ->
  defects_C06 sc no_side cs tn m = [] ->
  Mapping.to_json E sc tn m = ROk j ->
  (forall fuel, need (FM m) <= fuel ->
     validates P (doc_components reader12 cs) fuel (body_schema tn) (wire_jv j) = VOk true) /\
  (forall uf vf, existsb ConformCodecs.empty_null (m_fields md) = false \/ need (FM m) <= vf ->
     und P (doc_components reader12 cs) uf vf (body_schema tn) (wire_jv j) = 0).
Proof. exact ConformCodecs.spec_message_conforms. Qed.
Print Assumptions C06_message_valid_documented.

(* nullable: an unset field is sent as null and the property is published as type [T, "null"] (for an enum field
   also enum [names..., null]) *)
Theorem C06_message_valid_nullable : forall (E : ExtLib) (sc : schema) (P : vparams) (cs : list (str * ynode))
    (tn : str) (md : message) (m : mval) (j : json),
  fprint_is_number E -> wire_formats_are_annotations P ->
  find_message (all_messages sc) ts_name = None -> str_eqb tn ts_name = false -> is_wkt_other tn = false ->
  find_message (all_messages sc) tn = Some md -> owner_of sc md = Own FtNullable ->
  NullableFacts.nodup_str (map jn (m_fields md)) = true -> NullableConforms.nulplain_msg md = true ->
  ConformCodecs.nullable_shape sc md = true ->
  wt sc (KMessage tn) (FM m) = true -> ConformCodecs.kids_plain sc md m = true ->
  defects_C06 sc no_side cs tn m = [] ->
  (encode E sc tn m = ROk j \/ Mapping.to_json E sc tn m = ROk j) ->
  (forall fuel, need (FM m) <= fuel ->
     validates P (doc_components reader12 cs) fuel (body_schema tn) (wire_jv j) = VOk true) /\
  (forall uf vf, und P (doc_components reader12 cs) uf vf (body_schema tn) (wire_jv j) = 0).
Proof. exact ConformCodecs.message_conforms_nullable. Qed.
Print Assumptions C06_message_valid_nullable.

(* int64_encoding = NUMBER: JSON integers against type integer (minimum 0 when unsigned), singular and repeated *)
Theorem C06_message_valid_int64 : forall (E : ExtLib) (sc : schema) (P : vparams) (cs : list (str * ynode))
    (tn : str) (md : message) (m : mval) (j : json),
  fprint_is_number E -> wire_formats_are_annotations P ->
  find_message (all_messages sc) ts_name = None -> str_eqb tn ts_name = false -> is_wkt_other tn = false ->
  find_message (all_messages sc) tn = Some md -> owner_of sc md = Own FtInt64 ->
  buildable sc FtInt64 md = true ->
  NullableFacts.nodup_str (map jn (m_fields md)) = true -> Int64Conforms.i64plain_msg md = true ->
  wt sc (KMessage tn) (FM m) = true -> ConformCodecs.kids_plain sc md m = true ->
  defects_C06 sc no_side cs tn m = [] ->
  (encode E sc tn m = ROk j \/ Mapping.to_json E sc tn m = ROk j) ->
  (forall fuel, need (FM m) <= fuel ->
     validates P (doc_components reader12 cs) fuel (body_schema tn) (wire_jv j) = VOk true) /\
  (forall uf vf, und P (doc_components reader12 cs) uf vf (body_schema tn) (wire_jv j) = 0).
Proof. exact ConformCodecs.message_conforms_int64. Qed.
Print Assumptions C06_message_valid_int64.

(* bytes_encoding: text against type string + format (hex also against the published pattern) *)
Theorem C06_message_valid_bytes : forall (E : ExtLib) (sc : schema) (P : vparams) (cs : list (str * ynode))
    (tn : str) (md : message) (m : mval) (j : json),
  fprint_is_number E -> wire_formats_are_annotations P -> ConformCodecs.codec_params P ->
  find_message (all_messages sc) ts_name = None -> str_eqb tn ts_name = false -> is_wkt_other tn = false ->
  find_message (all_messages sc) tn = Some md -> owner_of sc md = Own FtBytes ->
  buildable sc FtBytes md = true ->
  NullableFacts.nodup_str (map jn (m_fields md)) = true -> BytesConforms.bytesplain_msg md = true ->
  wt sc (KMessage tn) (FM m) = true -> forallb (BytesConforms.bytes_value_ok sc md) m = true ->
  defects_C06 sc no_side cs tn m = [] ->
  (encode E sc tn m = ROk j \/ Mapping.to_json E sc tn m = ROk j) ->
  (forall fuel, need (FM m) <= fuel ->
     validates P (doc_components reader12 cs) fuel (body_schema tn) (wire_jv j) = VOk true) /\
  (forall uf vf, und P (doc_components reader12 cs) uf vf (body_schema tn) (wire_jv j) = 0).
Proof. exact ConformCodecs.message_conforms_bytes. Qed.
Print Assumptions C06_message_valid_bytes.

(* timestamp_format: Unix seconds / milliseconds against type integer, the date text against type string *)
Theorem C06_message_valid_timestamp : forall (E : ExtLib) (sc : schema) (P : vparams) (cs : list (str * ynode))
    (tn : str) (md : message) (m : mval) (j : json),
  fprint_is_number E -> wire_formats_are_annotations P -> ConformCodecs.codec_params P ->
  find_message (all_messages sc) ts_name = None -> str_eqb tn ts_name = false -> is_wkt_other tn = false ->
  find_message (all_messages sc) tn = Some md -> owner_of sc md = Own FtTs ->
  buildable sc FtTs md = true ->
  NullableFacts.nodup_str (map jn (m_fields md)) = true -> forallb TimestampConforms.tsplain_field (m_fields md) = true ->
  wt sc (KMessage tn) (FM m) = true -> forallb (TimestampConforms.ts_entry_ok sc md) m = true ->
  defects_C06 sc no_side cs tn m = [] ->
  (encode E sc tn m = ROk j \/ Mapping.to_json E sc tn m = ROk j) ->
  (forall fuel, need (FM m) <= fuel ->
     validates P (doc_components reader12 cs) fuel (body_schema tn) (wire_jv j) = VOk true) /\
  (forall uf vf, und P (doc_components reader12 cs) uf vf (body_schema tn) (wire_jv j) = 0).
Proof. exact ConformCodecs.message_conforms_ts. Qed.
Print Assumptions C06_message_valid_timestamp.

(* empty_behavior: NULL publishes oneOf [T, null] — an empty child is sent as null (second branch only), a non-empty
   one as its object (first branch only); OMIT drops the key; PRESERVE changes nothing *)
Theorem C06_message_valid_empty : forall (E : ExtLib) (sc : schema) (P : vparams) (cs : list (str * ynode))
    (tn : str) (md : message) (m : mval) (j : json),
  fprint_is_number E -> wire_formats_are_annotations P ->
  find_message (all_messages sc) ts_name = None -> str_eqb tn ts_name = false -> is_wkt_other tn = false ->
  find_message (all_messages sc) tn = Some md -> owner_of sc md = Own FtEmpty ->
  buildable sc FtEmpty md = true ->
  NullableFacts.nodup_str (map jn (m_fields md)) = true -> EmptyConforms.empplain_msg md = true ->
  wt sc (KMessage tn) (FM m) = true -> ConformCodecs.kids_plain sc md m = true ->
  defects_C06 sc no_side cs tn m = [] ->
  (encode E sc tn m = ROk j \/ Mapping.to_json E sc tn m = ROk j) ->
  (forall fuel, need (FM m) <= fuel ->
     validates P (doc_components reader12 cs) fuel (body_schema tn) (wire_jv j) = VOk true) /\
  (forall uf vf, existsb ConformCodecs.empty_null (m_fields md) = false \/ need (FM m) <= vf ->
     und P (doc_components reader12 cs) uf vf (body_schema tn) (wire_jv j) = 0).
Proof. exact ConformCodecs.message_conforms_empty. Qed.
Print Assumptions C06_message_valid_empty.

(* the added hypothesis on P is satisfiable: the parameters of the correspondence run *)
Theorem C06_codec_params_inhabited : ConformCodecs.codec_params P06.
Proof. exact ConformCodecs.P06_codec_params. Qed.
Print Assumptions C06_codec_params_inhabited.

(* non-vacuity, one per codec, on the document of a service whose RPCs carry the five messages (ConformCodecs.k6s):
   all hypotheses hold, the annotated fields are populated with non-trivial values, the wire JSON is the one shown,
   and the model's own verdict (what predict_C06 evaluates) agrees with the theorem *)
Example C06_message_valid_nullable_nonvacuous :
  ConformCodecs.k6_common (ConformCodecs.k6q "Nul") ConformCodecs.k6_nul ConformCodecs.nul_value /\
  owner_of ConformCodecs.k6s ConformCodecs.k6_nul = Own FtNullable /\ NullableConforms.nulplain_msg ConformCodecs.k6_nul = true /\
  ConformCodecs.nullable_shape ConformCodecs.k6s ConformCodecs.k6_nul = true /\
  ConformCodecs.kids_plain ConformCodecs.k6s ConformCodecs.k6_nul ConformCodecs.nul_value = true /\
  encode Ex ConformCodecs.k6s (ConformCodecs.k6q "Nul") ConformCodecs.nul_value = ROk ConformCodecs.nul_json /\
  (forall fuel, need (FM ConformCodecs.nul_value) <= fuel ->
     validates P06 (cd_tcs ConformCodecs.k6doc) fuel (body_schema (ConformCodecs.k6q "Nul")) (wire_jv ConformCodecs.nul_json) = VOk true) /\
  (forall uf vf, und P06 (cd_tcs ConformCodecs.k6doc) uf vf (body_schema (ConformCodecs.k6q "Nul")) (wire_jv ConformCodecs.nul_json) = 0) /\
  ConformCodecs.k6_verdict (ConformCodecs.k6q "Nul") ConformCodecs.nul_value = ROk (ConformCodecs.nul_json, VOk true, 0%Z).
Proof. exact ConformCodecs.message_conforms_nullable_nonvacuous. Qed.
Print Assumptions C06_message_valid_nullable_nonvacuous.

Example C06_message_valid_int64_nonvacuous :
  ConformCodecs.k6_common (ConformCodecs.k6q "Nums") ConformCodecs.k6_nums ConformCodecs.nums_value /\
  owner_of ConformCodecs.k6s ConformCodecs.k6_nums = Own FtInt64 /\ buildable ConformCodecs.k6s FtInt64 ConformCodecs.k6_nums = true /\
  Int64Conforms.i64plain_msg ConformCodecs.k6_nums = true /\
  ConformCodecs.kids_plain ConformCodecs.k6s ConformCodecs.k6_nums ConformCodecs.nums_value = true /\
  encode Ex ConformCodecs.k6s (ConformCodecs.k6q "Nums") ConformCodecs.nums_value = ROk ConformCodecs.nums_json /\
  (forall fuel, need (FM ConformCodecs.nums_value) <= fuel ->
     validates P06 (cd_tcs ConformCodecs.k6doc) fuel (body_schema (ConformCodecs.k6q "Nums")) (wire_jv ConformCodecs.nums_json) = VOk true) /\
  (forall uf vf, und P06 (cd_tcs ConformCodecs.k6doc) uf vf (body_schema (ConformCodecs.k6q "Nums")) (wire_jv ConformCodecs.nums_json) = 0) /\
  ConformCodecs.k6_verdict (ConformCodecs.k6q "Nums") ConformCodecs.nums_value = ROk (ConformCodecs.nums_json, VOk true, 0%Z).
Proof. exact ConformCodecs.message_conforms_int64_nonvacuous. Qed.
Print Assumptions C06_message_valid_int64_nonvacuous.

Example C06_message_valid_bytes_nonvacuous :
  ConformCodecs.k6_common (ConformCodecs.k6q "Blob") ConformCodecs.k6_blob ConformCodecs.blob_value /\
  owner_of ConformCodecs.k6s ConformCodecs.k6_blob = Own FtBytes /\ buildable ConformCodecs.k6s FtBytes ConformCodecs.k6_blob = true /\
  BytesConforms.bytesplain_msg ConformCodecs.k6_blob = true /\
  forallb (BytesConforms.bytes_value_ok ConformCodecs.k6s ConformCodecs.k6_blob) ConformCodecs.blob_value = true /\
  encode Ex ConformCodecs.k6s (ConformCodecs.k6q "Blob") ConformCodecs.blob_value = ROk ConformCodecs.blob_json /\
  (forall fuel, need (FM ConformCodecs.blob_value) <= fuel ->
     validates P06 (cd_tcs ConformCodecs.k6doc) fuel (body_schema (ConformCodecs.k6q "Blob")) (wire_jv ConformCodecs.blob_json) = VOk true) /\
  (forall uf vf, und P06 (cd_tcs ConformCodecs.k6doc) uf vf (body_schema (ConformCodecs.k6q "Blob")) (wire_jv ConformCodecs.blob_json) = 0) /\
  ConformCodecs.k6_verdict (ConformCodecs.k6q "Blob") ConformCodecs.blob_value = ROk (ConformCodecs.blob_json, VOk true, 0%Z).
Proof. exact ConformCodecs.message_conforms_bytes_nonvacuous. Qed.
Print Assumptions C06_message_valid_bytes_nonvacuous.

Example C06_message_valid_timestamp_nonvacuous :
  ConformCodecs.k6_common (ConformCodecs.k6q "Times") ConformCodecs.k6_times ConformCodecs.times_value /\
  owner_of ConformCodecs.k6s ConformCodecs.k6_times = Own FtTs /\ buildable ConformCodecs.k6s FtTs ConformCodecs.k6_times = true /\
  forallb TimestampConforms.tsplain_field (m_fields ConformCodecs.k6_times) = true /\
  forallb (TimestampConforms.ts_entry_ok ConformCodecs.k6s ConformCodecs.k6_times) ConformCodecs.times_value = true /\
  encode Ex ConformCodecs.k6s (ConformCodecs.k6q "Times") ConformCodecs.times_value = ROk ConformCodecs.times_json /\
  (forall fuel, need (FM ConformCodecs.times_value) <= fuel ->
     validates P06 (cd_tcs ConformCodecs.k6doc) fuel (body_schema (ConformCodecs.k6q "Times")) (wire_jv ConformCodecs.times_json) = VOk true) /\
  (forall uf vf, und P06 (cd_tcs ConformCodecs.k6doc) uf vf (body_schema (ConformCodecs.k6q "Times")) (wire_jv ConformCodecs.times_json) = 0) /\
  ConformCodecs.k6_verdict (ConformCodecs.k6q "Times") ConformCodecs.times_value = ROk (ConformCodecs.times_json, VOk true, 0%Z).
Proof. exact ConformCodecs.message_conforms_ts_nonvacuous. Qed.
Print Assumptions C06_message_valid_timestamp_nonvacuous.

Example C06_message_valid_empty_nonvacuous :
  ConformCodecs.k6_common (ConformCodecs.k6q "Emp") ConformCodecs.k6_emp ConformCodecs.emp_value /\
  owner_of ConformCodecs.k6s ConformCodecs.k6_emp = Own FtEmpty /\ buildable ConformCodecs.k6s FtEmpty ConformCodecs.k6_emp = true /\
  EmptyConforms.empplain_msg ConformCodecs.k6_emp = true /\
  ConformCodecs.kids_plain ConformCodecs.k6s ConformCodecs.k6_emp ConformCodecs.emp_value = true /\
  encode Ex ConformCodecs.k6s (ConformCodecs.k6q "Emp") ConformCodecs.emp_value = ROk ConformCodecs.emp_json /\
  (forall fuel, need (FM ConformCodecs.emp_value) <= fuel ->
     validates P06 (cd_tcs ConformCodecs.k6doc) fuel (body_schema (ConformCodecs.k6q "Emp")) (wire_jv ConformCodecs.emp_json) = VOk true) /\
  (forall uf vf, need (FM ConformCodecs.emp_value) <= vf ->
     und P06 (cd_tcs ConformCodecs.k6doc) uf vf (body_schema (ConformCodecs.k6q "Emp")) (wire_jv ConformCodecs.emp_json) = 0) /\
  need (FM ConformCodecs.emp_value) = 7 /\
  ConformCodecs.k6_verdict (ConformCodecs.k6q "Emp") ConformCodecs.emp_value = ROk (ConformCodecs.emp_json, VOk true, 0%Z).
Proof. exact ConformCodecs.message_conforms_empty_nonvacuous. Qed.
Print Assumptions C06_message_valid_empty_nonvacuous.

(* Finding nullable-enum-null-not-in-enum, repaired in /repo 5062ef6.  `optional Color color = 1 [(sebuf.http.nullable) = true]`
   is accepted by the generator (ValidateNullableAnnotation refuses only non-optional and message fields) and the server
   sends "color": null for the unset field (httpgen/nullable.go:147-156).  Before that commit makeNullableSchema
   (openapiv3/types.go) appended "null" to `type` and left `enum` alone, so the emitted schema REJECTED the server's JSON
   (confirmed on the emitted document by the reference validator).  Since it the builder appends a !!null member to a
   non-empty `enum`: the property is {type: [string, null], enum: [COLOR_UNSPECIFIED, COLOR_RED, null]} under both readers,
   the null and each name validate (another string still does not), no defect is tagged, and the message is an instance
   of C06_message_valid_nullable with the field unset and with it set.  The same happens to the enum list of an enum
   with enum_value custom strings and of an enum_encoding = NUMBER field. *)
Example C06_nullable_enum_null_validates :
  let sch := typed (convert_field ConformCodecs.k6s no_side (ConformCodecs.k6q "NulEnum") ConformCodecs.k6_color_field) in
  convert_field ConformCodecs.k6s no_side (ConformCodecs.k6q "NulEnum") ConformCodecs.k6_color_field
    = YMap [(s "type", YSeq [YGoStr (s "string"); YGoStr (s "null")]);
            (s "enum", YSeq [YPlain (s "COLOR_UNSPECIFIED"); YPlain (s "COLOR_RED"); YNull])] /\
  sch = SObj [KwType [TString; TNull]; KwEnum [JVStr (s "COLOR_UNSPECIFIED"); JVStr (s "COLOR_RED"); JVNull]] /\
  schema_of_jv schema_fuel (denote reader11 (convert_field ConformCodecs.k6s no_side (ConformCodecs.k6q "NulEnum") ConformCodecs.k6_color_field)) = sch /\
  validates P06 (cd_tcs ConformCodecs.k6doc) c06_fuel sch JVNull = VOk true /\
  validates P06 (cd_tcs ConformCodecs.k6doc) c06_fuel sch (JVStr (s "COLOR_UNSPECIFIED")) = VOk true /\
  validates P06 (cd_tcs ConformCodecs.k6doc) c06_fuel sch (JVStr (s "COLOR_RED")) = VOk true /\
  validates P06 (cd_tcs ConformCodecs.k6doc) c06_fuel sch (JVStr (s "COLOR_BLUE")) = VOk false /\
  defects_C06 ConformCodecs.k6s no_side (cd_cs ConformCodecs.k6doc) (ConformCodecs.k6q "NulEnum") ConformCodecs.nulenum_unset = [] /\
  validates P06 (cd_tcs ConformCodecs.k6doc) c06_fuel (body_schema (ConformCodecs.k6q "NulEnum")) (wire_jv ConformCodecs.nulenum_unset_json) = VOk true /\
  typed (convert_field ConformCodecs.k6s no_side (ConformCodecs.k6q "NulEnum2") ConformCodecs.k6_shade_field)
    = SObj [KwType [TString; TNull]; KwEnum [JVStr (s "none"); JVStr (s "dark"); JVNull]] /\
  typed (convert_field ConformCodecs.k6s no_side (ConformCodecs.k6q "NulEnum2") ConformCodecs.k6_colornum_field)
    = SObj [KwType [TInteger; TNull]; KwEnum [JVNum (dec_of_Z 0); JVNum (dec_of_Z 1); JVNull]] /\
  ConformCodecs.k6_verdict (ConformCodecs.k6q "NulEnum2") [(s "id", vstr "x")]
    = ROk (JObj [(s "id", JStr (s "x")); (s "shade", JNull); (s "colorNum", JNull)], VOk true, 0%Z).
Proof. exact ConformCodecs.nullable_enum_null_validates. Qed.
Print Assumptions C06_nullable_enum_null_validates.

(* ... and the nullable enum message under the theorem: all hypotheses hold, unset (null on the wire) and set *)
Example C06_message_valid_nullable_enum_nonvacuous :
  owner_of ConformCodecs.k6s ConformCodecs.k6_nulenum = Own FtNullable /\ NullableConforms.nulplain_msg ConformCodecs.k6_nulenum = true /\
  ConformCodecs.nullable_shape ConformCodecs.k6s ConformCodecs.k6_nulenum = true /\
  (ConformCodecs.k6_common (ConformCodecs.k6q "NulEnum") ConformCodecs.k6_nulenum ConformCodecs.nulenum_unset /\
   ConformCodecs.kids_plain ConformCodecs.k6s ConformCodecs.k6_nulenum ConformCodecs.nulenum_unset = true /\
   encode Ex ConformCodecs.k6s (ConformCodecs.k6q "NulEnum") ConformCodecs.nulenum_unset = ROk ConformCodecs.nulenum_unset_json /\
   (forall fuel, need (FM ConformCodecs.nulenum_unset) <= fuel ->
      validates P06 (cd_tcs ConformCodecs.k6doc) fuel (body_schema (ConformCodecs.k6q "NulEnum")) (wire_jv ConformCodecs.nulenum_unset_json) = VOk true) /\
   (forall uf vf, und P06 (cd_tcs ConformCodecs.k6doc) uf vf (body_schema (ConformCodecs.k6q "NulEnum")) (wire_jv ConformCodecs.nulenum_unset_json) = 0) /\
   ConformCodecs.k6_verdict (ConformCodecs.k6q "NulEnum") ConformCodecs.nulenum_unset = ROk (ConformCodecs.nulenum_unset_json, VOk true, 0%Z)) /\
  (ConformCodecs.k6_common (ConformCodecs.k6q "NulEnum") ConformCodecs.k6_nulenum ConformCodecs.nulenum_set /\
   ConformCodecs.kids_plain ConformCodecs.k6s ConformCodecs.k6_nulenum ConformCodecs.nulenum_set = true /\
   encode Ex ConformCodecs.k6s (ConformCodecs.k6q "NulEnum") ConformCodecs.nulenum_set = ROk ConformCodecs.nulenum_set_json /\
   (forall fuel, need (FM ConformCodecs.nulenum_set) <= fuel ->
      validates P06 (cd_tcs ConformCodecs.k6doc) fuel (body_schema (ConformCodecs.k6q "NulEnum")) (wire_jv ConformCodecs.nulenum_set_json) = VOk true) /\
   (forall uf vf, und P06 (cd_tcs ConformCodecs.k6doc) uf vf (body_schema (ConformCodecs.k6q "NulEnum")) (wire_jv ConformCodecs.nulenum_set_json) = 0) /\
   ConformCodecs.k6_verdict (ConformCodecs.k6q "NulEnum") ConformCodecs.nulenum_set = ROk (ConformCodecs.nulenum_set_json, VOk true, 0%Z)).
Proof. exact ConformCodecs.message_conforms_nullable_enum_nonvacuous. Qed.
Print Assumptions C06_message_valid_nullable_enum_nonvacuous.

(* the side condition that remains on enum kinds: an enum WITHOUT values (refused by protoc and by protodesc, so no
   emitted document has one) is published as `enum: []`, which makeNullableSchema leaves empty, and null is rejected *)
Example C06_message_valid_nullable_needs_inhabited :
  let m := [(s "id", vstr "x")] in
  let j := JObj [(s "id", JStr (s "x")); (s "void", JNull)] in
  ConformCodecs.k6_common (ConformCodecs.k6q "NulVoid") ConformCodecs.k6_nulvoid m /\
  owner_of ConformCodecs.k6s ConformCodecs.k6_nulvoid = Own FtNullable /\ NullableConforms.nulplain_msg ConformCodecs.k6_nulvoid = true /\
  ConformCodecs.kids_plain ConformCodecs.k6s ConformCodecs.k6_nulvoid m = true /\
  ConformCodecs.nullable_shape ConformCodecs.k6s ConformCodecs.k6_nulvoid = false /\
  ConformCodecs.nullable_enums_inhabited ConformCodecs.k6s ConformCodecs.k6_nulvoid = false /\
  forallb (fun f => negb (is_nullable f) || (ConformCodecs.singularish f && ConformCodecs.nullable_kind (f_kind f))) (m_fields ConformCodecs.k6_nulvoid) = true /\
  encode Ex ConformCodecs.k6s (ConformCodecs.k6q "NulVoid") m = ROk j /\
  typed (convert_field ConformCodecs.k6s no_side (ConformCodecs.k6q "NulVoid") (set_nullable (fld "void" 1 (KEnum (ConformCodecs.k6q "Void")) Optional)))
    = SObj [KwType [TString; TNull]; KwEnum []] /\
  validates P06 (cd_tcs ConformCodecs.k6doc) c06_fuel (body_schema (ConformCodecs.k6q "NulVoid")) (wire_jv j) = VOk false.
Proof. exact ConformCodecs.message_conforms_nullable_needs_inhabited. Qed.
Print Assumptions C06_message_valid_nullable_needs_inhabited.

(* nullable on a message field / on a repeated field (both refused by the generator): null is rejected *)
Example C06_message_valid_nullable_needs_nonmessage :
  let m := [(s "id", vstr "x")] in
  let j := JObj [(s "id", JStr (s "x")); (s "leaf", JNull)] in
  ConformCodecs.k6_common (ConformCodecs.k6q "NulMsg") ConformCodecs.k6_nulmsg m /\
  owner_of ConformCodecs.k6s ConformCodecs.k6_nulmsg = Own FtNullable /\ NullableConforms.nulplain_msg ConformCodecs.k6_nulmsg = true /\
  ConformCodecs.kids_plain ConformCodecs.k6s ConformCodecs.k6_nulmsg m = true /\
  ConformCodecs.nullable_shape ConformCodecs.k6s ConformCodecs.k6_nulmsg = false /\
  encode Ex ConformCodecs.k6s (ConformCodecs.k6q "NulMsg") m = ROk j /\
  validates P06 (cd_tcs ConformCodecs.k6doc) c06_fuel (body_schema (ConformCodecs.k6q "NulMsg")) (wire_jv j) = VOk false.
Proof. exact ConformCodecs.message_conforms_nullable_needs_nonmessage. Qed.
Example C06_message_valid_nullable_needs_singular :
  let m := [(s "id", vstr "x")] in
  let j := JObj [(s "id", JStr (s "x")); (s "tags", JNull)] in
  ConformCodecs.k6_common (ConformCodecs.k6q "NulRep") ConformCodecs.k6_nulrep m /\
  owner_of ConformCodecs.k6s ConformCodecs.k6_nulrep = Own FtNullable /\ NullableConforms.nulplain_msg ConformCodecs.k6_nulrep = true /\
  ConformCodecs.kids_plain ConformCodecs.k6s ConformCodecs.k6_nulrep m = true /\
  ConformCodecs.nullable_shape ConformCodecs.k6s ConformCodecs.k6_nulrep = false /\
  encode Ex ConformCodecs.k6s (ConformCodecs.k6q "NulRep") m = ROk j /\
  validates P06 (cd_tcs ConformCodecs.k6doc) c06_fuel (body_schema (ConformCodecs.k6q "NulRep")) (wire_jv j) = VOk false.
Proof. exact ConformCodecs.message_conforms_nullable_needs_singular. Qed.
Print Assumptions C06_message_valid_nullable_needs_singular.

(* empty_behavior = NULL: with validation fuel 2 the walk does not enter oneOf [T, null] and reports the key of the
   non-empty child; from fuel 3 on (need = 7 is the bound the theorem gives) nothing is undescribed *)
Example C06_message_valid_empty_needs_fuel :
  und P06 (cd_tcs ConformCodecs.k6doc) und_fuel 2 (body_schema (ConformCodecs.k6q "Emp")) (wire_jv ConformCodecs.emp_json) = 1 /\
  und P06 (cd_tcs ConformCodecs.k6doc) und_fuel 3 (body_schema (ConformCodecs.k6q "Emp")) (wire_jv ConformCodecs.emp_json) = 0 /\
  existsb ConformCodecs.empty_null (m_fields ConformCodecs.k6_emp) = true.
Proof. exact ConformCodecs.message_conforms_empty_needs_fuel. Qed.
Print Assumptions C06_message_valid_empty_needs_fuel.
