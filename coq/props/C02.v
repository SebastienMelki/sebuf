(* C02 — A request field bound to a path variable or a query parameter arrives at the handler with the
   URL's value, whatever the body says of that field (since 18bf367 the body is bound first and the URL
   values on top of it), for every verb; a URL value that cannot be converted, or a missing required query parameter, yields HTTP 400 naming that field and the
   handler is not invoked.
   Statements and Print Assumptions; the proofs are in proofs/GoRtRawFacts.v (a two-line one stands here);
   examples checked by computation. *)
From Sebuf Require Import Text Json Route Schema Value Num Url GoRt GoRtRaw.
From SebufProofs Require Import GoRtFacts GoRtRawFacts.

(* [raw_start r rq]: the decoded body of a POST/PUT/PATCH (the empty message when there is none or the
   verb carries none).  What the handler sees is that message with the path values, then the query
   values, bound on top of it. *)
Theorem C02_url_wins : forall rs rq n saw c p r b,
  raw_handle rs rq = Ok (RDispatched n saw) ->
  rq_path rq = c :: p ->
  find_route rs (rq_verb rq) (split_on slash p) = Some (r, b) ->
  n = md_name (sr_md r) /\
  exists m0 m1,
    raw_start r rq = inl m0 /\
    bind_path (sr_fields r) (rt_pathvars (sr_route r)) b m0 = inl m1 /\
    bind_query_raw (sr_fields r) (query_fields (sr_fields r)) (parse_query (rq_query rq)) m1 = inl saw.
Proof. exact url_wins. Qed.
Print Assumptions C02_url_wins.

Theorem C02_start_is_body : forall r rq m0, raw_start r rq = inl m0 ->
  m0 = (if rt_body (sr_route r) then match rq_body rq with Some (_, v) => v | None => [] end else []).
Proof. exact raw_start_inl. Qed.
Print Assumptions C02_start_is_body.

(* (a) path variables: the converted text of the matched segment; other keys untouched *)
Theorem C02_path_values : forall fs b vars m m1, bind_path fs vars b m = inl m1 ->
  (forall k, ~ In k vars -> mget m1 k = mget m k) /\
  (forall v f, In v vars -> find_field fs v = Some f ->
     exists x, binding_of b v <> [] /\ convert (f_kind f) (binding_of b v) = Some x /\
               scalar_of m1 f = x).
Proof. exact bind_path_vals. Qed.
Print Assumptions C02_path_values.

(* (a) continued: query binding leaves fields with other names alone *)
Theorem C02_query_keeps : forall fs q qfs m m2 g,
  NoDup (map f_name qfs) -> bind_query_raw fs qfs q m = inl m2 ->
  ~ In (f_name g) (map f_name qfs) -> scalar_of m2 g = scalar_of m g.
Proof. exact bind_query_raw_keeps. Qed.
Print Assumptions C02_query_keeps.

(* (b) singular query fields: the converted first occurrence *)
Theorem C02_query_singular : forall fs q qfs m m2 f x xs,
  NoDup (map f_name qfs) -> bind_query_raw fs qfs q m = inl m2 ->
  In f qfs -> is_repeated f = false -> query_values q (qname f) = x :: xs ->
  exists v, convert (f_kind f) x = Some v /\ scalar_of m2 f = v.
Proof. exact bind_query_raw_singular. Qed.
Print Assumptions C02_query_singular.

(* (c) repeated query fields: every occurrence, converted, in order *)
Theorem C02_query_repeated : forall fs q qfs m m2 f x xs,
  NoDup (map f_name qfs) -> bind_query_raw fs qfs q m = inl m2 ->
  In f qfs -> is_repeated f = true -> query_values q (qname f) = x :: xs ->
  exists l, convert_all (f_kind f) (x :: xs) = Some l /\ mget m2 (f_name f) = Some (FL l) /\
            Forall2 (fun y e => exists v, convert (f_kind f) y = Some v /\ e = FS v) (x :: xs) l.
Proof. exact bind_query_raw_repeated. Qed.
Print Assumptions C02_query_repeated.

(* (a)-(c) and absent optional parameters in one statement *)
Theorem C02_query_values : forall fs q qfs m m2,
  NoDup (map f_name qfs) -> bind_query_raw fs qfs q m = inl m2 ->
  (forall k, ~ In k (map f_name qfs) -> mget m2 k = mget m k) /\
  (forall f, In f qfs -> query_gives q m m2 f).
Proof. exact bind_query_raw_vals. Qed.
Print Assumptions C02_query_values.

(* end to end: what the handler sees, with no premise on the body *)
Theorem C02_handler_sees_path_value : forall rs rq n saw c p r b v f,
  raw_handle rs rq = Ok (RDispatched n saw) ->
  rq_path rq = c :: p ->
  find_route rs (rq_verb rq) (split_on slash p) = Some (r, b) ->
  NoDup (map f_name (query_fields (sr_fields r))) ->
  In v (rt_pathvars (sr_route r)) -> find_field (sr_fields r) v = Some f ->
  ~ In v (map f_name (query_fields (sr_fields r))) ->
  exists x, convert (f_kind f) (binding_of b v) = Some x /\ scalar_of saw f = x.
Proof. exact handler_sees_path_value. Qed.
Print Assumptions C02_handler_sees_path_value.

Theorem C02_handler_sees_query_value : forall rs rq n saw c p r b f x xs,
  raw_handle rs rq = Ok (RDispatched n saw) ->
  rq_path rq = c :: p ->
  find_route rs (rq_verb rq) (split_on slash p) = Some (r, b) ->
  NoDup (map f_name (query_fields (sr_fields r))) ->
  In f (query_fields (sr_fields r)) -> is_repeated f = false ->
  query_values (parse_query (rq_query rq)) (qname f) = x :: xs ->
  exists y, convert (f_kind f) x = Some y /\ scalar_of saw f = y.
Proof. exact handler_sees_query_value. Qed.
Print Assumptions C02_handler_sees_query_value.

Theorem C02_handler_sees_query_list : forall rs rq n saw c p r b f x xs,
  raw_handle rs rq = Ok (RDispatched n saw) ->
  rq_path rq = c :: p ->
  find_route rs (rq_verb rq) (split_on slash p) = Some (r, b) ->
  NoDup (map f_name (query_fields (sr_fields r))) ->
  In f (query_fields (sr_fields r)) -> is_repeated f = true ->
  query_values (parse_query (rq_query rq)) (qname f) = x :: xs ->
  exists l, convert_all (f_kind f) (x :: xs) = Some l /\ mget saw (f_name f) = Some (FL l).
Proof. exact handler_sees_query_list. Qed.
Print Assumptions C02_handler_sees_query_list.

(* what the URL does not bind comes from the body *)
Theorem C02_handler_sees_body_elsewhere : forall rs rq n saw c p r b,
  raw_handle rs rq = Ok (RDispatched n saw) ->
  rq_path rq = c :: p ->
  find_route rs (rq_verb rq) (split_on slash p) = Some (r, b) ->
  NoDup (map f_name (query_fields (sr_fields r))) ->
  exists m0, raw_start r rq = inl m0 /\
    (forall k, ~ In k (rt_pathvars (sr_route r)) -> ~ In k (map f_name (query_fields (sr_fields r))) ->
       mget saw k = mget m0 k) /\
    (forall f, In f (query_fields (sr_fields r)) -> ~ In (f_name f) (rt_pathvars (sr_route r)) ->
       query_values (parse_query (rq_query rq)) (qname f) = [] -> mget saw (f_name f) = mget m0 (f_name f)).
Proof. exact handler_sees_body_elsewhere. Qed.
Print Assumptions C02_handler_sees_body_elsewhere.

(* why a path binding fails: the named variable's text is empty or does not convert *)
Theorem C02_reject_path_reason : forall fs b vars m v, bind_path fs vars b m = inr v ->
  In v vars /\ exists f, find_field fs v = Some f /\
    (binding_of b v = [] \/ convert (f_kind f) (binding_of b v) = None).
Proof. exact bind_path_reject. Qed.
Print Assumptions C02_reject_path_reason.

(* why a query binding fails: [query_fails q f] = required and absent, or some occurrence that is used
   does not convert *)
Theorem C02_reject_query_reason : forall fs q qfs m n, bind_query_raw fs qfs q m = inr n ->
  exists f, In f qfs /\ f_name f = n /\ query_fails q f.
Proof. exact bind_query_raw_reject. Qed.
Print Assumptions C02_reject_query_reason.

(* in both cases the answer is 400 naming the field; the handler is not invoked *)
Theorem C02_reject_path : forall rs rq p r b m0 f, routed rs rq p r b ->
  raw_start r rq = inl m0 ->
  bind_path (sr_fields r) (rt_pathvars (sr_route r)) b m0 = inr f ->
  raw_handle rs rq = Ok (RRejected f).
Proof. intros rs rq p r b m0 f Hr H0 H. now rewrite (raw_handle_routed rs rq p r b Hr), H0, H. Qed.
Print Assumptions C02_reject_path.

Theorem C02_reject_query : forall rs rq p r b m0 m1 f, routed rs rq p r b ->
  raw_start r rq = inl m0 ->
  bind_path (sr_fields r) (rt_pathvars (sr_route r)) b m0 = inl m1 ->
  bind_query_raw (sr_fields r) (query_fields (sr_fields r)) (parse_query (rq_query rq)) m1 = inr f ->
  raw_handle rs rq = Ok (RRejected f).
Proof. intros rs rq p r b m0 m1 f Hr H0 H1 H2. now rewrite (raw_handle_routed rs rq p r b Hr), H0, H1, H2. Qed.
Print Assumptions C02_reject_query.

(* a body the server cannot read is reported before any URL violation, as field "body" *)
Theorem C02_reject_body : forall rs rq p r b f, routed rs rq p r b ->
  raw_start r rq = inr f -> raw_handle rs rq = Ok (RRejected f) /\ f = s "body".
Proof.
  intros rs rq p r b f Hr H. rewrite (raw_handle_routed rs rq p r b Hr), H. split; [reflexivity|].
  now apply body_start_inr in H as [H _].
Qed.
Print Assumptions C02_reject_body.

(* conversely: when every path variable converts and every query field is absent-and-optional or
   converts, the request is dispatched, or rejected for its body *)
Theorem C02_url_ok_dispatches : forall rs rq p r b, routed rs rq p r b ->
  url_converts r b (parse_query (rq_query rq)) ->
  (exists saw, raw_handle rs rq = Ok (RDispatched (md_name (sr_md r)) saw)) \/
  raw_handle rs rq = Ok (RRejected (s "body")).
Proof. exact raw_handle_url_ok. Qed.
Print Assumptions C02_url_ok_dispatches.

(* every rejection has one of the three reasons; the body is judged first *)
Theorem C02_rejected_inv : forall rs rq n, raw_handle rs rq = Ok (RRejected n) ->
  exists p r b, routed rs rq p r b /\
    ((n = s "body" /\ rt_body (sr_route r) = true /\
      exists f v, rq_body rq = Some (f, v) /\ bfmt_eqb f (server_fmt (rq_ct rq)) = false) \/
     (exists m0, raw_start r rq = inl m0 /\
        ((In n (rt_pathvars (sr_route r)) /\ exists f, find_field (sr_fields r) n = Some f /\
            (binding_of b n = [] \/ convert (f_kind f) (binding_of b n) = None)) \/
         (exists f, In f (query_fields (sr_fields r)) /\ f_name f = n /\
            query_fails (parse_query (rq_query rq)) f)))).
Proof. exact raw_handle_rejected_inv. Qed.
Print Assumptions C02_rejected_inv.

(* strconv.Parse* and ParseBool over all strings *)

Theorem C02_parse_int_range : forall bits x z, parse_int bits x = Some z ->
  (- 2 ^ Z.of_N (bits - 1) <= z < 2 ^ Z.of_N (bits - 1))%Z.
Proof. exact parse_int_range. Qed.
Print Assumptions C02_parse_int_range.

Theorem C02_parse_uint_range : forall bits x z, parse_uint bits x = Some z ->
  (0 <= z < 2 ^ Z.of_N bits)%Z.
Proof. exact parse_uint_range. Qed.
Print Assumptions C02_parse_uint_range.

(* [int_body x] is x without its optional leading sign *)
Theorem C02_parse_int_syntax : forall bits x z, parse_int bits x = Some z ->
  int_body x <> [] /\ forallb is_digit (int_body x) = true.
Proof.
  intros bits x z. rewrite parse_int_unfold. destruct (parse_nat (int_body x)) as [n|] eqn:E; [|discriminate].
  intros _. now apply parse_nat_some in E.
Qed.
Print Assumptions C02_parse_int_syntax.

Theorem C02_parse_uint_syntax : forall bits x z, parse_uint bits x = Some z ->
  x <> [] /\ forallb is_digit x = true.
Proof.
  intros bits x z. unfold parse_uint. destruct (parse_nat x) as [n|] eqn:E; [|discriminate].
  intros _. now apply parse_nat_some in E.
Qed.
Print Assumptions C02_parse_uint_syntax.

Theorem C02_parse_int_empty : forall bits, parse_int bits [] = None.
Proof. reflexivity. Qed.
Print Assumptions C02_parse_int_empty.

Theorem C02_parse_uint_empty : forall bits, parse_uint bits [] = None.
Proof. reflexivity. Qed.
Print Assumptions C02_parse_uint_empty.

Theorem C02_parse_int_sign_only : forall bits x, int_body x = [] -> parse_int bits x = None.
Proof. intros bits x H. rewrite parse_int_unfold, H. reflexivity. Qed.
Print Assumptions C02_parse_int_sign_only.

Theorem C02_parse_int_nondigit : forall bits x,
  forallb is_digit (int_body x) = false -> parse_int bits x = None.
Proof. intros bits x H. rewrite parse_int_unfold, (parse_nat_nondigit _ H). reflexivity. Qed.
Print Assumptions C02_parse_int_nondigit.

Theorem C02_parse_uint_nondigit : forall bits x, forallb is_digit x = false -> parse_uint bits x = None.
Proof. intros bits x H. unfold parse_uint. now rewrite (parse_nat_nondigit _ H). Qed.
Print Assumptions C02_parse_uint_nondigit.

Theorem C02_parse_bool_spelling : forall x b, parse_bool x = Some b ->
  In x (if b then bool_true_spellings else bool_false_spellings).
Proof. exact parse_bool_spelling. Qed.
Print Assumptions C02_parse_bool_spelling.

(* whatever the server accepts is a value of the field's type *)
Theorem C02_convert_typed : forall k x v, convert k x = Some v ->
  typed_scalar k v /\ url_kind_ok k = true.
Proof. exact convert_typed. Qed.
Print Assumptions C02_convert_typed.

Theorem C02_convert_all_none : forall k xs, convert_all k xs = None ->
  exists x, In x xs /\ convert k x = None.
Proof. exact convert_all_none. Qed.
Print Assumptions C02_convert_all_none.

Definition mkf (n : str) (num : Z) (k : kind) (c : card) (q : option query_cfg) : field :=
  {| f_name := n; f_number := num; f_kind := k; f_card := c; f_oneof := None; f_query := q;
     f_unwrap := false; f_int64 := None; f_enumenc := None; f_nullable := None; f_empty := None;
     f_tsfmt := None; f_bytesenc := None; f_oneof_value := None; f_flatten := None;
     f_flatten_prefix := None |}.
Definition mkmsg (n : str) (fs : list field) : message :=
  {| m_name := n; m_path := [n]; m_fields := fs; m_oneofs := [] |}.
Definition mkmd (n inp path : str) (v : nat) : method :=
  {| md_name := n; md_in := inp; md_out := s "Resp"; md_has_cfg := true; md_path := path;
     md_verb := Some v; md_headers := [] |}.

(* PUT /items/{id}?page=  (body: note)     GET /items/{id}?tag=&tag=&q=&limit= *)
Definition put_md := mkmd (s "PutItem") (s "PutReq") (s "/items/{id}") 3.
Definition get_md := mkmd (s "GetItem") (s "GetReq") (s "/items/{id}") 1.
Definition put_msg := mkmsg (s "PutReq")
  [mkf (s "id") 1 KString Singular None;
   mkf (s "page") 2 KInt32 Singular (Some {| q_name := s "page"; q_required := false |});
   mkf (s "note") 3 KString Singular None].
Definition get_msg := mkmsg (s "GetReq")
  [mkf (s "id") 1 KString Singular None;
   mkf (s "tags") 2 KString Repeated (Some {| q_name := s "tag"; q_required := false |});
   mkf (s "q") 3 KString Singular (Some {| q_name := s "q"; q_required := true |});
   mkf (s "limit") 4 KUint32 Singular (Some {| q_name := s "limit"; q_required := false |})].
Definition sv1 : service :=
  {| sv_name := s "Items"; sv_base := []; sv_headers := []; sv_methods := [put_md; get_md] |}.
Definition fl1 : file :=
  {| fl_path := s "a.proto"; fl_package := s "pkg"; fl_gopkg := s "pkg"; fl_generate := true;
     fl_messages := [put_msg; get_msg]; fl_enums := []; fl_services := [sv1] |}.
Definition item_pat : list seg := [SLit (s "items"); SVar (s "id")].
Definition put_route : sroute := sroute_of [fl1] fl1 sv1 put_md item_pat.
Definition get_route : sroute := sroute_of [fl1] fl1 sv1 get_md item_pat.
Definition rs1 : list sroute := [put_route; get_route].

Example C02_routes_are_the_generated_ones : server_routes [fl1] fl1 sv1 = Ok (Some rs1).
Proof. vm_compute. reflexivity. Qed.

(* PUT /items/xyz?page=9 with body {} (since 18bf367): the body is bound first, the URL values on top *)
Definition rq_put : raw_req :=
  {| rq_verb := PUT; rq_path := s "/items/xyz"; rq_query := s "page=9"; rq_ct := CtJSON;
     rq_body := Some (BJson, []) |}.
Definition put_m1 : mval := [(s "id", FS (VStr (s "xyz")))].
Definition put_m2 : mval := [(s "id", FS (VStr (s "xyz"))); (s "page", FS (VInt 9))].

Example C02_body_does_not_reset_url_fields :
  defects_C02 rs1 rq_put = [] /\
  find_route rs1 PUT (split_on slash (s "items/xyz")) = Some (put_route, [(s "id", s "xyz")]) /\
  raw_start put_route rq_put = inl [] /\
  bind_path (sr_fields put_route) (rt_pathvars (sr_route put_route)) [(s "id", s "xyz")] [] = inl put_m1 /\
  bind_query_raw (sr_fields put_route) (query_fields (sr_fields put_route))
     (parse_query (rq_query rq_put)) put_m1 = inl put_m2 /\
  raw_handle rs1 rq_put = Ok (RDispatched (s "PutItem") put_m2).
Proof. vm_compute. repeat split; reflexivity. Qed.

(* a body that mentions the URL-bound fields with other values, and a body-only field: the URL wins on
   id and page, note comes from the body *)
Definition rq_put_conflict : raw_req :=
  {| rq_verb := PUT; rq_path := s "/items/xyz"; rq_query := s "page=9"; rq_ct := CtJSON;
     rq_body := Some (BJson, [(s "id", FS (VStr (s "other"))); (s "page", FS (VInt 1));
                              (s "note", FS (VStr (s "n")))]) |}.
Example C02_url_overrides_body :
  raw_handle rs1 rq_put_conflict
    = Ok (RDispatched (s "PutItem")
            [(s "id", FS (VStr (s "xyz"))); (s "page", FS (VInt 9)); (s "note", FS (VStr (s "n")))]).
Proof. vm_compute. reflexivity. Qed.

(* a body in a format the server does not read for that content type is reported first, even when the
   URL is bad too *)
Definition rq_put_badbody : raw_req :=
  {| rq_verb := PUT; rq_path := s "/items/xyz"; rq_query := s "page=abc"; rq_ct := CtJSON;
     rq_body := Some (BBin, [(s "note", FS (VStr (s "n")))]) |}.
Example C02_body_rejected_first :
  raw_handle rs1 rq_put_badbody = Ok (RRejected (s "body")).
Proof. vm_compute. reflexivity. Qed.

(* the same request without a body *)
Definition rq_put_nobody : raw_req :=
  {| rq_verb := PUT; rq_path := s "/items/xyz"; rq_query := s "page=9"; rq_ct := CtJSON; rq_body := None |}.
Example C02_put_without_body :
  raw_handle rs1 rq_put_nobody = Ok (RDispatched (s "PutItem") put_m2).
Proof. vm_compute. reflexivity. Qed.

(* non-vacuity of C02_url_wins: GET with an escaped path value, a repeated parameter given twice, and the
   required parameter present *)
Definition rq_get : raw_req :=
  {| rq_verb := GET; rq_path := s "/items/a%2Fb"; rq_query := s "tag=x&q=hello+world&tag=y%26z";
     rq_ct := CtJSON; rq_body := None |}.
Definition get_b : list (str * str) := [(s "id", s "a/b")].
Definition get_m1 : mval := [(s "id", FS (VStr (s "a/b")))].
Definition get_m2 : mval :=
  [(s "id", FS (VStr (s "a/b"))); (s "tags", FL [FS (VStr (s "x")); FS (VStr (s "y&z"))]);
   (s "q", FS (VStr (s "hello world")))].

Example C02_url_wins_nonvacuous :
  raw_handle rs1 rq_get = Ok (RDispatched (s "GetItem") get_m2) /\
  rq_path rq_get = slash :: s "items/a%2Fb" /\
  find_route rs1 (rq_verb rq_get) (split_on slash (s "items/a%2Fb")) = Some (get_route, get_b) /\
  raw_start get_route rq_get = inl [] /\
  bind_path (sr_fields get_route) (rt_pathvars (sr_route get_route)) get_b [] = inl get_m1 /\
  bind_query_raw (sr_fields get_route) (query_fields (sr_fields get_route))
     (parse_query (rq_query rq_get)) get_m1 = inl get_m2.
Proof. vm_compute. repeat split; reflexivity. Qed.

(* rejections: a value that does not convert, and a missing required parameter *)
Definition rq_bad : raw_req :=
  {| rq_verb := GET; rq_path := s "/items/a"; rq_query := s "q=1&limit=-3"; rq_ct := CtJSON; rq_body := None |}.
Definition rq_missing : raw_req :=
  {| rq_verb := GET; rq_path := s "/items/a"; rq_query := s "limit=3"; rq_ct := CtJSON; rq_body := None |}.
Example C02_rejections :
  raw_handle rs1 rq_bad = Ok (RRejected (s "limit")) /\ raw_handle rs1 rq_missing = Ok (RRejected (s "q")).
Proof. vm_compute. split; reflexivity. Qed.

(* Request messages sharing a short name.
   Users.ListRequest and Posts.ListRequest are different messages with different URL configurations; the
   server's tables are per message (the model looks the input type up by its full name), so each RPC binds and
   demands its OWN query parameters. *)
Definition nested_msg (parent : str) (fs : list field) : message :=
  {| m_name := parent ++ s ".ListRequest"; m_path := [parent; s "ListRequest"]; m_fields := fs; m_oneofs := [] |}.
Definition users_list := nested_msg (s "Users")
  [mkf (s "tenant") 1 KString Singular None;
   mkf (s "page") 2 KInt32 Singular (Some {| q_name := s "page"; q_required := true |})].
Definition posts_list := nested_msg (s "Posts")
  [mkf (s "tenant") 1 KString Singular None;
   mkf (s "author") 2 KString Singular (Some {| q_name := s "author"; q_required := false |});
   mkf (s "limit") 3 KUint32 Singular (Some {| q_name := s "limit"; q_required := true |});
   mkf (s "page") 4 KString Singular (Some {| q_name := s "p"; q_required := false |})].
Definition list_users_md := mkmd (s "ListUsers") (s "Users.ListRequest") (s "/t/{tenant}/users") 1.
Definition list_posts_md := mkmd (s "ListPosts") (s "Posts.ListRequest") (s "/t/{tenant}/posts") 1.
Definition sv_same : service :=
  {| sv_name := s "Dir"; sv_base := []; sv_headers := []; sv_methods := [list_users_md; list_posts_md] |}.
Definition fl_same : file :=
  {| fl_path := s "a.proto"; fl_package := []; fl_gopkg := s "pkg"; fl_generate := true;
     fl_messages := [users_list; posts_list]; fl_enums := []; fl_services := [sv_same] |}.
Definition rs_same : list sroute :=
  match server_routes [fl_same] fl_same sv_same with Ok (Some rs) => rs | _ => [] end.
Definition rq_same (p q : str) : raw_req :=
  {| rq_verb := GET; rq_path := p; rq_query := q; rq_ct := CtJSON; rq_body := None |}.

Example C02_same_short_name_messages :
  List.length rs_same = 2%nat /\
  (* the later message's own parameters are bound ... *)
  raw_handle rs_same (rq_same (s "/t/acme/posts") (s "author=ann&limit=5&p=x&page=7"))
    = Ok (RDispatched (s "ListPosts")
            [(s "tenant", FS (VStr (s "acme"))); (s "author", FS (VStr (s "ann")));
             (s "limit", FS (VInt 5)); (s "page", FS (VStr (s "x")))]) /\
  (* ... and demanded / converted by its own kinds, not the earlier message's *)
  raw_handle rs_same (rq_same (s "/t/acme/posts") (s "author=ann&page=3")) = Ok (RRejected (s "limit")) /\
  raw_handle rs_same (rq_same (s "/t/acme/posts") (s "limit=abc")) = Ok (RRejected (s "limit")) /\
  raw_handle rs_same (rq_same (s "/t/acme/users") (s "page=abc&limit=1")) = Ok (RRejected (s "page")) /\
  raw_handle rs_same (rq_same (s "/t/acme/users") (s "page=3&author=ann"))
    = Ok (RDispatched (s "ListUsers") [(s "tenant", FS (VStr (s "acme"))); (s "page", FS (VInt 3))]).
Proof. vm_compute. repeat split; reflexivity. Qed.
