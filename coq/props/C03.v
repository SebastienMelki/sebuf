(* C03 — All five generators agree on each RPC's verb, path and parameter placement.
   Statements and Print Assumptions; the proofs are in proofs/RouteFacts.v. *)
From Sebuf Require Import Text Route.
From SebufProofs Require Import RouteFacts.

(* For every RPC outside the four known defect classes, the five route functions coincide. *)
Theorem C03_agree : forall r : rpc_info, defects_C03 r = [] ->
  go_server r = go_client r /\ go_client r = ts_client r /\
  ts_client r = ts_server r /\ ts_server r = openapi r.
Proof. exact agree_all. Qed.
Print Assumptions C03_agree.

(* When the RPCs of a service have pairwise distinct (path, verb), each is exactly one operation. *)
Theorem C03_one_operation : forall rs : list rpc_info,
  NoDup (keys_of rs) -> NoDup (map ri_method rs) ->
  forall r, In r rs -> count_ops_for (ri_method r) (openapi_ops rs) = 1.
Proof. exact one_operation. Qed.
Print Assumptions C03_one_operation.

(* Non-vacuity: an RPC with base path, path variables and a GET query satisfies the hypotheses. *)
Definition ex_rpc : rpc_info :=
  {| ri_service := s "Users"; ri_gopkg := s "users"; ri_base := s "/api/v1/"; ri_method := s "GetUserByID";
     ri_has_cfg := true; ri_path := s "users/{user_id}/posts/{post_id}"; ri_verb := Some GET;
     ri_query := [s "page"; s "limit"] |}.
Example C03_nonvacuous :
  defects_C03 ex_rpc = [] /\ rt_path (go_server ex_rpc) = s "/api/v1/users/{user_id}/posts/{post_id}"
  /\ rt_pathvars (openapi ex_rpc) = [s "user_id"; s "post_id"].
Proof. vm_compute. repeat split; reflexivity. Qed.

(* Refutations: each defect class has a concrete RPC on which the generators disagree. *)
Definition ex_default : rpc_info :=
  {| ri_service := s "Users"; ri_gopkg := s "userspb"; ri_base := []; ri_method := s "CreateUser";
     ri_has_cfg := false; ri_path := []; ri_verb := None; ri_query := [] |}.
Theorem C03_refuted_default_path :
  defects_C03 ex_default = [DefaultPath] /\
  rt_path (go_server ex_default) = s "/userspb/create_user" /\
  rt_path (go_client ex_default) = s "/createUser" /\
  rt_path (openapi ex_default) = s "/Users/CreateUser".
Proof. vm_compute. repeat split; reflexivity. Qed.

Definition ex_base_noslash : rpc_info :=
  {| ri_service := s "S"; ri_gopkg := s "p"; ri_base := s "api"; ri_method := s "Get";
     ri_has_cfg := true; ri_path := s "/x"; ri_verb := Some GET; ri_query := [] |}.
Theorem C03_refuted_base_no_leading_slash :
  defects_C03 ex_base_noslash = [BaseNoLeadingSlash] /\
  rt_path (go_server ex_base_noslash) = s "api/x" /\ rt_path (go_client ex_base_noslash) = s "/api/x".
Proof. vm_compute. repeat split; reflexivity. Qed.

Definition ex_path_noslash : rpc_info :=
  {| ri_service := s "S"; ri_gopkg := s "p"; ri_base := []; ri_method := s "Get";
     ri_has_cfg := true; ri_path := s "x/{id}"; ri_verb := Some GET; ri_query := [] |}.
Theorem C03_refuted_path_no_leading_slash :
  defects_C03 ex_path_noslash = [PathNoLeadingSlashNoBase] /\
  rt_path (go_server ex_path_noslash) = s "x/{id}" /\ rt_path (ts_server ex_path_noslash) = s "/x/{id}".
Proof. vm_compute. repeat split; reflexivity. Qed.

Definition ex_query_body : rpc_info :=
  {| ri_service := s "S"; ri_gopkg := s "p"; ri_base := []; ri_method := s "Put";
     ri_has_cfg := true; ri_path := s "/x/{id}"; ri_verb := Some PUT; ri_query := [s "page"] |}.
Theorem C03_refuted_query_on_body_verb :
  defects_C03 ex_query_body = [QueryOnBodyVerb] /\
  rt_query (go_server ex_query_body) = [s "page"] /\ rt_query (go_client ex_query_body) = [] /\
  rt_query (openapi ex_query_body) = [s "page"].
Proof. vm_compute. repeat split; reflexivity. Qed.

(* Two RPCs sharing (path, verb): the OpenAPI document keeps only the later one. *)
Theorem C03_refuted_shared_route : forall r1 r2,
  route_key (openapi r1) = route_key (openapi r2) -> ri_method r1 <> ri_method r2 ->
  count_ops_for (ri_method r1) (openapi_ops [r1; r2]) = 0.
Proof. exact shared_key_loses_one. Qed.
Print Assumptions C03_refuted_shared_route.

(* Template family: RPCs of one service on the same path hierarchy whose variables are named
   differently (the variable has to be spelled like the request field: GetItemReq.id vs
   DeleteItemReq.item_id).  None of them is in a defect class, every generator keeps the RPC's own
   template and path fields, and the OpenAPI document holds one operation per RPC, each under the
   template of its own RPC (a path item is shared only by RPCs whose templates are spelled alike). *)
Definition ex_family : list rpc_info :=
  [ {| ri_service := s "Items"; ri_gopkg := s "items"; ri_base := s "/api/v1"; ri_method := s "GetItem";
       ri_has_cfg := true; ri_path := s "/items/{id}"; ri_verb := Some GET; ri_query := [] |};
    {| ri_service := s "Items"; ri_gopkg := s "items"; ri_base := s "/api/v1"; ri_method := s "DeleteItem";
       ri_has_cfg := true; ri_path := s "/items/{item_id}"; ri_verb := Some DELETE; ri_query := [] |};
    {| ri_service := s "Items"; ri_gopkg := s "items"; ri_base := s "/api/v1"; ri_method := s "PutItem";
       ri_has_cfg := true; ri_path := s "/items/{id}"; ri_verb := Some PUT; ri_query := [] |} ].
Example C03_template_family :
  forallb (fun r => match defects_C03 r with [] => true | _ => false end) ex_family = true /\
  map (fun r => rt_path (openapi r)) ex_family =
    [s "/api/v1/items/{id}"; s "/api/v1/items/{item_id}"; s "/api/v1/items/{id}"] /\
  map (fun r => rt_pathvars (openapi r)) ex_family = [[s "id"]; [s "item_id"]; [s "id"]] /\
  map (fun r => rt_pathvars (go_server r)) ex_family = [[s "id"]; [s "item_id"]; [s "id"]] /\
  map (fun r => count_ops_for (ri_method r) (openapi_ops ex_family)) ex_family = [1; 1; 1]%nat /\
  map (fun e => fst (fst e)) (openapi_ops ex_family) =
    [s "/api/v1/items/{id}"; s "/api/v1/items/{item_id}"; s "/api/v1/items/{id}"].
Proof. vm_compute. repeat split; reflexivity. Qed.

(* Body shapes: what is left for the body once the URL has taken its fields does not matter — an RPC on
   POST/PUT/PATCH (or on the defaulted verb) is body-carrying for all five generators even when its
   request message is empty or fully path-bound ("action" endpoints such as POST /notes/{id}/archive),
   and GET/DELETE never are. *)
Theorem C03_body_by_verb : forall r : rpc_info,
  rt_body (go_server r) = verb_has_body (eff_verb r) /\
  rt_body (go_client r) = verb_has_body (eff_verb r) /\
  rt_body (ts_client r) = verb_has_body (eff_verb r) /\
  rt_body (ts_server r) = verb_has_body (eff_verb r) /\
  rt_body (openapi r) = verb_has_body (eff_verb r).
Proof. intro r. repeat split; reflexivity. Qed.
Print Assumptions C03_body_by_verb.

Theorem C03_body_same_verb : forall r1 r2 : rpc_info, eff_verb r1 = eff_verb r2 ->
  rt_body (go_client r1) = rt_body (go_server r2) /\ rt_body (go_client r1) = rt_body (openapi r2) /\
  rt_body (go_client r1) = rt_body (ts_server r2) /\ rt_body (go_client r1) = rt_body (ts_client r2).
Proof.
  intros r1 r2 H. cbn [rt_body go_client ts_client ts_server client_route go_server openapi]. now rewrite H.
Qed.
Print Assumptions C03_body_same_verb.

Definition mk_note (m p : str) (v : option verb) (q : list str) : rpc_info :=
  {| ri_service := s "NoteService"; ri_gopkg := s "notes"; ri_base := s "/api/v1"; ri_method := m;
     ri_has_cfg := true; ri_path := p; ri_verb := v; ri_query := q |}.
(* ArchiveNote{id}, TagNote{id,tag}, PurgeTrash{} (verb defaulted), PatchNote{id} ; controls GetNote{id}, DropNote{id} *)
Definition ex_body_shapes : list rpc_info :=
  [ mk_note (s "ArchiveNote") (s "/notes/{id}/archive") (Some POST) [];
    mk_note (s "TagNote") (s "/notes/{id}/tags/{tag}") (Some PUT) [];
    mk_note (s "PurgeTrash") (s "/trash/purge") None [];
    mk_note (s "PatchNote") (s "/notes/{id}") (Some PATCH) [];
    mk_note (s "GetNote") (s "/notes/{id}") (Some GET) [];
    mk_note (s "DropNote") (s "/notes/{id}") (Some DELETE) [] ].
Example C03_body_shape_family :
  forallb (fun r => match defects_C03 r with [] => true | _ => false end) ex_body_shapes = true /\
  map (fun r => rt_body (go_client r)) ex_body_shapes = [true; true; true; true; false; false] /\
  map (fun r => rt_body (go_server r)) ex_body_shapes = [true; true; true; true; false; false] /\
  map (fun r => rt_body (ts_client r)) ex_body_shapes = [true; true; true; true; false; false] /\
  map (fun r => rt_body (ts_server r)) ex_body_shapes = [true; true; true; true; false; false] /\
  map (fun r => rt_body (openapi r)) ex_body_shapes = [true; true; true; true; false; false] /\
  map (fun r => rt_pathvars (go_client r)) ex_body_shapes =
    [[s "id"]; [s "id"; s "tag"]; []; [s "id"]; [s "id"]; [s "id"]].
Proof. vm_compute. repeat split; reflexivity. Qed.
