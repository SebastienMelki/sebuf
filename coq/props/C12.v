(* C12 — misused annotations stop generation; valid definitions are never refused.
   Impl = Validate.go_http_accepts / go_client_accepts / ts_server_accepts (the validators in the code's
   order), Files.emitted_go_http / emitted_go_client (nothing on refusal);
   Spec = Validate.broken_rules (the documented rules as independent predicates);
   defects_C12 = the known gaps, each with a refutation below. *)
From Sebuf Require Import Text Schema Validate Files.
From SebufProofs Require Import ValidateFacts FilesFacts.

(* Soundness: outside the gap classes, a rule broken in ANY generated file (with or without services), in ANY
   message of it (the flat message list carries every nesting depth) or RPC, makes protoc-gen-go-http answer
   with an error that names the field / oneof / path variable of a rule that really is broken, and no files. *)
Theorem C12_sound : forall sc mock, dom_C12 sc = true -> defects_C12 sc = [] -> broken_generated sc <> [] ->
  exists e, go_http_accepts sc = Some e /\ named_violation (broken_generated sc) e /\ emitted_go_http mock sc = [].
Proof. exact C12_sound_lemma. Qed.
Print Assumptions C12_sound.

(* ... and protoc-gen-go-client likewise for every JSON-mapping rule it implements (all but unwrap; not the HTTP rules) *)
Theorem C12_sound_client : forall sc, dom_C12 sc = true -> defects_C12 sc = [] ->
  (exists v, In v (broken_generated sc) /\ client_rule (v_rule v) = true) ->
  exists e, go_client_accepts sc = Some e /\ named_violation (broken_generated sc) e /\ emitted_go_client sc = [].
Proof. exact C12_sound_client_lemma. Qed.
Print Assumptions C12_sound_client.

(* placement: the offending message may sit in a service-less generated file and at any depth *)
Theorem C12_any_placement : forall sc f m, dom_C12 sc = true -> defects_C12 sc = [] ->
  In f sc -> fl_generate f = true -> In m (fl_messages f) -> message_violations sc m <> [] ->
  exists e, go_http_accepts sc = Some e /\ named_violation (broken_generated sc) e.
Proof. exact C12_any_placement_lemma. Qed.
Print Assumptions C12_any_placement.

(* Completeness: outside the gap classes a definition that breaks no rule is accepted by all five plugins. *)
Theorem C12_complete : forall sc, dom_C12 sc = true -> defects_C12 sc = [] -> broken_rules sc = [] ->
  go_http_accepts sc = None /\ go_client_accepts sc = None /\ ts_server_accepts sc = None /\
  ts_client_accepts sc = None /\ openapi_accepts sc = None.
Proof. exact C12_complete_lemma. Qed.
Print Assumptions C12_complete.

(* every refusal of the TS server is a broken HTTP rule (no defect hypothesis needed) *)
Theorem C12_ts_server_refusals_are_violations : forall sc e,
  ts_server_accepts sc = Some e -> named_violation (broken_generated sc) e.
Proof. exact ts_server_some_named. Qed.
Print Assumptions C12_ts_server_refusals_are_violations.

(* no hypothesis on f_card f (singular, repeated, map, proto3 optional = synthetic oneof in the descriptor) nor on
   f_oneof f beyond "not a member of THIS oneof" (so members of a second plain or annotated oneof count) *)
Theorem C12_discriminator_collision_any_sibling_kind : forall sc m o f,
  In o (m_oneofs m) -> oneof_configured o = true -> In f (m_fields m) -> in_oneof o f = false ->
  json_name (f_name f) = o_discriminator o ->
  oneof_msg_check sc m <> None /\ In (viol RDiscriminatorCollision (o_name o)) (message_violations sc m).
Proof. exact C12_disc_collision_any_sibling_lemma. Qed.
Print Assumptions C12_discriminator_collision_any_sibling_kind.

Theorem C12_flattened_child_collision_any_sibling_kind : forall sc m o f v c,
  In o (m_oneofs m) -> oneof_configured o = true -> o_flatten o = true ->
  In f (m_fields m) -> in_oneof o f = false ->
  In v (variants m o) -> In c (kind_children sc (f_kind v)) -> snd c = json_name (f_name f) ->
  oneof_msg_check sc m <> None /\ In (viol ROneofFlattenChildCollision (o_name o)) (message_violations sc m).
Proof. exact C12_flat_child_collision_any_sibling_lemma. Qed.
Print Assumptions C12_flattened_child_collision_any_sibling_kind.

Theorem C12_flatten_collision_any_sibling_kind : forall sc m f g c,
  (forall x, In x (m_fields m) -> flatten_field_check m x = None) ->
  In f (m_fields m) -> is_flatten f = false ->
  In g (m_fields m) -> well_formed_flatten g = true -> In c (kind_children sc (f_kind g)) ->
  flatten_prefix g ++ snd c = json_name (f_name f) ->
  flatten_msg_check sc m <> None /\ In (viol RFlattenCollision (f_name g)) (message_violations sc m).
Proof. exact C12_flatten_collision_any_sibling_lemma. Qed.
Print Assumptions C12_flatten_collision_any_sibling_kind.

(* instances evaluated through the whole pipeline: `optional string kind`, `optional Addr kind`, a member of a second
   plain / annotated oneof, a map, next to oneof content {discriminator: "kind", flatten: true}; and children of the
   flattened variant against an optional field / a member of the second oneof; the near miss is accepted *)
Example C12_sibling_kinds :
  refused (w_sibling [fld "kind" 2 KString Optional] []) = Some (EDiscCollision, EDiscCollision) /\
  refused (w_sibling [fld "kind" 2 (KMessage (s "p.Addr")) Optional] []) = Some (EDiscCollision, EDiscCollision) /\
  refused (w_sibling [in_oneof_named "other" (fld "kind" 2 KString Singular)] [plain_oneof]) = Some (EDiscCollision, EDiscCollision) /\
  refused (w_sibling [in_oneof_named "other" (fld "kind" 2 KString Singular)] [annotated_oneof]) = Some (EDiscCollision, EDiscCollision) /\
  refused (w_sibling [fld "kind" 2 KString (MapOf KString)] []) = Some (EDiscCollision, EDiscCollision) /\
  refused (w_sibling [fld "street" 2 KString Optional] []) = Some (EOneofFlatChildCollision, EOneofFlatChildCollision) /\
  refused (w_sibling [in_oneof_named "other" (fld "zip_code" 2 KInt32 Singular)] [annotated_oneof]) = Some (EOneofFlatChildCollision, EOneofFlatChildCollision) /\
  defects_C12 (w_sibling [fld "kind" 2 KString Optional] []) = [] /\
  go_http_accepts (w_sibling [fld "kinds" 2 KString Optional; in_oneof_named "other" (fld "kind_b" 3 KString Singular)] [annotated_oneof]) = None.
Proof. vm_compute. repeat split; reflexivity. Qed.

(* the gaps: soundness refuted *)
Theorem C12_refuted_repeated_field_as_path_variable :
  exists sc, dom_C12 sc = true /\ defects_C12 sc = [RepeatedFieldAsPathVariable] /\
  broken_generated sc = [viol RPathVariableNonScalar (s "id")] /\ go_http_accepts sc = None.
Proof. exists w_repeated_pathvar. vm_compute. repeat split; reflexivity. Qed.
Theorem C12_refuted_enum_conflict_on_map_value_unchecked :
  exists sc, dom_C12 sc = true /\ defects_C12 sc = [EnumConflictOnMapValueUnchecked] /\
  broken_generated sc = [viol REnumNumberWithCustomValues (s "by_key")] /\ go_http_accepts sc = None /\ go_client_accepts sc = None.
Proof. exists w_enum_map. vm_compute. repeat split; reflexivity. Qed.
Theorem C12_refuted_rule_broken_in_imported_file :
  exists sc, dom_C12 sc = true /\ defects_C12 sc = [RuleBrokenInImportedFile] /\
  broken_rules sc = [viol RNullableNonOptional (s "nick")] /\ go_http_accepts sc = None /\ go_client_accepts sc = None.
Proof. exists w_imported. vm_compute. repeat split; reflexivity. Qed.
(* the gaps: completeness refuted *)
Theorem C12_refuted_flatten_marshaljson_conflict_refused :
  exists sc, dom_C12 sc = true /\ defects_C12 sc = [FlattenMarshalJSONConflictRefused] /\
  broken_rules sc = [] /\ go_http_accepts sc <> None /\ go_client_accepts sc <> None.
Proof. exists w_flatten_conflict. vm_compute. repeat split; try reflexivity; discriminate. Qed.
Theorem C12_refuted_oneof_marshaljson_conflict_refused :
  exists sc, dom_C12 sc = true /\ defects_C12 sc = [OneofMarshalJSONConflictRefused] /\
  broken_rules sc = [] /\ go_http_accepts sc <> None /\ go_client_accepts sc <> None.
Proof. exists w_oneof_conflict. vm_compute. repeat split; try reflexivity; discriminate. Qed.
Theorem C12_refuted_flatten_on_optional_message_refused :
  exists sc, dom_C12 sc = true /\ defects_C12 sc = [FlattenOnOptionalMessageRefused] /\
  broken_rules sc = [] /\ go_http_accepts sc <> None /\ go_client_accepts sc <> None.
Proof. exists w_flatten_optional. vm_compute. repeat split; try reflexivity; discriminate. Qed.

(* non-vacuity: two generated files (one without services), nested + repeated + map + oneof + annotated fields *)
Example C12_nonvacuous :
  (dom_C12 [nv_types false; nv_api] = true /\ defects_C12 [nv_types false; nv_api] = [] /\ broken_rules [nv_types false; nv_api] = [] /\
   go_http_accepts [nv_types false; nv_api] = None) /\
  (dom_C12 [nv_types true; nv_api] = true /\ defects_C12 [nv_types true; nv_api] = [] /\
   broken_generated [nv_types true; nv_api] = [viol RNullableNonOptional (s "nick")] /\
   go_http_accepts [nv_types true; nv_api] = Some (mk_err ENullableNotOptional (s "Inner") [s "nick"]) /\
   go_client_accepts [nv_types true; nv_api] = Some (mk_err ENullableNotOptional (s "Inner") [s "nick"])).
Proof. vm_compute. repeat split; reflexivity. Qed.
