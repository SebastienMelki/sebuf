(* C05 — the server's JSON follows the documented mapping wherever an annotated type occurs.
   Codec.v = Impl (what the emitted server does), Mapping.v = Spec (the documented mapping).
   The statements; the proofs are in proofs/ (named in each Proof). *)
From Sebuf Require Import CodecCases.
From SebufProofs Require Import ProtoJsonFacts CodecExamples MappingFacts NullableFacts NullableConforms.

(* nothing else changes: where no annotation is reachable from the value (and the top-level message
   has no unwrap-wrapper map), the server's JSON and the documented mapping are both plain protojson *)
Theorem C05_unannotated_is_proto3 : forall E sc tn m,
  plain_top sc tn = true -> plain_in sc (KMessage tn) (FM m) = true ->
  encode E sc tn m = pj_marshal E sc tn m /\ to_json E sc tn m = pj_marshal E sc tn m.
Proof. exact MappingFacts.C05_unannotated_is_proto3. Qed.
Print Assumptions C05_unannotated_is_proto3.

(* the mapping of a message value is one term whatever the context it occurs in *)
Theorem C05_context_free : forall E sc c1 c2 tn m,
  str_eqb tn ts_name = false ->
  mp_fval E sc c1 (KMessage tn) (FM m) = mp_fval E sc c2 (KMessage tn) (FM m).
Proof. exact MappingFacts.C05_context_free. Qed.
Print Assumptions C05_context_free.

(* C05 (Impl = Spec) for one codec in general: a top-level message whose only annotations are nullable
   fields, with un-annotated children, is sent exactly as the documented mapping says *)
Theorem C05_conforms_nullable_partial : forall E sc tn md m,
  str_eqb tn ts_name = false -> is_wkt_other tn = false ->
  find_message (all_messages sc) tn = Some md -> owner_of sc md = Own FtNullable ->
  nodup_str (map jn (m_fields md)) = true ->
  nulplain_msg md = true ->
  forallb (fun e => match find_field (m_fields md) (fst e) with
                    | Some f => plain_in sc (f_kind f) (snd e)
                    | None => false end) m = true ->
  encode E sc tn m = to_json E sc tn m.
Proof. exact conforms_nullable. Qed.
Print Assumptions C05_conforms_nullable_partial.

(* the full statement: proved for the message types of C05_conforms_field_codecs and C05_conforms_unwrap_root_partial
   below, not in general (the correspondence check and the witnesses cover the rest) *)
Definition C05_conforms_full : Prop := forall E sc tn m,
  defects_C05 sc tn m = [] -> encode E sc tn m = to_json E sc tn m.

(* refutations per (annotation x context) class *)
Theorem C05_refuted_nested_int64 : refuted5 (D5Pj AInt64) (q "NumsHolder") [(s "inner", FM [(s "big", vint 5)])].
Proof. exact MappingFacts.C05_refuted_nested_int64. Qed.
Print Assumptions C05_refuted_nested_int64.
Theorem C05_refuted_nested_nullable : refuted5 (D5Pj ANullable) (q "NulHolder") [(s "n", FM [(s "id", vstr "x")])].
Proof. exact MappingFacts.C05_refuted_nested_nullable. Qed.
Print Assumptions C05_refuted_nested_nullable.
Theorem C05_refuted_nested_empty : refuted5 (D5Pj AEmpty) (q "EmpHolder") [(s "e", FM [(s "nul_it", FM [])])].
Proof. exact MappingFacts.C05_refuted_nested_empty. Qed.
Print Assumptions C05_refuted_nested_empty.
Theorem C05_refuted_nested_ts : refuted5 (D5Pj ATs) (q "TimesHolder") [(s "t", FM [(s "secs", tsv 5 0)])].
Proof. exact MappingFacts.C05_refuted_nested_ts. Qed.
Print Assumptions C05_refuted_nested_ts.
Theorem C05_refuted_nested_bytes : refuted5 (D5Pj ABytes) (q "BlobHolder") [(s "b", FM [(s "h", FS (VBytes [ch 105; ch 183]))])].
Proof. exact MappingFacts.C05_refuted_nested_bytes. Qed.
Print Assumptions C05_refuted_nested_bytes.
Theorem C05_refuted_nested_flatten : refuted5 (D5Pj AFlatten) (q "PostHolder") [(s "p", FM [(s "detail", FM [(s "n", vint 1)])])].
Proof. exact MappingFacts.C05_refuted_nested_flatten. Qed.
Print Assumptions C05_refuted_nested_flatten.
Theorem C05_refuted_nested_oneof : refuted5 (D5Pj AOneof) (q "EventHolder") [(s "ev", FM [(s "image", FM [(s "url", vstr "u")])])].
Proof. exact MappingFacts.C05_refuted_nested_oneof. Qed.
Print Assumptions C05_refuted_nested_oneof.
Theorem C05_refuted_nested_unwrap : refuted5 (D5Pj AUnwrap) (q "BarHolder") [(s "bl", FM [(s "bars", FL [FM []])])].
Proof. exact MappingFacts.C05_refuted_nested_unwrap. Qed.
Print Assumptions C05_refuted_nested_unwrap.
Theorem C05_refuted_map_int64 : refuted5 (D5MapSkipped AInt64) (q "NumMap") [(s "by_k", FMap [(VStr (s "k"), vint 5)])].
Proof. exact MappingFacts.C05_refuted_map_int64. Qed.
Print Assumptions C05_refuted_map_int64.
Theorem C05_refuted_enum_value : refuted5 D5EnumValue (q "WithEnum") [(s "status", FS (VEnum 1))].
Proof. exact MappingFacts.C05_refuted_enum_value. Qed.
Print Assumptions C05_refuted_enum_value.
Theorem C05_refuted_enum_number : refuted5 D5EnumNumber (q "WithEnum") [(s "level", FS (VEnum 1))].
Proof. exact MappingFacts.C05_refuted_enum_number. Qed.
Print Assumptions C05_refuted_enum_number.
Theorem C05_refuted_reflected_child : refuted5 D5FlattenChild (q "Post") [(s "detail", FM [(s "body_text", vstr "b")])].
Proof. exact MappingFacts.C05_refuted_reflected_child. Qed.
Print Assumptions C05_refuted_reflected_child.
Theorem C05_refuted_flat_oneof_child :
  defects_C05 xs (q "FlatEvent") [(s "wide", FM [(s "alt_text", vstr "a")])] = [D5FlatOneofChild; D5FlattenChild] /\
  exists j, to_json Ex xs (q "FlatEvent") [(s "wide", FM [(s "alt_text", vstr "a")])] = ROk j /\
            encode Ex xs (q "FlatEvent") [(s "wide", FM [(s "alt_text", vstr "a")])] <> ROk j.
Proof. exact MappingFacts.C05_refuted_flat_oneof_child. Qed.
Print Assumptions C05_refuted_flat_oneof_child.
Theorem C05_refuted_unwrap_sibling : refuted5 D5UnwrapSibling (q "Series") [(s "total_count", vint 4)].
Proof. exact MappingFacts.C05_refuted_unwrap_sibling. Qed.
Print Assumptions C05_refuted_unwrap_sibling.
Theorem C05_refuted_root_null : refuted5 D5RootNull (q "Strs") [].
Proof. exact MappingFacts.C05_refuted_root_null. Qed.
Print Assumptions C05_refuted_root_null.
Theorem C05_refuted_bytes_error_swallowed :
  hex_swallowed xs (q "Blob") (JObj [(s "h", JStr (s "abc"))]) = true /\
  hex_dec (s "abc") = None /\
  decode Ex xs (q "Blob") (JObj [(s "h", JStr (s "abc"))]) = ROk [(s "h", FS (VBytes [ch 105; ch 183]))].
Proof. exact MappingFacts.C05_refuted_bytes_error_swallowed. Qed.
Print Assumptions C05_refuted_bytes_error_swallowed.

Example C05_nonvacuous :
  (let m := [(s "id", vstr "i"); (s "big_num", vint (-5)); (s "tags", FL [vstr "a"]);
             (s "by_key", FMap [(VStr (s "k"), FM [(s "a", vstr "x")])]); (s "leaf", FM []); (s "at", tsv 5 0)] in
   plain_top xs (q "Plain") = true /\ plain_in xs (KMessage (q "Plain")) (FM m) = true /\ defects_C05 xs (q "Plain") m = []) /\
  (let m := [(s "secs", tsv 5 123); (s "day", tsv 90000 0); (s "id", vstr "x")] in
   owns xs (q "Times") = true /\ defects_C05 xs (q "Times") m = [] /\ encode Ex xs (q "Times") m = to_json Ex xs (q "Times") m).
Proof. split; [exact C05_nonvacuous_plain | exact C05_nonvacuous_conforms]. Qed.
Print Assumptions C05_nonvacuous.

Example C05_nullable_nonvacuous :
  exists md,
    find_message (all_messages xs) (q "Nul") = Some md /\ owner_of xs md = Own FtNullable /\
    nodup_str (map jn (m_fields md)) = true /\ nulplain_msg md = true /\
    wt xs (KMessage (q "Nul")) (FM [(s "id", vstr "x")]) = true /\
    encode Ex xs (q "Nul") [(s "id", vstr "x")] = ROk (JObj [(s "id", JStr (s "x")); (s "nick", JNull)]).
Proof. exact nullable_nonvacuous. Qed.

(* C05 (Impl = Spec) for the int64 NUMBER codec in general: a top-level message whose only annotations are
   int64_encoding options (NUMBER not on a map), with un-annotated children, is sent exactly as the
   documented mapping says, for all well-typed values *)
From SebufProofs Require Import Int64Facts Int64Conforms.
Theorem C05_conforms_int64_partial : forall E sc tn md m,
  str_eqb tn ts_name = false -> is_wkt_other tn = false ->
  find_message (all_messages sc) tn = Some md -> owner_of sc md = Own FtInt64 ->
  buildable sc FtInt64 md = true ->
  nodup_str (map jn (m_fields md)) = true ->
  i64plain_msg md = true ->
  wt sc (KMessage tn) (FM m) = true ->
  forallb (fun e => match find_field (m_fields md) (fst e) with
                    | Some f => plain_in sc (f_kind f) (snd e)
                    | None => false end) m = true ->
  encode E sc tn m = to_json E sc tn m.
Proof. exact conforms_int64. Qed.
Print Assumptions C05_conforms_int64_partial.

Example C05_int64_nonvacuous :
  exists md,
    find_message (all_messages i64s) (q "Wide") = Some md /\ owner_of i64s md = Own FtInt64 /\
    buildable i64s FtInt64 md = true /\ nodup_str (map jn (m_fields md)) = true /\ i64plain_msg md = true /\
    wt i64s (KMessage (q "Wide")) (FM wide_val) = true /\
    forallb (fun e => match find_field (m_fields md) (fst e) with
                      | Some f => plain_in i64s (f_kind f) (snd e)
                      | None => false end) wide_val = true /\
    encode Ex i64s (q "Wide") wide_val = ROk wide_json /\ to_json Ex i64s (q "Wide") wide_val = ROk wide_json.
Proof. exact conforms_int64_nonvacuous. Qed.

(* well-typedness, NUMBER not on a map, and a codec that compiles are each needed *)
Example C05_int64_needs_wt :
  let m := [(s "big", vint 0)] in
  exists md,
    find_message (all_messages xs) (q "Nums") = Some md /\ owner_of xs md = Own FtInt64 /\
    buildable xs FtInt64 md = true /\ nodup_str (map jn (m_fields md)) = true /\ i64plain_msg md = true /\
    forallb (fun e => match find_field (m_fields md) (fst e) with
                      | Some f => plain_in xs (f_kind f) (snd e)
                      | None => false end) m = true /\
    wt xs (KMessage (q "Nums")) (FM m) = false /\
    encode Ex xs (q "Nums") m = ROk (JObj []) /\ to_json Ex xs (q "Nums") m = ROk (JObj [(s "big", JNum 0)]).
Proof. exact conforms_int64_needs_wt. Qed.
Example C05_int64_needs_nonmap :
  let m := [(s "by_k", FMap [(VStr (s "k"), vint 5)])] in
  exists md,
    find_message (all_messages xs) (q "NumMap") = Some md /\ owner_of xs md = Own FtInt64 /\
    buildable xs FtInt64 md = true /\ nodup_str (map jn (m_fields md)) = true /\
    wt xs (KMessage (q "NumMap")) (FM m) = true /\
    forallb (fun e => match find_field (m_fields md) (fst e) with
                      | Some f => plain_in xs (f_kind f) (snd e)
                      | None => false end) m = true /\
    i64plain_msg md = false /\
    encode Ex xs (q "NumMap") m = ROk (JObj [(s "byK", JObj [(s "k", JStr (s "5"))])]) /\
    to_json Ex xs (q "NumMap") m = ROk (JObj [(s "byK", JObj [(s "k", JNum 5)])]).
Proof. exact conforms_int64_needs_nonmap. Qed.
Example C05_int64_needs_buildable :
  let m := [(s "o", vint 5)] in
  exists md w,
    find_message (all_messages i64s) (q "Opt") = Some md /\ owner_of i64s md = Own FtInt64 /\
    nodup_str (map jn (m_fields md)) = true /\ i64plain_msg md = true /\
    wt i64s (KMessage (q "Opt")) (FM m) = true /\
    buildable i64s FtInt64 md = false /\
    encode Ex i64s (q "Opt") m = RUnm w /\ to_json Ex i64s (q "Opt") m = ROk (JObj [(s "o", JNum 5)]).
Proof. exact conforms_int64_needs_buildable. Qed.

(* C05 (Impl = Spec) for the bytes_encoding codec in general: a top-level message whose only annotations
   are bytes_encoding on singular / optional bytes fields, with un-annotated children, is sent exactly
   as the documented mapping says (proofs/BytesConforms.v) *)
From SebufProofs Require Import BytesFacts BytesConforms.
Theorem C05_conforms_bytes_partial : forall E sc tn md m,
  str_eqb tn ts_name = false -> is_wkt_other tn = false ->
  find_message (all_messages sc) tn = Some md -> owner_of sc md = Own FtBytes ->
  buildable sc FtBytes md = true ->
  nodup_str (map jn (m_fields md)) = true ->
  bytesplain_msg md = true ->
  nodup_str (map fst m) = true ->
  forallb (bytes_value_ok sc md) m = true ->
  encode E sc tn m = to_json E sc tn m.
Proof. exact conforms_bytes. Qed.
Print Assumptions C05_conforms_bytes_partial.

Example C05_bytes_nonvacuous :
  exists md,
    str_eqb (q "B") ts_name = false /\ is_wkt_other (q "B") = false /\
    find_message (all_messages bxs) (q "B") = Some md /\ owner_of bxs md = Own FtBytes /\
    buildable bxs FtBytes md = true /\ nodup_str (map jn (m_fields md)) = true /\ bytesplain_msg md = true /\
    wt bxs (KMessage (q "B")) (FM bval) = true /\
    nodup_str (map fst bval) = true /\ forallb (bytes_value_ok bxs md) bval = true /\
    encode Ex bxs (q "B") bval = ROk bjson /\ to_json Ex bxs (q "B") bval = ROk bjson /\
    decode Ex bxs (q "B") bjson = ROk bval.
Proof. exact bytes_nonvacuous. Qed.
Print Assumptions C05_bytes_nonvacuous.
(* the side conditions cannot be dropped *)
Example C05_conforms_bytes_needs_buildable :
  exists md,
    find_message (all_messages bxs) (q "BRep") = Some md /\ owner_of bxs md = Own FtBytes /\
    buildable bxs FtBytes md = false /\
    nodup_str (map jn (m_fields md)) = true /\ bytesplain_msg md = true /\
    nodup_str (map fst (@nil (str * fval))) = true /\ forallb (bytes_value_ok bxs md) [] = true /\
    encode Ex bxs (q "BRep") [] <> to_json Ex bxs (q "BRep") [] /\
    (let m := [(s "hs", FL [FS (VBytes [ch 1])])] in
     wt bxs (KMessage (q "BRep")) (FM m) = true /\
     to_json Ex bxs (q "BRep") m = ROk (JObj [(s "hs", JArr [JStr (s "01")])]) /\
     exists w, encode Ex bxs (q "BRep") m = RUnm w).
Proof. exact conforms_bytes_needs_buildable. Qed.
Print Assumptions C05_conforms_bytes_needs_buildable.
Example C05_conforms_bytes_needs_nonmap :
  let m := [(s "h", FS (VBytes [ch 1])); (s "by_k", FMap [(VStr (s "k"), FS (VBytes [ch 1]))])] in
  exists md,
    find_message (all_messages bxs) (q "BMap") = Some md /\ owner_of bxs md = Own FtBytes /\
    buildable bxs FtBytes md = true /\ nodup_str (map jn (m_fields md)) = true /\
    bytesplain_msg md = false /\
    wt bxs (KMessage (q "BMap")) (FM m) = true /\ nodup_str (map fst m) = true /\
    encode Ex bxs (q "BMap") m = ROk (JObj [(s "h", JStr (s "01")); (s "byK", JObj [(s "k", JStr (s "AQ=="))])]) /\
    to_json Ex bxs (q "BMap") m = ROk (JObj [(s "h", JStr (s "01")); (s "byK", JObj [(s "k", JStr (s "01"))])]).
Proof. exact conforms_bytes_needs_nonmap. Qed.
Print Assumptions C05_conforms_bytes_needs_nonmap.
Example C05_conforms_bytes_needs_distinct_names :
  let m := [(s "h", FS (VBytes [ch 1])); (s "h", FS (VBytes [ch 2]))] in
  exists md,
    find_message (all_messages xs) (q "Blob") = Some md /\ owner_of xs md = Own FtBytes /\
    buildable xs FtBytes md = true /\ nodup_str (map jn (m_fields md)) = true /\ bytesplain_msg md = true /\
    nodup_str (map fst m) = false /\ forallb (bytes_value_ok xs md) m = true /\
    encode Ex xs (q "Blob") m <> to_json Ex xs (q "Blob") m.
Proof. exact conforms_bytes_needs_distinct_names. Qed.
Print Assumptions C05_conforms_bytes_needs_distinct_names.
Example C05_conforms_bytes_needs_bytes_value :
  let m := [(s "h", FL [FS (VBytes [ch 1])])] in
  exists md,
    find_message (all_messages xs) (q "Blob") = Some md /\ owner_of xs md = Own FtBytes /\
    buildable xs FtBytes md = true /\ nodup_str (map jn (m_fields md)) = true /\ bytesplain_msg md = true /\
    nodup_str (map fst m) = true /\ forallb (bytes_value_ok xs md) m = false /\
    encode Ex xs (q "Blob") m <> to_json Ex xs (q "Blob") m.
Proof. exact conforms_bytes_needs_bytes_value. Qed.
Print Assumptions C05_conforms_bytes_needs_bytes_value.

(* C05 (Impl = Spec) for the timestamp_format codec in general: a top-level message whose codec is the
   timestamp one, every other field un-annotated with un-annotated children, is sent exactly as the
   documented mapping says (every value that names each field at most once; errors included) *)
From SebufProofs Require Import TimestampFacts TimestampConforms.
Theorem C05_conforms_ts_partial : forall E sc tn md m,
  str_eqb tn ts_name = false -> is_wkt_other tn = false ->
  find_message (all_messages sc) tn = Some md -> owner_of sc md = Own FtTs ->
  buildable sc FtTs md = true ->
  nodup_str (map jn (m_fields md)) = true ->
  forallb tsplain_field (m_fields md) = true ->
  nodup_str (map fst m) = true ->
  forallb (ts_entry_ok sc md) m = true ->
  encode E sc tn m = to_json E sc tn m.
Proof. exact conforms_ts. Qed.
Print Assumptions C05_conforms_ts_partial.

(* each side condition is needed *)
Example C05_conforms_ts_needs_nodup_names :
  let m := [(s "at_secs", tsv 5 0); (s "at_secs", tsv 7 0)] in
  nodup_str (map fst m) = false /\
  encode Ex tss (q "Stamps") m = ROk (JObj [(s "atSecs", JNum 5); (s "atSecs", JNum 5)]) /\
  to_json Ex tss (q "Stamps") m = ROk (JObj [(s "atSecs", JNum 5); (s "atSecs", JNum 7)]).
Proof. exact conforms_ts_needs_nodup_names. Qed.
Print Assumptions C05_conforms_ts_needs_nodup_names.
Example C05_conforms_ts_needs_message_shape :
  let m := [(s "at_secs", FL [tsv 5 0])] in
  encode Ex tss (q "Stamps") m = ROk (JObj [(s "atSecs", JArr [JStr (s "1970-01-01T00:00:05Z")])]) /\
  to_json Ex tss (q "Stamps") m = ROk (JObj [(s "atSecs", JArr [JNum 5])]).
Proof. exact conforms_ts_needs_message_shape. Qed.
Print Assumptions C05_conforms_ts_needs_message_shape.
Example C05_conforms_ts_needs_tsplain :
  let m := [(s "at", tsv 5 0); (s "by_k", FMap [(VStr (s "k"), tsv 7 0)])] in
  (exists md, find_message (all_messages tss) (q "StampMap") = Some md /\ owner_of tss md = Own FtTs /\
              buildable tss FtTs md = true /\ forallb tsplain_field (m_fields md) = false) /\
  encode Ex tss (q "StampMap") m = ROk (JObj [(s "at", JNum 5); (s "byK", JObj [(s "k", JStr (s "1970-01-01T00:00:07Z"))])]) /\
  to_json Ex tss (q "StampMap") m = ROk (JObj [(s "at", JNum 5); (s "byK", JObj [(s "k", JNum 7)])]).
Proof. exact conforms_ts_needs_tsplain. Qed.
Print Assumptions C05_conforms_ts_needs_tsplain.
Example C05_conforms_ts_needs_buildable :
  let m := [(s "ats", FL [tsv 5 0])] in
  (exists md, find_message (all_messages tss) (q "StampList") = Some md /\ owner_of tss md = Own FtTs /\
              buildable tss FtTs md = false) /\
  (exists w, encode Ex tss (q "StampList") m = RUnm w) /\
  to_json Ex tss (q "StampList") m = ROk (JObj [(s "ats", JArr [JNum 5])]).
Proof. exact conforms_ts_needs_buildable. Qed.
Print Assumptions C05_conforms_ts_needs_buildable.

(* C05 (Impl = Spec) for the empty_behavior codec in general: a top-level message whose only annotations are
   empty_behavior fields (PRESERVE / NULL / OMIT), with un-annotated children, is sent exactly as the documented
   mapping says, for every well-typed value *)
From SebufProofs Require Import EmptyFacts EmptyConforms.
Theorem C05_conforms_empty_partial : forall E sc tn md m,
  str_eqb tn ts_name = false -> is_wkt_other tn = false ->
  find_message (all_messages sc) tn = Some md -> owner_of sc md = Own FtEmpty ->
  buildable sc FtEmpty md = true ->
  nodup_str (map jn (m_fields md)) = true ->
  empplain_msg md = true ->
  wt sc (KMessage tn) (FM m) = true ->
  forallb (fun e => match find_field (m_fields md) (fst e) with
                    | Some f => plain_in sc (f_kind f) (snd e)
                    | None => false end) m = true ->
  encode E sc tn m = to_json E sc tn m.
Proof. exact EmptyConforms.conforms_empty. Qed.
Print Assumptions C05_conforms_empty_partial.

(* a list naming a field twice is not a message value (wt excludes it); on it Impl and Spec differ *)
Example C05_conforms_empty_needs_wt :
  let m := [(s "nul_it", FM []); (s "nul_it", FM [(s "a", vstr "z")])] in
  wt xs (KMessage (q "Emp")) (FM m) = false /\
  encode Ex xs (q "Emp") m = ROk (JObj [(s "nulIt", JNull); (s "nulIt", JNull)]) /\
  to_json Ex xs (q "Emp") m = ROk (JObj [(s "nulIt", JNull); (s "nulIt", JObj [(s "a", JStr (s "z"))])]).
Proof. exact EmptyConforms.conforms_empty_needs_wt. Qed.

Example C05_empty_nonvacuous :
  let md := emp3_md in
  let m := [(s "keep_it", FM [(s "a", vstr "k")]); (s "nul_it", FM [(s "n", vint 7)]); (s "omit_it", FM [(s "a", vstr "o")]);
            (s "omit_at", tsv 5 0); (s "plain_leaf", FM [])] in
  let j := JObj [(s "keepIt", JObj [(s "a", JStr (s "k"))]); (s "nulIt", JObj [(s "n", JStr (s "7"))]);
                 (s "omitIt", JObj [(s "a", JStr (s "o"))]); (s "omitAt", JStr (s "1970-01-01T00:00:05Z"));
                 (s "plainLeaf", JObj [])] in
  wt ebs (KMessage (q "Emp3")) (FM m) = true /\ epoch_null_free md m = true /\
  forallb (fun e => match find_field (m_fields md) (fst e) with
                    | Some f => plain_in ebs (f_kind f) (snd e) | None => false end) m = true /\
  norm ebs (q "Emp3") m = m /\
  encode Ex ebs (q "Emp3") m = ROk j /\ to_json Ex ebs (q "Emp3") m = ROk j /\ decode Ex ebs (q "Emp3") j = ROk m.
Proof. exact EmptyConforms.empty_nonvacuous_nonempty. Qed.

(* ONE Impl = Spec theorem for every top-level message type whose codec is none or exactly one of the five field
   codecs: [CodecCompose.field_codec_plain sc md] (computable; the per-codec predicates nulplain_msg / i64plain_msg /
   bytesplain_msg / tsplain_field / empplain_msg — plain_msg when there is no codec — selected by the owner, together
   with "the emitted codec compiles") and a well-typed value whose children are un-annotated.  Distinct JSON names,
   the not-a-well-known-type conditions, distinct field names of the value and the shape of the annotated values
   (bytes_value_ok, ts_entry_ok) are derived from wt in proofs/CodecCompose.v *)
From SebufProofs Require CodecCompose.
Theorem C05_conforms_field_codecs : forall E sc tn md m,
  lookup_message sc tn = Some md ->
  CodecCompose.field_codec_plain sc md = true ->
  wt sc (KMessage tn) (FM m) = true ->
  forallb (fun e => match find_field (m_fields md) (fst e) with
                    | Some f => plain_in sc (f_kind f) (snd e)
                    | None => false end) m = true ->
  encode E sc tn m = to_json E sc tn m.
Proof. exact CodecCompose.C05_conforms_field_codecs. Qed.
Print Assumptions C05_conforms_field_codecs.

(* non-vacuity on the shared schema xs: one message type per field codec and one without a codec *)
Example C05_field_codecs_nonvacuous :
  CodecCompose.c05_case_ok xs (q "Nums") (Own FtInt64)
    [(s "big", vint 9007199254740993); (s "name", vstr "n")]
    (JObj [(s "big", JNum 9007199254740993); (s "name", JStr (s "n"))]) /\
  CodecCompose.c05_case_ok xs (q "Nul") (Own FtNullable)
    [(s "id", vstr "x")]
    (JObj [(s "id", JStr (s "x")); (s "nick", JNull)]) /\
  CodecCompose.c05_case_ok xs (q "Emp") (Own FtEmpty)
    [(s "nul_it", FM []); (s "omit", FM []); (s "id", vstr "x")]
    (JObj [(s "nulIt", JNull); (s "id", JStr (s "x"))]) /\
  CodecCompose.c05_case_ok xs (q "Times") (Own FtTs)
    [(s "secs", tsv 5 123456789); (s "day", tsv 90000 1); (s "id", vstr "x")]
    (JObj [(s "secs", JNum 5); (s "day", JStr (s "1970-01-02")); (s "id", JStr (s "x"))]) /\
  CodecCompose.c05_case_ok xs (q "Blob") (Own FtBytes)
    [(s "h", FS (VBytes [ch 105; ch 183])); (s "id", vstr "x")]
    (JObj [(s "h", JStr (s "69b7")); (s "id", JStr (s "x"))]) /\
  CodecCompose.c05_case_ok xs (q "Leaf") OwnNone
    [(s "a", vstr "x"); (s "n", vint 3)]
    (JObj [(s "a", JStr (s "x")); (s "n", JStr (s "3"))]).
Proof. exact CodecCompose.conforms_field_codecs_nonvacuous. Qed.
Print Assumptions C05_field_codecs_nonvacuous.

(* a repeated bytes field whose option names the default encoding: covered here, outside C05_conforms_bytes_partial *)
Example C05_field_codecs_default_bytes_list :
  let m := [(s "h", FS (VBytes [ch 105; ch 183])); (s "reps", FL [FS (VBytes [ch 1]); FS (VBytes [])]); (s "id", vstr "x")] in
  CodecCompose.c05_case_ok CodecCompose.fcs (q "BDef") (Own FtBytes) m
    (JObj [(s "h", JStr (s "69b7")); (s "reps", JArr [JStr (s "AQ=="); JStr []]); (s "id", JStr (s "x"))]) /\
  (exists md, lookup_message CodecCompose.fcs (q "BDef") = Some md /\ forallb (bytes_value_ok CodecCompose.fcs md) m = false) /\
  CodecCompose.c04_case_ok CodecCompose.fcs (q "BDef") (Own FtBytes) m
    (JObj [(s "h", JStr (s "69b7")); (s "reps", JArr [JStr (s "AQ=="); JStr []]); (s "id", JStr (s "x"))]) m.
Proof. exact CodecCompose.conforms_field_codecs_default_bytes_list. Qed.

(* each remaining hypothesis is needed *)
Example C05_conforms_field_codecs_needs_plain :
  (let m := [(s "by_k", FMap [(VStr (s "k"), vint 5)])] in
   exists md, lookup_message xs (q "NumMap") = Some md /\ owner_of xs md = Own FtInt64 /\
     buildable xs FtInt64 md = true /\ CodecCompose.field_codec_plain xs md = false /\
     wt xs (KMessage (q "NumMap")) (FM m) = true /\
     forallb (fun e => match find_field (m_fields md) (fst e) with
                       | Some f => plain_in xs (f_kind f) (snd e) | None => false end) m = true /\
     encode Ex xs (q "NumMap") m = ROk (JObj [(s "byK", JObj [(s "k", JStr (s "5"))])]) /\
     to_json Ex xs (q "NumMap") m = ROk (JObj [(s "byK", JObj [(s "k", JNum 5)])])) /\
  (let m := [(s "o", vint 5)] in
   exists md w, lookup_message i64s (q "Opt") = Some md /\ owner_of i64s md = Own FtInt64 /\
     i64plain_msg md = true /\ buildable i64s FtInt64 md = false /\
     CodecCompose.field_codec_plain i64s md = false /\
     wt i64s (KMessage (q "Opt")) (FM m) = true /\
     encode Ex i64s (q "Opt") m = RUnm w /\ to_json Ex i64s (q "Opt") m = ROk (JObj [(s "o", JNum 5)])).
Proof. exact CodecCompose.conforms_field_codecs_needs_plain. Qed.
Example C05_conforms_field_codecs_needs_wt :
  let m := [(s "big", vint 0)] in
  exists md, lookup_message xs (q "Nums") = Some md /\ CodecCompose.field_codec_plain xs md = true /\
    forallb (fun e => match find_field (m_fields md) (fst e) with
                      | Some f => plain_in xs (f_kind f) (snd e) | None => false end) m = true /\
    wt xs (KMessage (q "Nums")) (FM m) = false /\
    encode Ex xs (q "Nums") m = ROk (JObj []) /\ to_json Ex xs (q "Nums") m = ROk (JObj [(s "big", JNum 0)]).
Proof. exact CodecCompose.conforms_field_codecs_needs_wt. Qed.
Example C05_conforms_field_codecs_needs_plain_children :
  let m := [(s "inner", FM [(s "big", vint 5)])] in
  exists md, lookup_message xs (q "NumsHolder") = Some md /\ owner_of xs md = OwnNone /\ CodecCompose.field_codec_plain xs md = true /\
    wt xs (KMessage (q "NumsHolder")) (FM m) = true /\
    forallb (fun e => match find_field (m_fields md) (fst e) with
                      | Some f => plain_in xs (f_kind f) (snd e) | None => false end) m = false /\
    encode Ex xs (q "NumsHolder") m = ROk (JObj [(s "inner", JObj [(s "big", JStr (s "5"))])]) /\
    to_json Ex xs (q "NumsHolder") m = ROk (JObj [(s "inner", JObj [(s "big", JNum 5)])]).
Proof. exact CodecCompose.conforms_field_codecs_needs_plain_children. Qed.

(* C05 (Impl = Spec) for the root-unwrap codec in general: a message whose only field carries (sebuf.http.unwrap),
   with un-annotated element messages (or scalar elements of the kinds encoding/json and protojson write alike), is
   sent exactly as the documented mapping says — the bare array / object of its field, wrappers collapsed to the
   array of their unwrap field — for every well-typed value in [root_conf].  [root_conf] (computable, on the
   message and the value) excludes the nil scalar slice / map written as null (D5RootNull, at the root AND inside
   a wrapper), 64-bit integers / enums / non-finite floats among scalar elements (D5UnwrapSibling) and annotated
   element messages. *)
From SebufProofs Require UnwrapRootFacts UnwrapRootConforms UnwrapRootExamples.
Theorem C05_conforms_unwrap_root_partial : forall E sc tn md m,
  str_eqb tn ts_name = false -> is_wkt_other tn = false ->
  find_message (all_messages sc) tn = Some md -> owner_of sc md = Own FtUnwrapRoot ->
  buildable sc FtUnwrapRoot md = true ->
  wt sc (KMessage tn) (FM m) = true ->
  UnwrapRootConforms.root_conf sc md m = true ->
  encode E sc tn m = to_json E sc tn m.
Proof. exact UnwrapRootConforms.conforms_unwrap_root. Qed.
Print Assumptions C05_conforms_unwrap_root_partial.

(* non-vacuity: [root_hyps] contains owner, buildable, wt and root_conf; encode = to_json = j on each *)
Example C05_unwrap_root_nonvacuous_xs :
  (let m := [(s "bars", FL [UnwrapRootExamples.leaf1; FM []])] in
   let j := JArr [UnwrapRootExamples.leaf1_json; JObj []] in
   UnwrapRootExamples.root_hyps xs (q "BarList") m /\
   encode Ex xs (q "BarList") m = ROk j /\ to_json Ex xs (q "BarList") m = ROk j /\
   decode Ex xs (q "BarList") j = ROk m /\ norm xs (q "BarList") m = m) /\
  (let m := [(s "vals", FL [vstr "a"; vstr "b"])] in
   let j := JArr [JStr (s "a"); JStr (s "b")] in
   UnwrapRootExamples.root_hyps xs (q "Strs") m /\
   encode Ex xs (q "Strs") m = ROk j /\ to_json Ex xs (q "Strs") m = ROk j /\
   decode Ex xs (q "Strs") j = ROk m /\ norm xs (q "Strs") m = m) /\
  encode Ex xs (q "BarList") [] = ROk (JArr []) /\ decode Ex xs (q "BarList") (JArr []) = ROk [] /\
  encode Ex xs (q "Strs") [] = ROk JNull /\ decode Ex xs (q "Strs") JNull = ROk [].
Proof. exact UnwrapRootExamples.unwrap_root_nonvacuous_xs. Qed.

(* a map key type other than string: the emitted Go does not compile (C13), the model declines *)
Example C05_conforms_unwrap_root_needs_buildable :
  let m := [(s "by_n", FMap [(VInt 1, UnwrapRootExamples.leaf1)])] in
  (exists md, find_message (all_messages UnwrapRootExamples.uws) (q "IntKeys") = Some md /\ owner_of UnwrapRootExamples.uws md = Own FtUnwrapRoot /\
              buildable UnwrapRootExamples.uws FtUnwrapRoot md = false /\ UnwrapRootConforms.root_conf UnwrapRootExamples.uws md m = true) /\
  wt UnwrapRootExamples.uws (KMessage (q "IntKeys")) (FM m) = true /\
  (exists w, encode Ex UnwrapRootExamples.uws (q "IntKeys") m = RUnm w) /\
  to_json Ex UnwrapRootExamples.uws (q "IntKeys") m = ROk (JObj [(s "1", UnwrapRootExamples.leaf1_json)]).
Proof. exact UnwrapRootExamples.conforms_unwrap_root_needs_buildable. Qed.
(* outside root_conf: the nil scalar list at the root (D5RootNull), 64-bit integers as scalar elements
   (D5UnwrapSibling), and the nil scalar list INSIDE a wrapper — written as null where the mapping says [] — which
   defects_C05 does not tag *)
Example C05_conforms_unwrap_root_needs_root_conf :
  (exists md, find_message (all_messages xs) (q "Strs") = Some md /\ UnwrapRootConforms.root_conf xs md [] = false) /\
  defects_C05 xs (q "Strs") [] = [D5RootNull] /\
  encode Ex xs (q "Strs") [] = ROk JNull /\ to_json Ex xs (q "Strs") [] = ROk (JArr []) /\
  (let m := [(s "bs", FL [vint 5])] in
   (exists md, find_message (all_messages UnwrapRootExamples.uws) (q "Bigs") = Some md /\ UnwrapRootConforms.root_conf UnwrapRootExamples.uws md m = false) /\
   wt UnwrapRootExamples.uws (KMessage (q "Bigs")) (FM m) = true /\ defects_C05 UnwrapRootExamples.uws (q "Bigs") m = [D5UnwrapSibling] /\
   encode Ex UnwrapRootExamples.uws (q "Bigs") m = ROk (JArr [JNum 5]) /\ to_json Ex UnwrapRootExamples.uws (q "Bigs") m = ROk (JArr [JStr (s "5")])) /\
  (let m := [(s "by_k", FMap [(VStr (s "b"), FM [(s "total", vint 3)])])] in
   (exists md, find_message (all_messages UnwrapRootExamples.uws) (q "TagCombo") = Some md /\ owner_of UnwrapRootExamples.uws md = Own FtUnwrapRoot /\
               buildable UnwrapRootExamples.uws FtUnwrapRoot md = true /\ UnwrapRootConforms.root_conf UnwrapRootExamples.uws md m = false) /\
   wt UnwrapRootExamples.uws (KMessage (q "TagCombo")) (FM m) = true /\ defects_C05 UnwrapRootExamples.uws (q "TagCombo") m = [] /\
   encode Ex UnwrapRootExamples.uws (q "TagCombo") m = ROk (JObj [(s "b", JNull)]) /\
   to_json Ex UnwrapRootExamples.uws (q "TagCombo") m = ROk (JObj [(s "b", JArr [])])).
Proof. exact UnwrapRootExamples.conforms_unwrap_root_needs_root_conf. Qed.
(* a list naming the field twice is not a message value (wt excludes it); on it Impl and Spec differ *)
Example C05_conforms_unwrap_root_needs_wt :
  let m := [(s "bars", FL [UnwrapRootExamples.leaf1]); (s "bars", FL [FM []])] in
  (exists md, find_message (all_messages xs) (q "BarList") = Some md /\ UnwrapRootConforms.root_conf xs md m = true) /\
  wt xs (KMessage (q "BarList")) (FM m) = false /\
  encode Ex xs (q "BarList") m = ROk (JArr [UnwrapRootExamples.leaf1_json]) /\
  (exists w, to_json Ex xs (q "BarList") m = RUnm w).
Proof. exact UnwrapRootExamples.conforms_unwrap_root_needs_wt. Qed.

From SebufProofs Require OneofExamples.

(* response direction, flattened discriminated oneof: NaN / Infinity as an ELEMENT of a repeated float field (or a value of
   a map) of the variant makes json.Marshal(inner) fail, the error is swallowed, and the server sends the discriminator
   only.  defects_C05 covers it (CodecCases.reflect_differs looks inside lists and maps; confirmed on the emitted code,
   catalogue package cxoneofgaps) *)
Example C05_flat_variant_nonfinite_element :
  let m := [(s "fl", FM [(s "xs", FL [FS (VFloat 9221120237041090561)]); (s "name", vstr "n")])] in
  defects_C05 OneofExamples.fs (q "FlatG") m = [D5FlatOneofChild; D5FlattenChild] /\
  encode Ex OneofExamples.fs (q "FlatG") m = ROk (JObj [(s "kind", JStr (s "fl"))]) /\
  to_json Ex OneofExamples.fs (q "FlatG") m
    = ROk (JObj [(s "kind", JStr (s "fl")); (s "xs", JArr [JStr (s "NaN")]); (s "name", JStr (s "n"))]).
Proof. exact OneofExamples.c05_flat_variant_nonfinite_element. Qed.
