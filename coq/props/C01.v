(* C01 — The emitted Go client and the emitted Go server agree on one call: outside the known defect
   classes the handler sees the request the caller sent, and the caller gets the handler's reply.
   Statements and Print Assumptions; the proofs are in proofs/GoRtFacts.v and the files it imports (a
   two-line one stands here); examples checked by computation. *)
From Sebuf Require Import Text Json Route Schema Value Num Url GoRt.
From SebufProofs Require Import TextFacts NumFacts UrlFacts GoRtFacts.

(* fmt.Sprint then strconv.Parse* gives the number back *)

Theorem C01_parse_nat_show : forall n : N, parse_nat (show_nat_N n) = Some n.
Proof. exact parse_nat_show. Qed.
Print Assumptions C01_parse_nat_show.

Theorem C01_parse_int_show : forall bits z, (0 < bits)%N ->
  (- 2 ^ Z.of_N (bits - 1) <= z < 2 ^ Z.of_N (bits - 1))%Z ->
  parse_int bits (show_int z) = Some z.
Proof. exact parse_int_show. Qed.
Print Assumptions C01_parse_int_show.

Theorem C01_parse_uint_show : forall bits z, (0 <= z < 2 ^ Z.of_N bits)%Z ->
  parse_uint bits (show_int z) = Some z.
Proof. exact parse_uint_show. Qed.
Print Assumptions C01_parse_uint_show.

Theorem C01_parse_bool_show : forall b, parse_bool (show_bool b) = Some b.
Proof. exact parse_bool_show. Qed.
Print Assumptions C01_parse_bool_show.

Theorem C01_show_int_first : forall z, exists c r,
  show_int z = c :: r /\ (is_digit c = true \/ c = "-"%char).
Proof. exact show_int_first. Qed.
Print Assumptions C01_show_int_first.

Theorem C01_show_int_nonempty : forall z, show_int z <> [].
Proof. exact show_int_nonempty. Qed.
Print Assumptions C01_show_int_nonempty.

Theorem C01_show_int_not_dirty : forall z, dirty_seg (show_int z) = false.
Proof.
  intros z. unfold dirty_seg. apply orb_false_iff. split; apply str_eqb_neq; now apply show_int_not_first.
Qed.
Print Assumptions C01_show_int_not_dirty.

Theorem C01_show_int_not_slash : forall z, str_eqb (show_int z) [slash] = false.
Proof. intros z. apply str_eqb_neq. now apply show_int_not_first. Qed.
Print Assumptions C01_show_int_not_slash.

(* net/url: escaping, then unescaping or parsing *)

Theorem C01_path_unescape_escape : forall x, path_unescape (path_escape x) = Some x.
Proof. exact path_unescape_escape. Qed.
Print Assumptions C01_path_unescape_escape.

Theorem C01_query_unescape_escape : forall x, query_unescape (query_escape x) = Some x.
Proof. exact query_unescape_escape. Qed.
Print Assumptions C01_query_unescape_escape.

Theorem C01_path_escape_no_slash : forall x, In slash (path_escape x) -> False.
Proof. exact path_escape_no_slash. Qed.
Print Assumptions C01_path_escape_no_slash.

Theorem C01_path_escape_nil_iff : forall x, path_escape x = [] <-> x = [].
Proof. exact (escape_nil_iff false path_seg_safe). Qed.
Print Assumptions C01_path_escape_nil_iff.

Theorem C01_split_on_join : forall c l, l <> [] -> (forall x, In x l -> ~ In c x) ->
  split_on c (join_with [c] l) = l.
Proof. exact split_on_join. Qed.
Print Assumptions C01_split_on_join.

Theorem C01_query_escape_clean : forall x c, In c (query_escape x) ->
  c <> amp /\ c <> eqc /\ c <> ";"%char.
Proof. exact query_escape_clean. Qed.
Print Assumptions C01_query_escape_clean.

(* holds for every list of pairs: an encoded pair always contains '=' and so is never empty *)
Theorem C01_parse_query_encode : forall kv, parse_query (encode_query kv) = sort_kv kv.
Proof. exact parse_query_encode_all. Qed.
Print Assumptions C01_parse_query_encode.

Theorem C01_convert_sprint : forall k v, url_kind_ok k = true -> typed_scalar k v ->
  convert k (sprint v) = Some v.
Proof. intros k v _. apply convert_sprint. Qed.
Print Assumptions C01_convert_sprint.

Theorem C01_scalar_of_mset_same : forall fs m f v,
  url_kind_ok (f_kind f) = true -> typed_scalar (f_kind f) v ->
  scalar_of (mset_scalar fs m f v) f = v.
Proof. intros fs m f v _. apply scalar_of_mset_same. Qed.
Print Assumptions C01_scalar_of_mset_same.

Theorem C01_scalar_of_mset_other : forall fs m f v g, f_name g <> f_name f ->
  scalar_of (mset_scalar fs m f v) g = scalar_of m g.
Proof.
  intros fs m f v g Hne. apply scalar_of_mget. rewrite mget_mset_scalar. apply str_eqb_neq in Hne. now rewrite Hne.
Qed.
Print Assumptions C01_scalar_of_mset_other.

(* re-binding a URL-capable singular field with the value a canonical message already gives it changes
   nothing *)
Theorem C01_rebind_canonical : forall fs m f, canonical fs m ->
  find_field fs (f_name f) = Some f -> field_url_ok f = true ->
  mset_scalar fs m f (scalar_of m f) = m.
Proof. exact mset_scalar_same_canonical. Qed.
Print Assumptions C01_rebind_canonical.

(* a pattern matches its own filled segments and yields the printed values of its variables *)
Theorem C01_match_fill : forall fs req segs filled,
  all_ok (map (fill_seg fs req) segs) = Ok filled ->
  (forall v, In v (seg_vars segs) -> var_val fs req v <> [] /\ var_val fs req v <> [slash]) ->
  match_segs segs filled = Some (bindings fs req (seg_vars segs)).
Proof.
  intros fs req segs filled H Hv. apply fill_all in H as [-> _].
  now apply (match_fill_map fs req path_escape path_escape_codec).
Qed.
Print Assumptions C01_match_fill.

(* a segment without '%' unescapes to itself *)
Theorem C01_lit_no_pct : forall x, ~ In "%"%char x -> seg_unescape x = x.
Proof. intros x H. unfold seg_unescape, path_unescape. rewrite unescape_no_pct; auto. Qed.
Print Assumptions C01_lit_no_pct.

(* POST / PUT / PATCH: the handler sees exactly the request, the caller gets exactly the reply.
   Premises besides the empty defect list: the method belongs to the service, method names are distinct,
   path-bound values print non-empty (the property's own premise), URL-capable fields are well typed, and
   the request is a canonical value (strictly increasing field numbers, every key a field, URL-capable
   singular scalars stored only when non-zero — what the harness's MsgCanon produces): the server applies
   the path values on top of the decoded body, and that gives the request back only for canonical values. *)
Theorem C01_body_verbs : forall sc fl sv md ct req resp w o,
  go_call sc fl sv md ct req resp = Ok (w, o) ->
  defects_C01 sc fl sv md ct req = [] ->
  verb_has_body (eff_verb (info_of fl sv md (in_fields sc md))) = true ->
  In md (sv_methods sv) -> NoDup (map md_name (sv_methods sv)) ->
  path_vals_nonempty (in_fields sc md) req (path_vars (info_of fl sv md (in_fields sc md))) = true ->
  req_typed (in_fields sc md) req ->
  canonical (in_fields sc md) req ->
  o = Delivered req resp.
Proof. exact go_call_body. Qed.
Print Assumptions C01_body_verbs.

(* GET / DELETE: every field of the input travels on the URL; the handler sees the same scalars. *)
Theorem C01_bodiless_verbs : forall sc fl sv md ct req resp w o,
  go_call sc fl sv md ct req resp = Ok (w, o) ->
  defects_C01 sc fl sv md ct req = [] ->
  verb_has_body (eff_verb (info_of fl sv md (in_fields sc md))) = false ->
  In md (sv_methods sv) -> NoDup (map md_name (sv_methods sv)) ->
  path_vals_nonempty (in_fields sc md) req (path_vars (info_of fl sv md (in_fields sc md))) = true ->
  req_typed (in_fields sc md) req ->
  NoDup (map f_name (in_fields sc md)) ->
  (forall f, In f (in_fields sc md) ->
     In (f_name f) (path_vars (info_of fl sv md (in_fields sc md))) \/ f_query f <> None) ->
  exists saw, o = Delivered saw resp /\
              forall f, In f (in_fields sc md) -> scalar_of saw f = scalar_of req f.
Proof. exact go_call_nobody. Qed.
Print Assumptions C01_bodiless_verbs.

(* an empty defect list also says that the variables of the client's template are exactly those of the
   method's own path *)
Theorem C01_template_ok_of_defects : forall sc fl sv md ct req resp w o,
  go_call sc fl sv md ct req resp = Ok (w, o) ->
  defects_C01 sc fl sv md ct req = [] ->
  template_ok (info_of fl sv md (in_fields sc md)) = true.
Proof. exact template_ok_of_defects. Qed.
Print Assumptions C01_template_ok_of_defects.

Theorem C01_defects_side_conditions : forall sc fl sv md ct req,
  defects_C01 sc fl sv md ct req = [] ->
  (verb_has_body (eff_verb (info_of fl sv md (in_fields sc md))) = false ->
     forall f, In f (query_fields (in_fields sc md)) -> qrequired f = true ->
               is_zero (scalar_of req f) = false) /\
  ~ In lbrace (ri_base (info_of fl sv md (in_fields sc md))) /\
  (verb_has_body (eff_verb (info_of fl sv md (in_fields sc md))) = false ->
     NoDup (map qname (query_fields (in_fields sc md)))).
Proof. exact defects_nil_inv2. Qed.
Print Assumptions C01_defects_side_conditions.

(* the same with every side condition as one boolean, checkable by computation *)
Theorem C01_body_verbs_b : forall sc fl sv md ct req resp w o,
  go_call sc fl sv md ct req resp = Ok (w, o) ->
  defects_C01 sc fl sv md ct req = [] ->
  In md (sv_methods sv) ->
  wf_body sc fl sv md req = true ->
  o = Delivered req resp.
Proof. exact go_call_body_b. Qed.
Print Assumptions C01_body_verbs_b.

Theorem C01_bodiless_verbs_b : forall sc fl sv md ct req resp w o,
  go_call sc fl sv md ct req resp = Ok (w, o) ->
  defects_C01 sc fl sv md ct req = [] ->
  In md (sv_methods sv) ->
  wf_nobody sc fl sv md req = true ->
  exists saw, o = Delivered saw resp /\
              forall f, In f (in_fields sc md) -> scalar_of saw f = scalar_of req f.
Proof. exact go_call_nobody_b. Qed.
Print Assumptions C01_bodiless_verbs_b.

(* a template is read the same way by ExtractPathParams and by the segment-wise reading *)
Theorem C01_extract_tsegs : forall p segs, tsegs p = Some segs -> extract_path_params p = seg_vars segs.
Proof. exact extract_tsegs. Qed.
Print Assumptions C01_extract_tsegs.

Definition mkf (n : str) (num : Z) (k : kind) (q : option query_cfg) : field :=
  {| f_name := n; f_number := num; f_kind := k; f_card := Singular; f_oneof := None; f_query := q;
     f_unwrap := false; f_int64 := None; f_enumenc := None; f_nullable := None; f_empty := None;
     f_tsfmt := None; f_bytesenc := None; f_oneof_value := None; f_flatten := None;
     f_flatten_prefix := None |}.
Definition mkmsg (n : str) (fs : list field) : message :=
  {| m_name := n; m_path := [n]; m_fields := fs; m_oneofs := [] |}.
Definition mkmd (n inp path : str) (v : nat) : method :=
  {| md_name := n; md_in := inp; md_out := s "Resp"; md_has_cfg := true; md_path := path;
     md_verb := Some v; md_headers := [] |}.
Definition mksv (base : str) (mds : list method) : service :=
  {| sv_name := s "Items"; sv_base := base; sv_headers := []; sv_methods := mds |}.
Definition mkfl (ms : list message) (sv : service) : file :=
  {| fl_path := s "a.proto"; fl_package := s "pkg"; fl_gopkg := s "pkg"; fl_generate := true;
     fl_messages := ms; fl_enums := []; fl_services := [sv] |}.

(* PUT /api/items/{id}/sub/{n} (string and int64 path variables, one body-only field),
   GET /api/items/{id}?page=..&q=.. *)
Definition put_md := mkmd (s "PutItem") (s "PutReq") (s "/items/{id}/sub/{n}") 3.
Definition get_md := mkmd (s "GetItem") (s "GetReq") (s "/items/{id}") 1.
Definition put_msg := mkmsg (s "PutReq")
  [mkf (s "id") 1 KString None; mkf (s "n") 2 KInt64 None; mkf (s "note") 3 KString None].
Definition get_msg := mkmsg (s "GetReq")
  [mkf (s "id") 1 KString None;
   mkf (s "page") 2 KInt32 (Some {| q_name := s "page"; q_required := false |});
   mkf (s "q") 3 KString (Some {| q_name := s "q"; q_required := true |})].
Definition sv1 := mksv (s "/api") [put_md; get_md].
Definition fl1 := mkfl [put_msg; get_msg; mkmsg (s "Resp") []] sv1.
Definition sc1 : schema := [fl1].
Definition resp1 : mval := [(s "ok", FS (VBool true))].
Definition put_req : mval :=
  [(s "id", FS (VStr (s "a b/c%"))); (s "n", FS (VInt (-5))); (s "note", FS (VStr (s "x")))].
Definition get_req : mval :=
  [(s "id", FS (VStr (s "a b/c%"))); (s "page", FS (VInt 7)); (s "q", FS (VStr (s "x y&z=1")))].

Example C01_body_nonvacuous :
  wf_body sc1 fl1 sv1 put_md put_req = true /\
  defects_C01 sc1 fl1 sv1 put_md CtJSON put_req = [] /\
  In put_md (sv_methods sv1) /\
  exists w, go_call sc1 fl1 sv1 put_md CtJSON put_req resp1 = Ok (w, Delivered put_req resp1) /\
            w_path w = s "/api/items/a%20b%2Fc%25/sub/-5".
Proof.
  vm_compute. split; [reflexivity|]. split; [reflexivity|].
  split; [left; reflexivity|]. eexists. split; reflexivity.
Qed.

Example C01_bodiless_nonvacuous :
  wf_nobody sc1 fl1 sv1 get_md get_req = true /\
  defects_C01 sc1 fl1 sv1 get_md CtProto get_req = [] /\
  In get_md (sv_methods sv1) /\
  exists w, go_call sc1 fl1 sv1 get_md CtProto get_req resp1 = Ok (w, Delivered get_req resp1) /\
            w_path w = s "/api/items/a%20b%2Fc%25" /\
            w_query w = [(s "page", s "7"); (s "q", s "x y&z=1")].
Proof.
  vm_compute. split; [reflexivity|]. split; [reflexivity|]. split; [right; left; reflexivity|].
  eexists. repeat split; reflexivity.
Qed.

(* a literal template segment holding a percent escape is routed: ServeMux unescapes literal pattern
   segments at registration and compares them with the unescaped request segment *)
Definition pct_md := mkmd (s "PutItem") (s "PutReq") (s "/a%41/{id}/sub/{n}") 3.
Definition sv_pct := mksv (s "/api") [pct_md].
Definition fl_pct := mkfl [put_msg] sv_pct.
Example C01_escaped_literal_is_routed :
  wf_body [fl_pct] fl_pct sv_pct pct_md put_req = true /\
  defects_C01 [fl_pct] fl_pct sv_pct pct_md CtJSON put_req = [] /\
  exists w, go_call [fl_pct] fl_pct sv_pct pct_md CtJSON put_req resp1 = Ok (w, Delivered put_req resp1) /\
            w_path w = s "/api/a%41/a%20b%2Fc%25/sub/-5".
Proof. vm_compute. split; [reflexivity|]. split; [reflexivity|]. eexists. split; reflexivity. Qed.

Definition outcome_of (x : result (wire_req * outcome)) : option outcome :=
  match x with Ok (_, o) => Some o | Unmodelled _ => None end.

(* application/octet-stream (since 4c12f0f): both sides use binary protobuf; the call is delivered intact *)
Example C01_octet_stream_delivered :
  defects_C01 sc1 fl1 sv1 put_md CtOctet put_req = [] /\
  outcome_of (go_call sc1 fl1 sv1 put_md CtOctet put_req resp1) = Some (Delivered put_req resp1).
Proof. vm_compute. split; reflexivity. Qed.

(* a path value "." is swallowed by ServeMux's path cleaning *)
Definition put_req_dot : mval := [(s "id", FS (VStr (s "."))); (s "n", FS (VInt 1))].
Example C01_refuted_dot_segment :
  defects_C01 sc1 fl1 sv1 put_md CtJSON put_req_dot = [C01DotSegment] /\
  outcome_of (go_call sc1 fl1 sv1 put_md CtJSON put_req_dot resp1) = Some NotRouted.
Proof. vm_compute. split; reflexivity. Qed.

(* a path value "/" (sent as %2F) is taken for a trailing slash *)
Definition put_req_slash : mval := [(s "id", FS (VStr (s "/"))); (s "n", FS (VInt 1))].
Example C01_refuted_slash_value :
  defects_C01 sc1 fl1 sv1 put_md CtJSON put_req_slash = [C01SlashValue] /\
  outcome_of (go_call sc1 fl1 sv1 put_md CtJSON put_req_slash resp1) = Some NotRouted.
Proof. vm_compute. split; reflexivity. Qed.

(* a required query parameter holding the zero value is not sent, and the server rejects the call *)
Definition get_req_zero : mval := [(s "id", FS (VStr (s "a")))].
Example C01_refuted_required_query_zero :
  defects_C01 sc1 fl1 sv1 get_md CtJSON get_req_zero = [C01RequiredQueryZeroElided] /\
  outcome_of (go_call sc1 fl1 sv1 get_md CtJSON get_req_zero resp1) = Some (Rejected (s "q")).
Proof. vm_compute. split; reflexivity. Qed.

(* a variable in the service base path: the client replaces only the method path's variables, "{tenant}"
   stays in the URL and net/url re-encodes the whole path — outside the model *)
Definition get2_md := mkmd (s "GetItem") (s "GetReq2") (s "/items/{id}") 1.
Definition get2_msg := mkmsg (s "GetReq2") [mkf (s "id") 1 KString None; mkf (s "tenant") 2 KString None].
Definition sv_base := mksv (s "/t/{tenant}") [get2_md].
Definition fl_base := mkfl [get2_msg] sv_base.
Definition get2_req : mval := [(s "id", FS (VStr (s "a"))); (s "tenant", FS (VStr (s "acme")))].
Example C01_base_path_variable_unmodelled :
  defects_C01 [fl_base] fl_base sv_base get2_md CtJSON get2_req = [C01BasePathVariable] /\
  go_call [fl_base] fl_base sv_base get2_md CtJSON get2_req resp1
    = Unmodelled (s "client path needs net/url re-encoding").
Proof. vm_compute. split; reflexivity. Qed.

(* likewise a literal byte that net/url would re-encode (here a space) *)
Definition sp_md := mkmd (s "PutItem") (s "PutReq") (s "/a b/{id}/sub/{n}") 3.
Definition sv_sp := mksv (s "/api") [sp_md].
Definition fl_sp := mkfl [put_msg] sv_sp.
Example C01_literal_needing_reencoding_unmodelled :
  go_call [fl_sp] fl_sp sv_sp sp_md CtJSON put_req resp1
    = Unmodelled (s "client path needs net/url re-encoding").
Proof. vm_compute. reflexivity. Qed.

(* two query fields sharing a parameter name: both fields read one value *)
Definition get3_msg := mkmsg (s "GetReq")
  [mkf (s "id") 1 KString None;
   mkf (s "a") 2 KInt32 (Some {| q_name := s "p"; q_required := false |});
   mkf (s "b") 3 KInt32 (Some {| q_name := s "p"; q_required := false |})].
Definition sv_dup := mksv (s "/api") [get_md].
Definition fl_dup := mkfl [get3_msg] sv_dup.
Definition get3_req : mval := [(s "id", FS (VStr (s "x"))); (s "a", FS (VInt 1)); (s "b", FS (VInt 2))].
Example C01_refuted_duplicate_query_name :
  defects_C01 [fl_dup] fl_dup sv_dup get_md CtJSON get3_req = [C01DuplicateQueryName] /\
  outcome_of (go_call [fl_dup] fl_dup sv_dup get_md CtJSON get3_req resp1)
    = Some (Delivered [(s "id", FS (VStr (s "x"))); (s "a", FS (VInt 1)); (s "b", FS (VInt 1))] resp1).
Proof. vm_compute. split; reflexivity. Qed.

(* an empty string in a path variable: "//" in the path, redirected by the mux; path-bound values are
   assumed non-empty by the property, so this carries no defect tag *)
Definition put_req_empty : mval := [(s "n", FS (VInt (-5)))].
Example C01_needs_nonempty_path_value :
  defects_C01 sc1 fl1 sv1 put_md CtJSON put_req_empty = [] /\
  path_vals_nonempty (in_fields sc1 put_md) put_req_empty
     (path_vars (info_of fl1 sv1 put_md (in_fields sc1 put_md))) = false /\
  outcome_of (go_call sc1 fl1 sv1 put_md CtJSON put_req_empty resp1) = Some NotRouted.
Proof. vm_compute. repeat split; reflexivity. Qed.

(* a request that is not canonical (here the path-bound int64 is stored although it is zero): the handler
   sees the canonical form of it, not the term the caller passed *)
Definition put_req_noncanon : mval := [(s "id", FS (VStr (s "a"))); (s "n", FS (VInt 0))].
Example C01_needs_canonical_request :
  defects_C01 sc1 fl1 sv1 put_md CtJSON put_req_noncanon = [] /\
  canonicalb (in_fields sc1 put_md) put_req_noncanon = false /\
  outcome_of (go_call sc1 fl1 sv1 put_md CtJSON put_req_noncanon resp1)
    = Some (Delivered [(s "id", FS (VStr (s "a")))] resp1).
Proof. vm_compute. repeat split; reflexivity. Qed.

(* GET /api/ (subtree) next to GET /api/one and PUT /api/x/{id}: the more specific pattern serves its own
   path; the subtree route serves the rest *)
Definition list_md := mkmd (s "List") (s "QReq") (s "/") 1.
Definition one_md := mkmd (s "One") (s "QReq") (s "/one") 1.
Definition putx_md := mkmd (s "PutX") (s "XReq") (s "/x/{id}") 3.
Definition q_msg := mkmsg (s "QReq") [mkf (s "page") 1 KInt32 (Some {| q_name := s "page"; q_required := false |})].
Definition x_msg := mkmsg (s "XReq") [mkf (s "id") 1 KString None].
Definition sv_root := mksv (s "/api") [list_md; one_md; putx_md].
Definition fl_root := mkfl [q_msg; x_msg] sv_root.
Definition q_req : mval := [(s "page", FS (VInt 3))].

Example C01_subtree_route_is_least_specific :
  defects_C01 [fl_root] fl_root sv_root one_md CtJSON q_req = [] /\
  outcome_of (go_call [fl_root] fl_root sv_root one_md CtJSON q_req resp1) = Some (Delivered q_req resp1) /\
  defects_C01 [fl_root] fl_root sv_root list_md CtJSON q_req = [] /\
  outcome_of (go_call [fl_root] fl_root sv_root list_md CtJSON q_req resp1) = Some (Delivered q_req resp1).
Proof. vm_compute. repeat split; reflexivity. Qed.

(* a path that the mux would redirect (dot segment) while a subtree route is registered: the redirect
   may reach a handler — outside the model *)
Example C01_redirect_into_subtree_unmodelled :
  go_call [fl_root] fl_root sv_root putx_md CtJSON [(s "id", FS (VStr (s ".")))] resp1
    = Unmodelled (s "redirect into a subtree route").
Proof. vm_compute. reflexivity. Qed.

(* a request path that is a registered subtree pattern minus its trailing slash ("/x" with POST /x/
   registered) and has no exact match: the mux redirects to "/x/" — outside the model.  (Here the path
   comes from the client's default route for an RPC without configured path.) *)
Definition xs_md := mkmd (s "Sub") (s "XReq") (s "/x/") 2.
Definition xd_md : method :=
  {| md_name := s "X"; md_in := s "XReq"; md_out := s "Resp"; md_has_cfg := false; md_path := [];
     md_verb := None; md_headers := [] |}.
Definition sv_xs := mksv [] [xs_md; xd_md].
Definition fl_xs := mkfl [x_msg] sv_xs.
Example C01_slash_redirect_unmodelled :
  go_call [fl_xs] fl_xs sv_xs xd_md CtJSON [(s "id", FS (VStr (s "a")))] resp1
    = Unmodelled (s "redirect into a subtree route").
Proof. vm_compute. reflexivity. Qed.

(* witnesses for the route and registration defect classes cited in KNOWN_FINDINGS.jsonl *)

Definition dispatched (sc : schema) (fl : file) (sv : service) (md : method) (ct : ctype) (req : mval)
  : option str :=
  match client_build fl sv md (in_fields sc md) ct req, server_routes sc fl sv with
  | Ok w, Ok (Some rs) => dispatched_to rs w
  | _, _ => None
  end.
Definition wire_path (x : result (wire_req * outcome)) : option str :=
  match x with Ok (w, _) => Some (w_path w) | Unmodelled _ => None end.
Definition x_req : mval := [(s "id", FS (VStr (s "a")))].

(* an RPC without configured path: the client calls /<lowerCamelMethod>, the server listens on
   /<gopkg>/<snake_method> *)
Definition cu_md : method :=
  {| md_name := s "CreateUser"; md_in := s "XReq"; md_out := s "Resp"; md_has_cfg := false; md_path := [];
     md_verb := None; md_headers := [] |}.
Definition sv_def := mksv [] [cu_md].
Definition fl_def := mkfl [x_msg] sv_def.
Example C01_refuted_default_path :
  defects_C01 [fl_def] fl_def sv_def cu_md CtJSON x_req = [C01Route DefaultPath] /\
  wire_path (go_call [fl_def] fl_def sv_def cu_md CtJSON x_req resp1) = Some (s "/createUser") /\
  rt_path (go_server (info_of fl_def sv_def cu_md (in_fields [fl_def] cu_md))) = s "/pkg/create_user" /\
  outcome_of (go_call [fl_def] fl_def sv_def cu_md CtJSON x_req resp1) = Some NotRouted.
Proof. vm_compute. repeat split; reflexivity. Qed.

(* a base path without leading slash: the server registers the host pattern "api/x/{id}" *)
Definition sv_bns := mksv (s "api") [putx_md].
Definition fl_bns := mkfl [x_msg] sv_bns.
Example C01_refuted_base_no_leading_slash :
  defects_C01 [fl_bns] fl_bns sv_bns putx_md CtJSON x_req = [C01Route BaseNoLeadingSlash] /\
  wire_path (go_call [fl_bns] fl_bns sv_bns putx_md CtJSON x_req resp1) = Some (s "/api/x/a") /\
  rt_path (go_server (info_of fl_bns sv_bns putx_md (in_fields [fl_bns] putx_md))) = s "api/x/{id}" /\
  outcome_of (go_call [fl_bns] fl_bns sv_bns putx_md CtJSON x_req resp1) = Some NotRouted.
Proof. vm_compute. repeat split; reflexivity. Qed.

(* a method path without leading slash and no base path: a host pattern ("x/{id}"), or — for a single
   word without any slash — a pattern ServeMux refuses *)
Definition pns_md := mkmd (s "PutX") (s "XReq") (s "x/{id}") 3.
Definition sv_pns := mksv [] [pns_md].
Definition fl_pns := mkfl [x_msg] sv_pns.
Definition word_md := mkmd (s "PutX") (s "XReq") (s "x") 3.
Definition sv_word := mksv [] [word_md].
Definition fl_word := mkfl [x_msg] sv_word.
Example C01_refuted_path_no_leading_slash :
  defects_C01 [fl_pns] fl_pns sv_pns pns_md CtJSON x_req = [C01Route PathNoLeadingSlashNoBase] /\
  wire_path (go_call [fl_pns] fl_pns sv_pns pns_md CtJSON x_req resp1) = Some (s "/x/a") /\
  outcome_of (go_call [fl_pns] fl_pns sv_pns pns_md CtJSON x_req resp1) = Some NotRouted /\
  defects_C01 [fl_word] fl_word sv_word word_md CtJSON x_req
    = [C01Route PathNoLeadingSlashNoBase; C01UncleanPattern] /\
  outcome_of (go_call [fl_word] fl_word sv_word word_md CtJSON x_req resp1) = Some RegistrationPanic.
Proof. vm_compute. repeat split; reflexivity. Qed.

(* a required query parameter on PUT: the client sends it in the body only, the server demands it in the
   query string *)
Definition rq_msg := mkmsg (s "RReq")
  [mkf (s "id") 1 KString None; mkf (s "q") 2 KString (Some {| q_name := s "q"; q_required := true |})].
Definition rqb_md := mkmd (s "PutR") (s "RReq") (s "/items/{id}") 3.
Definition sv_rqb := mksv (s "/api") [rqb_md].
Definition fl_rqb := mkfl [rq_msg] sv_rqb.
Definition r_req : mval := [(s "id", FS (VStr (s "a"))); (s "q", FS (VStr (s "z")))].
Example C01_refuted_required_query :
  defects_C01 [fl_rqb] fl_rqb sv_rqb rqb_md CtJSON r_req = [C01RequiredQueryOnBodyVerb] /\
  outcome_of (go_call [fl_rqb] fl_rqb sv_rqb rqb_md CtJSON r_req resp1) = Some (Rejected (s "q")).
Proof. vm_compute. split; reflexivity. Qed.

(* GET /items/{id} with id = "special" next to GET /items/special: the sibling's handler is reached *)
Definition gi_md := mkmd (s "GetItem") (s "XReq") (s "/items/{id}") 1.
Definition gs_md := mkmd (s "GetSpecial") (s "EReq") (s "/items/special") 1.
Definition e_msg := mkmsg (s "EReq") [].
Definition sv_sib := mksv (s "/api") [gi_md; gs_md].
Definition fl_sib := mkfl [x_msg; e_msg] sv_sib.
Definition sp_req : mval := [(s "id", FS (VStr (s "special")))].
Example C01_refuted_sibling :
  defects_C01 [fl_sib] fl_sib sv_sib gi_md CtJSON sp_req = [C01SiblingRoute] /\
  dispatched [fl_sib] fl_sib sv_sib gi_md CtJSON sp_req = Some (s "GetSpecial") /\
  outcome_of (go_call [fl_sib] fl_sib sv_sib gi_md CtJSON sp_req resp1) = Some (Delivered [] resp1).
Proof. vm_compute. repeat split; reflexivity. Qed.

(* a method path with an empty segment: every plugin accepts it, ServeMux.Handle panics on it *)
Definition dbl_md := mkmd (s "PutX") (s "XReq") (s "//x/{id}") 3.
Definition sv_dbl := mksv [] [dbl_md].
Definition fl_dbl := mkfl [x_msg] sv_dbl.
Example C01_refuted_registration_panic :
  defects_C01 [fl_dbl] fl_dbl sv_dbl dbl_md CtJSON x_req = [C01UncleanPattern] /\
  outcome_of (go_call [fl_dbl] fl_dbl sv_dbl dbl_md CtJSON x_req resp1) = Some RegistrationPanic.
Proof. vm_compute. split; reflexivity. Qed.

(* Path variables against the declaration order.
   The template lists its variables in URL order, the request message declares the bound fields in its
   own order (and numbering): GET /orgs/{org_id}/members/{user_id} over MemberReq{user_id = 1; org_id = 2},
   PUT /orgs/{org_id}/members/{n} over MemberPutReq{n = 1 (int64); note = 2; org_id = 3}.  Client and server
   pair a variable with the field of the same NAME: the values arrive unswapped, under both transports. *)
Definition ord_get_md := mkmd (s "GetMember") (s "MemberReq") (s "/orgs/{org_id}/members/{user_id}") 1.
Definition ord_put_md := mkmd (s "PutMember") (s "MemberPutReq") (s "/orgs/{org_id}/members/{n}") 3.
Definition ord_get_msg := mkmsg (s "MemberReq") [mkf (s "user_id") 1 KString None; mkf (s "org_id") 2 KString None].
Definition ord_put_msg := mkmsg (s "MemberPutReq")
  [mkf (s "n") 1 KInt64 None; mkf (s "note") 2 KString None; mkf (s "org_id") 3 KString None].
Definition sv_ord := mksv (s "/api") [ord_get_md; ord_put_md].
Definition fl_ord := mkfl [ord_get_msg; ord_put_msg; mkmsg (s "Resp") []] sv_ord.
Definition sc_ord : schema := [fl_ord].
Definition ord_get_req : mval := [(s "user_id", FS (VStr (s "u-1"))); (s "org_id", FS (VStr (s "acme")))].
Definition ord_put_req : mval :=
  [(s "n", FS (VInt 7)); (s "note", FS (VStr (s "x"))); (s "org_id", FS (VStr (s "acme")))].

Example C01_permuted_path_order_delivered :
  wf_nobody sc_ord fl_ord sv_ord ord_get_md ord_get_req = true /\
  defects_C01 sc_ord fl_ord sv_ord ord_get_md CtJSON ord_get_req = [] /\
  (exists w, go_call sc_ord fl_ord sv_ord ord_get_md CtJSON ord_get_req resp1 = Ok (w, Delivered ord_get_req resp1) /\
             w_path w = s "/api/orgs/acme/members/u-1") /\
  wf_body sc_ord fl_ord sv_ord ord_put_md ord_put_req = true /\
  defects_C01 sc_ord fl_ord sv_ord ord_put_md CtProto ord_put_req = [] /\
  (exists w, go_call sc_ord fl_ord sv_ord ord_put_md CtProto ord_put_req resp1 = Ok (w, Delivered ord_put_req resp1) /\
             w_path w = s "/api/orgs/acme/members/7").
Proof.
  vm_compute. split; [reflexivity|]. split; [reflexivity|].
  split; [eexists; split; reflexivity|]. split; [reflexivity|]. split; [reflexivity|].
  eexists; split; reflexivity.
Qed.

(* a body verb whose request is fully carried by the path still sends (and the server still reads) a body *)
Definition arch_md := mkmd (s "ArchiveNote") (s "ArchiveReq") (s "/notes/{id}/archive") 2.
Definition arch_msg := mkmsg (s "ArchiveReq") [mkf (s "id") 1 KString None].
Definition sv_arch := mksv (s "/api") [arch_md].
Definition fl_arch := mkfl [arch_msg; mkmsg (s "Resp") []] sv_arch.
Definition arch_req : mval := [(s "id", FS (VStr (s "n1")))].
Example C01_fully_path_bound_post_has_body :
  defects_C01 [fl_arch] fl_arch sv_arch arch_md CtJSON arch_req = [] /\
  exists w, go_call [fl_arch] fl_arch sv_arch arch_md CtJSON arch_req resp1 = Ok (w, Delivered arch_req resp1) /\
            w_body w = Some (BJson, arch_req) /\ w_path w = s "/api/notes/n1/archive".
Proof. vm_compute. split; [reflexivity|]. eexists. repeat split; reflexivity. Qed.
