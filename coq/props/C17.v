(* C17 — a request's outcome does not depend on other requests: the logic of the shared state.
   The Go memory model, net/http and protobuf internals are not modelled; data races in the real
   process are searched for with the race detector by the check (search, not proof). *)
From Sebuf Require Import Conc.
From SebufProofs Require Import ConcFacts.

Theorem C17_isolation : forall reqs sched sh' ts',
  run_sched init_shared (init_threads reqs) sched = (sh', ts') ->
  sh_next sh' <= 1 /\ forall req r v, In (req, TDone (r, v)) ts' -> r = req /\ v = 0.
Proof. exact isolation. Qed.
Print Assumptions C17_isolation.

Theorem C17_routes_unshared : forall methods get var m h,
  In (m, h) (register var methods get []) -> h = get m.
Proof. exact routes_unshared. Qed.
Print Assumptions C17_routes_unshared.

Theorem C17_call_options_local : forall defaults c1 c2 ct,
  call_headers defaults c1 ct = (s "Content-Type", ct) :: defaults ++ c1 /\
  (c1 = c2 -> call_headers defaults c1 ct = call_headers defaults c2 ct).
Proof. intros defaults c1 c2 ct. split; [reflexivity|now intros ->]. Qed.
Print Assumptions C17_call_options_local.

Example C17_nonvacuous :
  let '(sh, ts) := run_sched init_shared (init_threads [7; 8; 9]) [2; 0; 1; 1; 2; 0] in
  sh_next sh = 1 /\ ts = [(7, TDone (7, 0)); (8, TDone (8, 0)); (9, TDone (9, 0))].
Proof. vm_compute. split; reflexivity. Qed.

From Sebuf Require Import Headers.

Theorem C17_routes_config_isolated : forall svc var methods m hs rq bv bok,
  NoDup (map fst methods) -> In (m, hs) methods ->
  serve_route (register_routes svc var methods []) m rq bv bok = Some (go_serve svc hs rq bv bok).
Proof. exact routes_config_isolated. Qed.
Print Assumptions C17_routes_config_isolated.

Theorem C17_route_as_alone : forall svc var var' methods m hs rq bv bok,
  NoDup (map fst methods) -> In (m, hs) methods ->
  serve_route (register_routes svc var methods []) m rq bv bok =
  serve_route (register_routes svc var' [(m, hs)] []) m rq bv bok.
Proof.
  intros svc var var' methods m hs rq bv bok.
  intros Hnd Hin. rewrite !routes_config_isolated with (hs := hs); [reflexivity|repeat constructor; intros []|now left|assumption..].
Qed.
Print Assumptions C17_route_as_alone.

(* History independence: whatever was called before (and however those calls ended: not marshalled,
   not created, transport failure, 4xx, 5xx, undecodable answer, success; with whatever per-call
   options; on whichever instance) and whatever is called afterwards, a call observes exactly what
   it observes when it is the only call made on freshly constructed clients. *)
Theorem C17_history_independent : forall w pre c post,
  nth_error (run_calls w (pre ++ c :: post)) (List.length pre) = nth_error (run_calls w [c]) 0.
Proof. intros w pre c post. rewrite !run_calls_map. apply ListFacts.nth_error_map_mid. Qed.
Print Assumptions C17_history_independent.

Theorem C17_own_instance_only : forall w w' c,
  nth_error w (cc_client c) = nth_error w' (cc_client c) -> snd (do_call w c) = snd (do_call w' c).
Proof. intros w w' c. intros E. unfold do_call. rewrite E. destruct (nth_error w' (cc_client c)); reflexivity. Qed.
Print Assumptions C17_own_instance_only.

Theorem C17_plain_call_defaults : forall w c cl,
  nth_error w (cc_client c) = Some cl -> cc_ct c = [] -> cc_headers c = [] -> stage_sends (cc_stage c) = true ->
  snd (do_call w c) =
  Some {| co_sent := Some (hset_all ((s "Content-Type", cl_ct cl) :: cl_defaults cl)); co_ok := stage_ok (cc_stage c) |}.
Proof. exact plain_call_defaults. Qed.
Print Assumptions C17_plain_call_defaults.

(* a service with one optional and one required service header and two routes with a required header
   each: route A is judged by X-A, not by the sibling's X-B *)
Example C17_routes_nonvacuous :
  let svc := [ {| h_name := s "X-Trace"; h_type := s "string"; h_required := false; h_format := [] |};
               {| h_name := s "X-Api-Key"; h_type := s "string"; h_required := true; h_format := [] |} ] in
  let a := [ {| h_name := s "X-A"; h_type := s "string"; h_required := true; h_format := [] |} ] in
  let b := [ {| h_name := s "X-B"; h_type := s "string"; h_required := true; h_format := [] |} ] in
  let table := register_routes svc [] [(s "A", a); (s "B", b)] [] in
  option_map o_status (serve_route table (s "A") [(s "X-Api-Key", s "k"); (s "X-A", s "1")] true true) = Some 200%Z /\
  option_map o_violations (serve_route table (s "A") [(s "X-Api-Key", s "k"); (s "X-B", s "1")] true true) = Some [s "X-A"] /\
  option_map o_status (serve_route table (s "B") [(s "X-Api-Key", s "k"); (s "X-B", s "1")] true true) = Some 200%Z.
Proof. vm_compute. repeat split; reflexivity. Qed.

(* a call with per-call options that cannot be marshalled, then a plain call on the same instance and
   on another instance: the plain calls carry exactly Content-Type and their instance's defaults *)
Example C17_sequence_nonvacuous :
  let w := [ {| cl_ct := s "application/json"; cl_defaults := [(s "X-Client-Tag", s "c0")] |};
             {| cl_ct := s "application/x-protobuf"; cl_defaults := [] |} ] in
  let dirty := {| cc_client := 0; cc_ct := s "application/x-protobuf"; cc_headers := [(s "X-Tenant", s "t1")]; cc_stage := StMarshal |} in
  let plain k := {| cc_client := k; cc_ct := []; cc_headers := []; cc_stage := StOk |} in
  run_calls w [dirty; plain 0; plain 1] =
  [ Some {| co_sent := None; co_ok := false |};
    Some {| co_sent := Some [(s "content-type", s "application/json"); (s "x-client-tag", s "c0")]; co_ok := true |};
    Some {| co_sent := Some [(s "content-type", s "application/x-protobuf")]; co_ok := true |} ].
Proof. vm_compute. reflexivity. Qed.

Theorem C17_shared_message_isolated : forall table r pre rq post,
  NoDup (map sr_name table) -> In r table -> sq_route rq = sr_name r ->
  nth_error (run_shared table (pre ++ rq :: post)) (List.length pre) = Some (Some (serve_shared r rq)).
Proof. exact shared_message_isolated. Qed.
Print Assumptions C17_shared_message_isolated.

Theorem C17_shared_message_as_alone : forall table r pre rq post,
  NoDup (map sr_name table) -> In r table -> sq_route rq = sr_name r ->
  nth_error (run_shared table (pre ++ rq :: post)) (List.length pre) = nth_error (run_shared [r] [rq]) 0.
Proof.
  intros table r pre rq post.
  intros Hnd Hin Hr. rewrite (shared_message_isolated table r pre rq post Hnd Hin Hr).
  symmetry. apply (shared_message_isolated [r] r [] rq []); [repeat constructor; intros []|now left|exact Hr].
Qed.
Print Assumptions C17_shared_message_as_alone.

Theorem C17_undeclared_variable_unbound : forall params pv f m m',
  ~ In f params -> bind_path params pv m = SDispatch m' -> flookup f m' = flookup f m.
Proof. intros params pv f m m' Hn H. exact (bind_path_undeclared params pv f Hn m m' H). Qed.
Print Assumptions C17_undeclared_variable_unbound.

(* POST /projects/{project_id}/items and PUT /projects/{project_id}/items/{id} over one message, called
   in both orders: create never binds {id} (the body's value stays), update always does *)
Example C17_shared_nonvacuous :
  let create := {| sr_name := s "CreateItem"; sr_body := true; sr_path := [s "project_id"]; sr_query := [] |} in
  let update := {| sr_name := s "UpdateItem"; sr_body := true; sr_path := [s "project_id"; s "id"]; sr_query := [] |} in
  let c := {| sq_route := s "CreateItem"; sq_path := [(s "project_id", s "p1")]; sq_query := []; sq_body := [(s "id", s "b"); (s "name", s "n")] |} in
  let u := {| sq_route := s "UpdateItem"; sq_path := [(s "project_id", s "p2"); (s "id", s "i2")]; sq_query := []; sq_body := [(s "id", s "b"); (s "name", s "n")] |} in
  let rc := Some (SDispatch [(s "id", s "b"); (s "name", s "n"); (s "project_id", s "p1")]) in
  let ru := Some (SDispatch [(s "id", s "i2"); (s "name", s "n"); (s "project_id", s "p2")]) in
  run_shared [create; update] [c; u] = [rc; ru] /\ run_shared [create; update] [u; c] = [ru; rc].
Proof. vm_compute. split; reflexivity. Qed.

(* registration histories: the ServerOptions of one Register call never reach another (C17g) *)
Theorem C17_registration_as_alone : forall regs i r q,
  NoDup (map mkey (register_all 0 regs)) -> nth_error regs i = Some r ->
  rq_key q = mkey (mount i r) ->
  serve_reg (register_all 0 regs) q = serve_reg [mount i r] q.
Proof. exact registration_as_alone. Qed.
Print Assumptions C17_registration_as_alone.

Theorem C17_registration_own_options_only : forall k svc opts,
  ((forall o, In o opts -> is_hook o = false) -> mt_hook (mount k (svc, opts)) = None) /\
  ((forall o, In o opts -> is_mux o = false) -> mt_mux (mount k (svc, opts)) = []).
Proof. exact own_options_only. Qed.
Print Assumptions C17_registration_own_options_only.

(* Alpha with an error handler on mux m1, then Beta with no options, then Alpha again on m2 without a
   handler: Beta is on the default mux and answers 500 unhooked; Alpha on m2 is unhooked; nothing of
   Beta's is on m1 *)
Example C17_registration_nonvacuous :
  let regs := [(s "Alpha", [OMux (s "m1"); OHook (s "h0") 470%Z]); (s "Beta", []); (s "Alpha", [OMux (s "m2")])] in
  let t := register_all 0 regs in
  serve_reg t {| rq_mux := s "m1"; rq_svc := s "Alpha"; rq_fails := true |} = (470%Z, Some 0, s "h0") /\
  serve_reg t {| rq_mux := []; rq_svc := s "Beta"; rq_fails := true |} = (500%Z, Some 1, []) /\
  serve_reg t {| rq_mux := s "m1"; rq_svc := s "Beta"; rq_fails := false |} = (404%Z, None, []) /\
  serve_reg t {| rq_mux := s "m2"; rq_svc := s "Alpha"; rq_fails := true |} = (500%Z, Some 2, []).
Proof. vm_compute. repeat split; reflexivity. Qed.
